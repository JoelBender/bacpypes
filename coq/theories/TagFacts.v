(* TagFacts.v — one tag and lists of tags on the wire: round trip, totality, re-encoding of what was decoded;
   balanced groups and the two scans that cut them out (Any.decode, TagList.get_context). *)
From Bac Require Import Base BytesFacts Tag TagHdr.
Open Scope N_scope.

Lemma tag_roundtrip t :
  wf_tag t = true ->
  exists bs, enc_tag t = Ok bs /\ forall rest, dec_tag (bs ++ rest) = Ok (t, rest).
Proof.
  intros W. exists (spec_header t ++ data t). split; [exact (enc_tag_spec t W)|].
  intros rest. unfold dec_tag. rewrite <- app_assoc, (dec_spec_header t rest W). reflexivity.
Qed.

Lemma dec_tag_err bs e : dec_tag bs = Err e -> e = InvalidTag.
Proof.
  unfold dec_tag. destruct (dec_tag_raw bs) as [x|e0] eqn:E; [discriminate|].
  apply dec_tag_raw_err in E as ->. now intros [= <-].
Qed.

Lemma dec_tag_ok_raw bs t r : dec_tag bs = Ok (t, r) -> dec_tag_raw bs = Ok (t, r).
Proof.
  unfold dec_tag. destruct (dec_tag_raw bs) as [x|e0] eqn:E; [auto|]. destruct e0; discriminate.
Qed.

Lemma dec_tag_shape bs t r :
  dec_tag bs = Ok (t, r) ->
  exists h, bs = h ++ data t ++ r /\ (1 <= length h <= 7)%nat.
Proof.
  intros H. apply dec_tag_ok_raw, dec_tag_raw_inv in H as (h & Hbs & Hl & _). exists h. auto.
Qed.

Lemma dec_tag_wf bs t r :
  bytes_ok bs = true -> dec_tag bs = Ok (t, r) -> wf_tag t = true /\ bytes_ok r = true.
Proof.
  intros B H. apply dec_tag_ok_raw, dec_tag_raw_inv in H as (_ & _ & _ & K). exact (K B).
Qed.

Lemma dec_tag_consumes bs t r : dec_tag bs = Ok (t, r) -> (length r < length bs)%nat.
Proof.
  intros H. apply dec_tag_shape in H as (h & -> & Hl). rewrite !app_length. lia.
Qed.

Lemma dec_tags_fuel_irrel f1 : forall f2 bs,
  (length bs <= f1)%nat -> (length bs <= f2)%nat -> dec_tags_fuel f1 bs = dec_tags_fuel f2 bs.
Proof.
  induction f1 as [|f1 IH]; intros f2 bs H1 H2.
  - destruct bs; [|cbn in H1; lia]. destruct f2; reflexivity.
  - destruct bs as [|b bs]; [destruct f2; reflexivity|].
    destruct f2 as [|f2]; [cbn in H2; lia|].
    cbn [dec_tags_fuel]. destruct (dec_tag (b :: bs)) as [[t r]|e] eqn:E; cbn [bind]; [|reflexivity].
    apply dec_tag_consumes in E. cbn [length] in *.
    rewrite (IH f2 r) by lia. reflexivity.
Qed.

Lemma dec_tags_cons t bs r :
  dec_tag bs = Ok (t, r) -> dec_tags bs = do ts <- dec_tags r; Ok (t :: ts).
Proof.
  intros H. unfold dec_tags. destruct bs as [|b bs]; [discriminate H|].
  cbn [length dec_tags_fuel]. rewrite H. cbn [bind].
  pose proof (dec_tag_consumes _ _ _ H) as Hc. cbn [length] in Hc.
  rewrite (dec_tags_fuel_irrel (length bs) (length r) r) by lia. reflexivity.
Qed.

Theorem list_roundtrip ts :
  forallb wf_tag ts = true -> exists bs, enc_tags ts = Ok bs /\ dec_tags bs = Ok ts.
Proof.
  induction ts as [|t ts IH]; intros W.
  - exists []. split; reflexivity.
  - cbn [forallb] in W. apply andb_true_iff in W as [Wt Wts].
    destruct (IH Wts) as (b & Eb & Db).
    destruct (tag_roundtrip t Wt) as (a & Ea & Da).
    exists (a ++ b). cbn [enc_tags]. rewrite Ea, Eb. cbn [bind]. split; [reflexivity|].
    rewrite (dec_tags_cons t (a ++ b) b (Da b)), Db. reflexivity.
Qed.

(* total: a tag list or InvalidTag, the fuel never runs out; and from real octets every tag of the list is
   well formed *)
Lemma dec_tags_fuel_spec f : forall bs, (length bs <= f)%nat ->
  (exists ts, dec_tags_fuel f bs = Ok ts /\ (bytes_ok bs = true -> forallb wf_tag ts = true)) \/
  dec_tags_fuel f bs = Err InvalidTag.
Proof.
  induction f as [|f IH]; intros bs H.
  - destruct bs; [left; exists []; auto|cbn in H; lia].
  - destruct bs as [|b bs]; [left; exists []; auto|].
    cbn [dec_tags_fuel]. destruct (dec_tag (b :: bs)) as [[t r]|e] eqn:E; cbn [bind].
    + pose proof (dec_tag_consumes _ _ _ E) as Hc. cbn [length] in *.
      destruct (IH r) as [(ts & -> & Wts)| ->]; [lia| |right; reflexivity]. cbn [bind].
      left. exists (t :: ts). split; [reflexivity|]. intros B.
      destruct (dec_tag_wf _ _ _ B E) as [Wt Br]. cbn [forallb]. rewrite Wt. exact (Wts Br).
    + right. apply dec_tag_err in E as ->. reflexivity.
Qed.

Theorem dec_tags_total bs :
  (exists ts, dec_tags bs = Ok ts) \/ dec_tags bs = Err InvalidTag.
Proof. destruct (dec_tags_fuel_spec (length bs) bs (le_n _)) as [(ts & H & _)|H]; eauto. Qed.

Theorem dec_tags_reencode bs ts :
  bytes_ok bs = true -> dec_tags bs = Ok ts ->
  exists bs', enc_tags ts = Ok bs' /\ dec_tags bs' = Ok ts.
Proof.
  intros B H. apply list_roundtrip.
  destruct (dec_tags_fuel_spec (length bs) bs (le_n _)) as [(ts' & H' & W)|H']; unfold dec_tags in H;
    rewrite H' in H; [injection H as <-; exact (W B)|discriminate].
Qed.

Inductive balanced : list tag -> Prop :=
| bal_nil : balanced []
| bal_leaf t ts : cls t <> 2 -> cls t <> 3 -> balanced ts -> balanced (t :: ts)
| bal_group o body c rest :
    cls o = 2 -> cls c = 3 -> balanced body -> balanced rest ->
    balanced (o :: body ++ c :: rest).

Lemma balanced_head x ts : balanced (x :: ts) -> cls x <> 3.
Proof. intros H. inversion H; subst; lia. Qed.

Lemma any_take_balanced body : balanced body -> forall lvl tl,
  any_take lvl (body ++ tl) = do (g, r) <- any_take lvl tl; Ok (body ++ g, r).
Proof.
  induction 1 as [|t ts H2 H3 _ IH|o body c rest Ho Hc _ IHb _ IHr]; intros lvl tl.
  - cbn [app]. destruct (any_take lvl tl) as [[g r]|]; reflexivity.
  - cbn [app any_take].
    destruct (cls t =? 2) eqn:E2; [lia|]. destruct (cls t =? 3) eqn:E3; [lia|].
    rewrite IH. destruct (any_take lvl tl) as [[g r]|]; reflexivity.
  - cbn [app any_take]. rewrite Ho. cbn [N.eqb Pos.eqb].
    rewrite <- app_assoc. rewrite IHb. cbn [app any_take].
    rewrite Hc. cbn [N.eqb Pos.eqb]. rewrite IHr.
    destruct (any_take lvl tl) as [[g r]|]; cbn [bind]; [|reflexivity].
    rewrite <- app_assoc. reflexivity.
Qed.

Theorem any_decode_balanced body c rest :
  balanced body -> cls c = 3 -> any_decode (body ++ c :: rest) = Ok (body, c :: rest).
Proof.
  intros Hb Hc. unfold any_decode. rewrite (any_take_balanced body Hb).
  cbn [any_take]. rewrite Hc. cbn [N.eqb Pos.eqb bind]. now rewrite app_nil_r.
Qed.

Theorem any_decode_all body : balanced body -> any_decode body = Ok (body, []).
Proof.
  intros Hb. unfold any_decode. rewrite <- (app_nil_r body) at 1.
  rewrite (any_take_balanced body Hb). cbn [any_take bind]. now rewrite app_nil_r.
Qed.

(* TagList.get_context's inner scan is Any.decode's, except that it also consumes the closing tag it stops
   at and has no answer when the list ends first *)
Lemma collect_group_any ts : forall lvl, collect_group lvl ts =
  match any_take lvl ts with Ok (g, _ :: r) => Some (g, r) | _ => None end.
Proof.
  induction ts as [|t ts IH]; intros lvl; cbn [collect_group any_take]; [destruct lvl; reflexivity|].
  destruct (cls t =? 2); [|destruct (cls t =? 3); [destruct lvl as [|l]; [reflexivity|]|]];
    rewrite IH; destruct (any_take _ ts) as [[g [|c r]]|]; reflexivity.
Qed.

Lemma collect_group_nil lvl : collect_group lvl [] = None.
Proof. reflexivity. Qed.

(* get_context on an opening tag: the group up to its closing tag, or on to what follows it (with the fuel that
   is left: get_context_fuel has no lemma saying that more fuel changes nothing) *)
Lemma get_context_open ctx o ts : cls o = 2 -> get_context ctx (o :: ts) =
  match any_decode ts with
  | Ok (g, _ :: r) => if num o =? ctx then Ok (CtxGroup g) else get_context_fuel (length ts) ctx r
  | _ => Err InvalidTag
  end.
Proof.
  intros Ho. unfold get_context, any_decode. cbn [length get_context_fuel]. rewrite Ho, collect_group_any.
  destruct (any_take 0 ts) as [[g [|c r]]|]; reflexivity.
Qed.
