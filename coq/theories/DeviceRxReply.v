(* DeviceRxReply.v — C10, the answer half over the composed receive path: what a confirmed request from a station on
   the local network draws from the device does not depend on the device's history (tables, counters, ghosts, router
   cache), and a well-framed unsegmented request gets exactly one frame carrying its invoke ID. *)
From Bac Require Import Base PyRt Ssm SsmFacts SsmFrame SsmC04a SsmC04s.
From Bac Require Npci Apci RouterCache SsmWorld.
From Bac Require Import Asap AsapCodec AsapCodecFacts DeviceRx.
From BacGen Require Import ApduFns.
Open Scope Z_scope.

Definition frames_of (m : list N) (outs : list out) : list dout :=
  flat_map (fun o => match o with Tx a => [DFrame (mac_code m) None a] | ToApp _ => [] end) outs.

Lemma send_all_local outs : forall st m, snd (send_all st None m outs) = frames_of m outs.
Proof.
  induction outs as [|o r IH]; intros st m; cbn [send_all frames_of flat_map]; [reflexivity|].
  destruct o as [a|a]; [|apply IH].
  cbn [send]. specialize (IH st m). destruct (send_all st None m r) as [st2 o2]. cbn [snd] in *. rewrite IH. reflexivity.
Qed.

Lemma send_all_local_st outs : forall st m, fst (send_all st None m outs) = st.
Proof.
  induction outs as [|o r IH]; intros st m; cbn [send_all]; [reflexivity|].
  destruct o as [a|a]; [|apply IH].
  cbn [send]. specialize (IH st m). destruct (send_all st None m r) as [st2 o2]. cbn [fst] in *. exact IH.
Qed.

Lemma s_idle_shape a t0 c now :
  let r := fst (s_idle a (mkH t0 [] c now true)) in
  (exists fr, h_outs r = [Tx fr] /\ a_invoke fr = a_invoke a) \/ h_outs r = [] \/
  (h_outs r = [ToApp a] /\ h_live r = true /\ s_invoke (h_s r) = a_invoke a /\ s_peer (h_s r) = s_peer t0).
Proof.
  intros r. destruct (Z.eq_dec (a_type a) 0) as [Ht|Ht].
  - destruct (s_idle_spec a (mkH t0 [] c now true) Ht) as (Hp & Hi & _ & _ & new & Hn & Hc). fold r in Hp, Hi, Hn, Hc.
    cbn [h_outs h_s h_live] in *. rewrite app_nil_r in Hn. rewrite Hn.
    destruct Hc as [-> | [(-> & _ & Hl) | [(ab & ->) | (-> & _)]]];
      [right; left; reflexivity | right; right; auto | left; eexists; split; reflexivity ..].
  - right; left. subst r. rewrite (s_idle_not_request a _ Ht). reflexivity.
Qed.

(* the PDU type the ASAP chose if that is a SimpleAck, Error, Reject or Abort, and ComplexAck otherwise *)
Lemma reply_apdu_header req x r :
  a_invoke (reply_apdu req x r) = a_invoke req /\
  a_type (reply_apdu req x r) =
    (let t := Z.of_N (ptype r) in if (t =? 6) || (t =? 7) || (t =? 5) || (t =? 2) then t else 3).
Proof.
  unfold reply_apdu. cbv zeta.
  destruct (Z.of_N (ptype r) =? 6) eqn:E6; [cbn; split; [reflexivity | lia]|].
  destruct (Z.of_N (ptype r) =? 7) eqn:E7; [cbn; split; [reflexivity | lia]|].
  destruct (Z.of_N (ptype r) =? 5) eqn:E5; [cbn; split; [reflexivity | lia]|].
  destruct (Z.of_N (ptype r) =? 2) eqn:E2; cbn; split; (reflexivity || lia).
Qed.

Lemma app_replies_shape x a : app_replies x a = [] \/ exists r, app_replies x a = [reply_apdu a x r].
Proof.
  unfold app_replies.
  destruct (octets_shape (Z.to_N (a_service a)) (map Z.to_N (a_data a)) (x_helper x) (x_exec x)) as [(r & ->)|[-> _]];
    [right; now exists r | now left].
Qed.

Lemma blind_s_confirmation a : blind (s_confirmation a).
Proof.
  unfold s_confirmation.
  destruct (a_type a =? 7); [auto with blind|]. destruct (_ || _); [auto with blind|].
  destruct (a_type a =? 3); [|auto with blind].
  apply blind_mseq; [auto with blind|]. apply blind_withs; [reflexivity|]. intros s. cbv zeta.
  destruct (seg_count _ _) as [cnt|e]; [|auto with blind].
  apply blind_mseq; [auto with blind|]. destruct (s_refuse s cnt); auto 8 with blind.
Qed.

Lemma blind_s_idle a : blind (s_idle a).
Proof.
  unfold s_idle. destruct (negb _); [auto with blind|].
  apply blind_mseq; [auto with blind|]. apply blind_withs; [reflexivity|]. intros s.
  destruct (decode_max_apdu_length_accepted _) as [[dec|]|[]]; auto with blind.
  cbv zeta. destruct (dec_maxsegs _); auto 12 with blind.
Qed.

(* the reply function of a device: no tables, no counters, no history *)
Definition reply_frames (cfg : SsmWorld.nodecfg) (dcc now : Z) (m : list N) (a : apdu) (x : svc) : list dout :=
  if negb (dcc_passes dcc a) then [] else
  let r := fst (s_idle a (mkH (SsmWorld.new_ssm cfg (peer_code None m) false) [] 0 now true)) in
  flat_map (fun o => match o with
     | Tx fr => [DFrame (mac_code m) None fr]
     | ToApp q =>
         if a_type q =? 0 then
           flat_map (fun ra => frames_of m (rev (h_outs (fst (s_confirmation ra (mkH (h_s r) [] 0 now true))))))
                    (app_replies x q)
         else []
     end) (rev (h_outs r)).

(* a confirmed request from a local station under an invoke ID it has no live transaction for.  Idea: s_idle, and then
   s_confirmation on the transaction `place` has just appended (find_tr_snoc finds it), are run once with the device's
   counter and once with 0; being blind to the counter they emit the same *)
Lemma fresh_request_outs st now m a x : a_type a = 0 ->
  find_tr (a_invoke a) (peer_code None m) (d_str st) O = None ->
  snd (smap_rx st now None m a x) = reply_frames (d_cfg st) (d_dcc st) now m a x.
Proof.
  intros Ht Hf. unfold smap_rx, reply_frames.
  destruct (negb (dcc_passes (d_dcc st) a)); [reflexivity|].
  rewrite Ht. cbn [Z.eqb]. rewrite Hf. unfold run_server.
  set (peer := peer_code None m) in *. set (t0 := SsmWorld.new_ssm (d_cfg st) peer false).
  rewrite (s_indication_idle a (mkH t0 [] (d_tctr st) now true) eq_refl).
  destruct (blind_s_idle a (mkH t0 [] (d_tctr st) now true) (mkH t0 [] 0 now true) eq_refl) as (Hi & _).
  apply erase_eq in Hi as (Hm & Ho & _).
  pose proof (s_idle_shape a t0 (d_tctr st) now) as Hs. cbv zeta in Hs.
  set (r := fst (s_idle a (mkH t0 [] (d_tctr st) now true))) in *.
  set (r0 := fst (s_idle a (mkH t0 [] 0 now true))) in *.
  rewrite <- Ho.
  destruct Hs as [(fr & -> & _)|[->|(-> & Hlive & Hinv & Hpeer)]].
  - cbn [rev app do_outs send flat_map]. reflexivity.
  - reflexivity.
  - cbn [rev app do_outs flat_map]. rewrite Ht. cbn [Z.eqb]. rewrite app_nil_r.
    destruct (app_replies_shape x a) as [->|(q & ->)]; [reflexivity|]. set (ra := reply_apdu a x q).
    cbn [answer_all flat_map]. rewrite app_nil_r.
    assert (Hra : a_invoke ra = a_invoke a) by apply reply_apdu_header.
    assert (Hstr : d_str (place st None r) = d_str st ++ [h_s r]).
    { unfold place. rewrite Hlive. reflexivity. }
    set (st1 := place st None r) in *.
    unfold answer. rewrite Hra, Hstr.
    rewrite (find_tr_snoc (a_invoke a) peer (h_s r) (d_str st) O Hf).
    2:{ unfold tr_matches. rewrite Hinv, Hpeer. subst t0. cbn [SsmWorld.new_ssm s_peer]. lia. }
    destruct (blind_s_confirmation ra (mkH (h_s r) [] (d_tctr st1) now true) (mkH (h_s r0) [] 0 now true)) as (Hc & _).
    { apply erase_eq. auto. }
    apply erase_eq in Hc as (_ & Hco & _).
    match goal with |- context [send_all ?s None m ?o] =>
      pose proof (send_all_local o s m) as Hsa; destruct (send_all s None m o) as [s2 o2] end.
    cbn [snd] in *. rewrite Hsa, Hco. rewrite ?app_nil_r. repeat f_equal.
Qed.

Theorem local_request_history_independent st st' now m a x :
  d_cfg st' = d_cfg st -> d_dcc st' = d_dcc st -> a_type a = 0 ->
  find_tr (a_invoke a) (peer_code None m) (d_str st) O = None ->
  find_tr (a_invoke a) (peer_code None m) (d_str st') O = None ->
  snd (smap_rx st now None m a x) = snd (smap_rx st' now None m a x).
Proof.
  intros Hc Hd Ht H1 H2. rewrite (fresh_request_outs st now m a x Ht H1), (fresh_request_outs st' now m a x Ht H2).
  rewrite Hc, Hd. reflexivity.
Qed.

(* the application's answer leaves the device as exactly one frame under the transaction's invoke ID: the answer itself,
   or — for a ComplexAck that does not fit — its first segment or an Abort *)
Lemma s_confirmation_one_frame ra t c now :
  (a_type ra = 2 \/ a_type ra = 3 \/ a_type ra = 5 \/ a_type ra = 6 \/ a_type ra = 7) ->
  terminal t = false -> 0 < server_segsize t -> s_invoke t = a_invoke ra ->
  exists fr, h_outs (fst (s_confirmation ra (mkH t [] c now true))) = [Tx fr] /\ a_invoke fr = a_invoke ra /\
             (a_type ra <> 3 -> fr = ra).
Proof.
  intros Hty Hterm Hsz Hinv. unfold s_confirmation.
  assert (Simple : forall new, exists fr, h_outs (fst ((set_state new 0 ;; emit (Tx ra)) (mkH t [] c now true))) = [Tx fr] /\
             a_invoke fr = a_invoke ra /\ (a_type ra <> 3 -> fr = ra)).
  { intros new. unfold mseq. rewrite set_state_run by exact Hterm. exists ra. repeat split. }
  destruct (a_type ra =? 7) eqn:E7; [apply Simple|].
  destruct ((a_type ra =? 2) || (a_type ra =? 5) || (a_type ra =? 6)) eqn:E256; [apply Simple|].
  assert (E3 : a_type ra = 3) by lia. rewrite E3. cbn [Z.eqb Pos.eqb]. run_m.
  change (server_segsize (set_ctx_f (Some ra) t)) with (server_segsize t).
  destruct (seg_count (zlen (a_data ra)) (server_segsize t)) as [cnt|e] eqn:Ec; [|apply seg_count_err in Ec; lia].
  destruct (seg_count_bound _ _ _ (zlen_nonneg _) Hsz Ec) as (Hc1 & _).
  run_m. set (t1 := set_seg_f _ cnt _).
  destruct (s_refuse _ cnt) as [r|].
  - rewrite s_abort_run by exact Hterm. eexists; split; [reflexivity|]. split; [exact Hinv | intros; lia].
  - run_m. set (t2 := set_actwin_f _ _).
    destruct (cnt =? 1) eqn:E1.
    + run_m. rewrite set_state_run by exact Hterm. exists ra. repeat split.
    + unfold send_seg. run_m.
      assert (G : get_segment t2 0 = Ok (mk_cack true true 0 (s_propwin t) (a_invoke ra) (a_service ra)
                                           (slice (a_data ra) 0 (server_segsize t)))).
      { unfold get_segment. subst t2 t1. cbn [s_ctx s_segcount set_actwin_f set_initseq_f set_segretry_f set_seg_f set_ctx_f].
        replace (cnt <=? 0) with false by lia. rewrite E1, E3. cbn [Z.eqb Pos.eqb negb andb].
        replace (0 <? cnt - 1) with true by lia. reflexivity. }
      rewrite G. run_m. rewrite set_state_run by exact Hterm.
      eexists. split; [reflexivity|]. split; [reflexivity | intros; lia].
Qed.
