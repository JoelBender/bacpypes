(* AddrFacts.v — lemmas about the address model Addr.v: decimal and hexadecimal text, splitting,
   `$` and newline, character classes, equality / tuple laws. *)
From Bac Require Import Base ListFacts Addr.
From Coq Require Import ZifyBool.
Open Scope N_scope.

(* lia for goals with / and mod on N: after zify they are Z's, whose division equations lia can use *)
Ltac lia_div := zify; Z.to_euclidean_division_equations; lia.

Lemma is_digit_spec c : is_digit c = true <-> 48 <= c <= 57.
Proof. unfold is_digit. lia. Qed.

Lemma is_hex_spec c : is_hex c = true <-> 48 <= c <= 57 \/ 65 <= c <= 70 \/ 97 <= c <= 102.
Proof. unfold is_hex, is_digit. lia. Qed.

Lemma digit_is_hex c : is_digit c = true -> is_hex c = true.
Proof. unfold is_hex. intros ->. reflexivity. Qed.

Lemma forallb_notin {A} (f : A -> bool) (s : list A) (c : A) :
  forallb f s = true -> f c = false -> ~ In c s.
Proof.
  intros H Hc Hin. rewrite forallb_forall in H. apply H in Hin. congruence.
Qed.

Lemma list_eqb_N_eq (a b : list N) : list_eqb N.eqb a b = true <-> a = b.
Proof.
  revert b. induction a as [|x r IH]; intros [|y s]; cbn [list_eqb]; split; try congruence; try discriminate.
  - intro H. apply andb_true_iff in H as [H1 H2]. apply N.eqb_eq in H1. apply IH in H2. congruence.
  - intro H. injection H as -> ->. rewrite N.eqb_refl. cbn [andb]. now apply IH.
Qed.

Lemma digits_spec s : digits s = true <-> s <> [] /\ forallb is_digit s = true.
Proof.
  destruct s as [|c r]; [split; [discriminate|intros [H _]; congruence]|].
  split; [intro H; split; [discriminate|exact H]|intros [_ H]; exact H].
Qed.

Lemma digits_forall s : digits s = true -> forallb is_digit s = true.
Proof. intro H. apply digits_spec in H as [_ H]. exact H. Qed.

Lemma digits_nonempty s : digits s = true -> s <> [].
Proof. intro H. apply digits_spec in H as [H _]. exact H. Qed.

Lemma digits_head s : digits s = true -> exists c r, s = c :: r /\ is_digit c = true.
Proof.
  destruct s as [|c r]; [discriminate|]. cbn [digits forallb]. intro H.
  apply andb_true_iff in H as [Hc _]. now exists c, r.
Qed.

Lemma digits_notin s c : digits s = true -> is_digit c = false -> ~ In c s.
Proof. intros H. apply forallb_notin. now apply digits_forall. Qed.

Lemma not_digits s c : In c s -> is_digit c = false -> digits s = false.
Proof. intros Hin Hc. destruct (digits s) eqn:E; [|reflexivity]. now destruct (digits_notin s c E Hc). Qed.

Lemma dec_acc_app a s1 s2 : dec_acc a (s1 ++ s2) = dec_acc (dec_acc a s1) s2.
Proof. revert a. induction s1 as [|c r IH]; intro a; cbn [dec_acc app]; [reflexivity|apply IH]. Qed.

(* ds is a numeral of n: decimal digits, at least one, and reading ds behind an accumulator a shifts a by
   |ds| places and adds n *)
Definition numeral (ds : str) (n : N) : Prop :=
  forallb is_digit ds = true /\ ds <> [] /\ forall a, dec_acc a ds = a * 10 ^ lenN ds + n.

Lemma numeral_digit n : n < 10 -> numeral [48 + n] n.
Proof.
  intro H. repeat split.
  - cbn [forallb]. rewrite andb_true_r. apply is_digit_spec. lia.
  - discriminate.
  - intro a. cbn [dec_acc]. change (10 ^ lenN [48 + n]) with 10. lia.
Qed.

Lemma numeral_snoc ds q r : numeral ds q -> r < 10 -> numeral (ds ++ [48 + r]) (q * 10 + r).
Proof.
  intros (D & Hne & V) Hr. repeat split.
  - rewrite forallb_app, D. cbn [forallb andb]. rewrite andb_true_r. apply is_digit_spec. lia.
  - destruct ds; discriminate.
  - intro a. rewrite dec_acc_app, V. cbn [dec_acc].
    unfold lenN. rewrite app_length. cbn [length]. rewrite Nat.add_1_r, Nat2N.inj_succ, N.pow_succ_r'.
    fold (lenN ds). lia.
Qed.

Lemma dec_aux_ok : forall fuel n acc, n < 10 ^ N.of_nat (S fuel) ->
  exists ds, dec_aux fuel n acc = ds ++ acc /\ numeral ds n.
Proof.
  assert (One : forall n acc, n < 10 -> exists ds, (48 + n mod 10) :: acc = ds ++ acc /\ numeral ds n).
  { intros n acc Hn. exists [48 + n]. rewrite (N.mod_small n 10 Hn). split; [reflexivity|now apply numeral_digit]. }
  induction fuel as [|f IH]; intros n acc Hn; cbn [dec_aux].
  - apply One. exact Hn.
  - destruct (n / 10 =? 0) eqn:E; [apply One; lia_div|].
    assert (Hq : n / 10 < 10 ^ N.of_nat (S f)).
    { rewrite (Nat2N.inj_succ (S f)), N.pow_succ_r' in Hn. lia_div. }
    destruct (IH (n / 10) ((48 + n mod 10) :: acc) Hq) as (ds & E1 & Hds).
    exists (ds ++ [48 + n mod 10]). split; [rewrite E1, <- app_assoc; reflexivity|].
    pose proof (numeral_snoc ds (n / 10) (n mod 10) Hds) as G.
    replace (n / 10 * 10 + n mod 10) with n in G by lia_div. apply G. lia_div.
Qed.

(* n < 2 ^ size n <= 10 ^ size n: one round per binary digit is fuel enough *)
Lemma dec_fuel_enough n : n < 10 ^ N.of_nat (S (N.to_nat (N.size n))).
Proof.
  rewrite Nat2N.inj_succ, N2Nat.id.
  apply N.lt_le_trans with (2 ^ N.size n); [apply N.size_gt|].
  apply N.le_trans with (10 ^ N.size n); [apply N.pow_le_mono_l; lia|apply N.pow_le_mono_r; lia].
Qed.

Lemma dec_str_digits n : digits (dec_str n) = true.
Proof.
  unfold dec_str. destruct (dec_aux_ok _ n [] (dec_fuel_enough n)) as (ds & -> & D & Hne & _).
  rewrite app_nil_r. now apply digits_spec.
Qed.
Lemma dec_str_val n : dec_val (dec_str n) = n.
Proof.
  unfold dec_str, dec_val. destruct (dec_aux_ok _ n [] (dec_fuel_enough n)) as (ds & -> & _ & _ & V).
  rewrite app_nil_r, V. lia.
Qed.

Lemma dec_strZ_nonneg z : (0 <= z)%Z -> dec_strZ z = dec_str (Z.to_N z).
Proof. intro H. unfold dec_strZ. destruct z; try reflexivity; lia. Qed.

Lemma hexdigit_ok d : d < 16 -> is_hex (hexdigit d) = true /\ hexval (hexdigit d) = d.
Proof.
  intro H. unfold hexdigit. destruct (d <? 10) eqn:E; (split; [apply is_hex_spec; lia|unfold hexval]).
  - rewrite (proj2 (is_digit_spec (48 + d))) by lia. lia.
  - destruct (is_digit (87 + d)) eqn:F; [apply is_digit_spec in F; lia|]. destruct (97 <=? 87 + d) eqn:G; lia.
Qed.

Lemma byte_nibbles b : byte_ok b = true -> b / 16 < 16 /\ b mod 16 < 16 /\ b / 16 * 16 + b mod 16 = b.
Proof. unfold byte_ok. intro H. lia_div. Qed.

Lemma btox_hex l : bytes_ok l = true -> forallb is_hex (btox l) = true.
Proof.
  induction l as [|b r IH]; [reflexivity|]. cbn [bytes_ok forallb btox].
  intro H. apply andb_true_iff in H as [Hb Hr]. destruct (byte_nibbles b Hb) as (Hq & Hm & _).
  rewrite (proj1 (hexdigit_ok _ Hq)), (proj1 (hexdigit_ok _ Hm)). apply IH, Hr.
Qed.

Lemma unhex_btox l : bytes_ok l = true -> unhex (btox l) = Ok l.
Proof.
  induction l as [|b r IH]; [reflexivity|]. cbn [bytes_ok forallb btox unhex].
  intro H. apply andb_true_iff in H as [Hb Hr]. destruct (byte_nibbles b Hb) as (Hq & Hm & E).
  rewrite (IH Hr), (proj2 (hexdigit_ok _ Hq)), (proj2 (hexdigit_ok _ Hm)), E. reflexivity.
Qed.

Lemma xtob_hex h : forallb is_hex h = true -> xtob h = unhex h.
Proof. intro H. unfold xtob. rewrite forallb_forall in H. now rewrite (filter_all _ _ H). Qed.

Lemma xtob_btox l : bytes_ok l = true -> xtob (btox l) = Ok l.
Proof. intro H. rewrite (xtob_hex _ (btox_hex l H)). now apply unhex_btox. Qed.

Lemma btox_length l : length (btox l) = (2 * length l)%nat.
Proof. induction l as [|b r IH]; [reflexivity|]. cbn [btox length]. lia. Qed.

Lemma hex_pairs_spec h : hex_pairs h = true <-> h <> [] /\ N.even (lenN h) = true /\ forallb is_hex h = true.
Proof.
  unfold hex_pairs. destruct h as [|a r]; [split; [discriminate|intros [H _]; congruence]|].
  rewrite andb_true_iff. split; [intros [A B]; repeat split; [discriminate|exact A|exact B]|tauto].
Qed.

Lemma hex_pairs_forall h : hex_pairs h = true -> forallb is_hex h = true.
Proof. intro H. now apply hex_pairs_spec in H. Qed.

Lemma hex_pairs_btox l : l <> [] -> bytes_ok l = true -> hex_pairs (btox l) = true.
Proof.
  intros Hne H. apply hex_pairs_spec. repeat split.
  - destruct l; [congruence|discriminate].
  - unfold lenN. rewrite btox_length, Nat2N.inj_mul. change (N.of_nat 2) with 2. rewrite N.even_mul. reflexivity.
  - now apply btox_hex.
Qed.

Lemma unhex_total h : N.even (lenN h) = true -> exists b, unhex h = Ok b.
Proof.
  remember (length h) as k eqn:Hk. revert h Hk.
  induction k as [k IH] using lt_wf_ind. intros h Hk He.
  destruct h as [|a [|b r]].
  - exists []. reflexivity.
  - discriminate.
  - destruct (IH (length r)) with (h := r) as [t Ht]; [cbn [length] in Hk; lia|reflexivity| |].
    + unfold lenN in *. cbn [length] in He. rewrite !Nat2N.inj_succ in He.
      rewrite N.even_succ, <- N.negb_even, N.even_succ, <- N.negb_even, negb_involutive in He. exact He.
    + exists (hexval a * 16 + hexval b :: t). cbn [unhex]. rewrite Ht. reflexivity.
Qed.

Lemma hex_pairs_unhex h : hex_pairs h = true -> exists b, unhex h = Ok b.
Proof. intro H. apply hex_pairs_spec in H as (_ & He & _). exact (unhex_total h He). Qed.

Lemma split_at_app c a b : ~ In c a -> split_at c (a ++ c :: b) = Some (a, b).
Proof.
  induction a as [|x r IH]; intro H; cbn [app split_at].
  - rewrite N.eqb_refl. reflexivity.
  - destruct (x =? c) eqn:E.
    + exfalso. apply H. left. lia.
    + rewrite IH; [reflexivity|]. intro Hin. apply H. now right.
Qed.

Lemma split_at_none c s : ~ In c s -> split_at c s = None.
Proof.
  induction s as [|x r IH]; intro H; cbn [split_at]; [reflexivity|].
  destruct (x =? c) eqn:E.
  - exfalso. apply H. left. lia.
  - rewrite IH; [reflexivity|]. intro Hin. apply H. now right.
Qed.

Lemma split_at_spec c s a b : split_at c s = Some (a, b) <-> s = a ++ c :: b /\ ~ In c a.
Proof.
  split; [|intros [-> H]; now apply split_at_app].
  revert a. induction s as [|x r IH]; intro a; cbn [split_at]; [discriminate|].
  destruct (x =? c) eqn:E.
  - intro H. injection H as <- <-. apply N.eqb_eq in E. subst. split; [reflexivity|intros []].
  - destruct (split_at c r) as [[a' b']|]; [|discriminate]. intro H. injection H as <- <-.
    destruct (IH a' eq_refl) as [-> Hn]. split; [reflexivity|]. apply N.eqb_neq in E. intros [->|Hi]; auto.
Qed.

(* no newline => `$` sees the whole text *)
Definition nonl (s : str) : bool := forallb (fun c => negb (c =? 10)) s.
Lemma nonl_notin s : nonl s = true <-> ~ In 10 s.
Proof.
  unfold nonl. rewrite forallb_forall. split.
  - intros H Hin. apply H in Hin. discriminate.
  - intros H x Hx. destruct (x =? 10) eqn:E; [|reflexivity]. apply N.eqb_eq in E. now subst.
Qed.
Lemma strip_nl_cases s : s = strip_nl s \/ s = strip_nl s ++ [10].
Proof.
  unfold strip_nl. destruct s as [|x r]; [now left|].
  destruct (last (x :: r) 0 =? 10) eqn:E; [right|now left].
  apply N.eqb_eq in E. rewrite <- E. apply app_removelast_last. discriminate.
Qed.
Lemma strip_nl_nonl s : nonl s = true -> strip_nl s = s.
Proof.
  intro H. destruct (strip_nl_cases s) as [E|E]; [now symmetry|].
  exfalso. apply (proj1 (nonl_notin s) H). rewrite E. apply in_or_app. right. now left.
Qed.

(* the characters of a notation: a base class (digits, hex digits) and its separators.  A character outside
   the class does not occur in the text (forallb_notin): that is how the absence of newline, '@', ':' ... is shown. *)
Definition cls (base : N -> bool) (seps : list N) (c : N) : bool := base c || existsb (N.eqb c) seps.

Lemma cls_base base seps s : forallb base s = true -> forallb (cls base seps) s = true.
Proof. rewrite !forallb_forall. intros H x Hx. unfold cls. now rewrite (H x Hx). Qed.

Lemma forallb_not_single (f : N -> bool) s c : forallb f s = true -> f c = false -> str_eqb s [c] = false.
Proof.
  intros H Hc. destruct (str_eqb s [c]) eqn:E; [|reflexivity]. apply list_eqb_N_eq in E. subst s.
  cbn [forallb] in H. rewrite Hc in H. discriminate.
Qed.

Lemma not_starts_0x (f : N -> bool) s : forallb f s = true -> f 120 = false -> starts_0x s = false.
Proof.
  intros H Hf. unfold starts_0x. destruct s as [|a [|b r]]; try reflexivity.
  cbn [forallb] in H. apply andb_true_iff in H as [_ H]. apply andb_true_iff in H as [Hb _].
  destruct (b =? 120) eqn:E; [|apply andb_false_r]. apply N.eqb_eq in E. congruence.
Qed.

Lemma opt_eqb_eq {A} (e : A -> A -> bool) :
  (forall x y, e x y = true <-> x = y) -> forall a b, opt_eqb e a b = true <-> a = b.
Proof.
  intros He [x|] [y|]; cbn [opt_eqb]; split; try congruence; try discriminate.
  - intro H. apply He in H. congruence.
  - intro H. injection H as ->. now apply He.
Qed.

Lemma aty_eqb_eq a b : aty_eqb a b = true <-> a = b.
Proof. unfold aty_eqb. destruct a, b; cbn; split; intro H; try reflexivity; try discriminate; lia. Qed.

Definition key (a : addr) := (ty a, net a, mac a).

Lemma key_eq a b : key a = key b <-> ty a = ty b /\ net a = net b /\ mac a = mac b.
Proof. unfold key. split; [intro K; injection K; auto|intros (-> & -> & ->); reflexivity]. Qed.

Lemma eqb_spec a b : eqb a b = true <->
  key a = key b /\ (forall r1 r2, route a = Some r1 -> route b = Some r2 -> r1 = r2).
Proof.
  unfold eqb, mac_eqb.
  rewrite !andb_true_iff, aty_eqb_eq, (opt_eqb_eq Z.eqb Z.eqb_eq), (opt_eqb_eq _ list_eqb_N_eq), key_eq.
  assert (R : match route a, route b with Some r1, Some r2 => list_eqb N.eqb r1 r2 | _, _ => true end = true
              <-> forall r1 r2, route a = Some r1 -> route b = Some r2 -> r1 = r2).
  { destruct (route a) as [x|], (route b) as [y|]; try (split; [discriminate|reflexivity]).
    rewrite list_eqb_N_eq. split; [intros -> r1 r2 H1 H2; congruence|intro H; now apply H]. }
  rewrite R. tauto.
Qed.

Lemma eqb_key a b : route a = None \/ route b = None -> (eqb a b = true <-> key a = key b).
Proof.
  intro Hr. rewrite eqb_spec. split; [tauto|]. intro K. split; [exact K|].
  intros r1 r2 H1 H2. destruct Hr; congruence.
Qed.

Lemma eqb_refl a : eqb a a = true.
Proof. apply eqb_spec. split; [reflexivity|congruence]. Qed.

Lemma eqb_sym a b : eqb a b = eqb b a.
Proof.
  assert (Sym : forall x y, eqb x y = true -> eqb y x = true).
  { intros x y. rewrite !eqb_spec. intros [K R]. split; [now symmetry|]. intros r1 r2 H1 H2. symmetry. now apply R. }
  destruct (eqb a b) eqn:E1, (eqb b a) eqn:E2; try reflexivity.
  - apply Sym in E1. congruence.
  - apply Sym in E2. congruence.
Qed.

Lemma eqb_trans a b c : route a = None -> route b = None -> route c = None ->
  eqb a b = true -> eqb b c = true -> eqb a c = true.
Proof.
  intros Ha Hb Hc H1 H2.
  apply (eqb_key a b) in H1; [|now left]. apply (eqb_key b c) in H2; [|now left].
  apply (eqb_key a c); [now left|]. congruence.
Qed.

(* with route_aware off (the default) the law needs no route hypothesis *)
Lemma eqb_tuple_unaware a b : eqb a b = true -> tuple false a = tuple false b.
Proof. intro H. apply eqb_spec in H as [K _]. apply key_eq in K as (H1 & H2 & H3). unfold tuple. congruence. Qed.

Lemma eqb_tuple a b ra : route a = None -> route b = None ->
  eqb a b = true -> tuple ra a = tuple ra b.
Proof.
  intros Ha Hb H. apply eqb_tuple_unaware in H. unfold tuple in *. rewrite Ha, Hb. destruct ra; exact H.
Qed.
