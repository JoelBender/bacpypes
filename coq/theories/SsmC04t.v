(* SsmC04t.v — C04, bounded time: every time-out of a client transaction uses up a budget that depends only on the
   configured retry count. *)
From Bac Require Import Base PyRt Ssm SsmFrame SsmC04a SsmC04.
Open Scope Z_scope.

(* time-outs left, worst case: each of the (retries - retryCount) request retries can be followed by (retries + 1)
   segment time-outs *)
Definition budget (s : ssm) : Z := (s_retries s - s_retry s) * (s_retries s + 2) + (s_retries s + 1 - s_segretry s).
Definition cnt_ok (s : ssm) : Prop := 0 <= s_retry s <= s_retries s /\ 0 <= s_segretry s <= s_retries s.

Lemma c_segmented_request_timeout_budget : forall st, cnt_ok (h_s st) ->
  let r := c_segmented_request_timeout st in
  snd r = None -> h_live (fst r) = true -> h_live st = true -> budget (h_s (fst r)) < budget (h_s st) /\ cnt_ok (h_s (fst r)).
Proof.
  intros [s outs ctr now live] Hc. destruct_ssm s. unfold cnt_ok in Hc. cbn [h_s s_retry s_retries s_segretry] in Hc.
  unfold c_segmented_request_timeout, c_abort.
  path_split; unfold budget, cnt_ok; mcbn; intros; try discriminate;
    destruct Hc as ((? & ?) & (? & ?)); (split; [nia | repeat split; lia]).
Qed.

Lemma c_indication_counters : forall r sr a,
  inv (fun st => s_retries (h_s st) = r /\ (s_segretry (h_s st) = 0 \/ s_segretry (h_s st) = sr)) (c_indication a).
Proof.
  intros r sr a. unfold c_indication, c_abort, send_seg.
  inv_auto ltac:(idtac; lazymatch goal with |- inv _ (upd (set_segretry_f 0)) => intros ? (? & _); split; [assumption | left; reflexivity] end).
Qed.

Lemma c_give_up_unlisted : forall st, snd (c_segmented_confirmation_timeout st) = None ->
  h_live (fst (c_segmented_confirmation_timeout st)) = false.
Proof.
  intros [s outs ctr now live]. destruct_ssm s. unfold c_segmented_confirmation_timeout, c_abort.
  path_split; mcbn; intros; first [discriminate | reflexivity].
Qed.

Lemma c_await_confirmation_timeout_budget : forall st, cnt_ok (h_s st) ->
  let r := c_await_confirmation_timeout st in
  snd r = None -> h_live (fst r) = true -> h_live st = true ->
  budget (h_s (fst r)) < budget (h_s st) /\ cnt_ok (h_s (fst r)).
Proof.
  intros st Hc. rewrite c_await_confirmation_timeout_eq.
  destruct (s_retry (h_s st) <? s_retries (h_s st)) eqn:E.
  2:{ cbv zeta. intros He Hl. rewrite (c_give_up_unlisted st He) in Hl. discriminate Hl. }
  cbv zeta. destruct (s_ctx (h_s st)) as [c|]; [|cbn; intros; discriminate].
  set (st1 := mkH _ _ _ _ _). unfold mseq.
  destruct (c_indication_counters _ _ c st1 (conj eq_refl (or_intror eq_refl))) as (H1 & H3).
  destruct (c_indication c st1) as [st2 [e|]]; [cbn; intros; discriminate|].
  (* budget and cnt_ok read the three counters: retries as before, retryCount one more, segmentRetryCount as before or 0 *)
  subst st1. cbn [fst snd h_live h_s upd] in *. intros _ _ _. unfold budget, cnt_ok in *. cbn [s_retries s_retry s_segretry set_retry_f] in *.
  destruct Hc as ((? & ?) & (? & ?)). rewrite H1.
  destruct H3 as [H3|H3]; rewrite H3; split; try nia; repeat split; lia.
Qed.

Lemma timeout_budget : forall st, h_live st = true -> terminal (h_s st) = false -> cnt_ok (h_s st) ->
  let r := c_process_task st in
  snd r = None -> h_live (fst r) = true -> budget (h_s (fst r)) < budget (h_s st) /\ cnt_ok (h_s (fst r)).
Proof.
  intros st Hl Ht Hc. cbv zeta. apply c_process_task_cases; [intros _ | rewrite Ht; discriminate].
  split; [|split]; intros He H.
  - apply c_segmented_request_timeout_budget; assumption.
  - apply c_await_confirmation_timeout_budget; assumption.
  - rewrite (c_give_up_unlisted st He) in H. discriminate H.
Qed.

(* so at most `budget` time-outs in a row *)
Lemma budget_nonneg : forall s, cnt_ok s -> 0 <= budget s.
Proof. intros s ((? & ?) & (? & ?)). unfold budget. nia. Qed.
