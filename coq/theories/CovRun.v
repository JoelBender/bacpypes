(* CovRun.v — what props/C16.v takes over about whole runs (from CovFacts.step_facts), single steps of the deferred queue
   (by computation), the answer to a subscription (needs distinct identities of Subscription objects, `idinv`) and the
   active-subscriptions list.  Here and in the next two files `Theorem` marks what props/C16.v takes over. *)
From Bac Require Import Base ListFacts Cov CovFacts.
Open Scope Z_scope.

Lemma init_inv : forall os, NoDup (oids os) -> inv (init os).
Proof. intros os H. unfold inv, init. cbn. repeat split; [constructor|exact H|constructor]. Qed.

Definition is_cancel_of (k : Z * Z * Z) (e : ev) : Prop :=
  match e with Cancel c p o => k = (c, p, o) | CancelNow c p o => k = (c, p, o) | _ => False end.

(* every notification of a run goes to an entry of the table the run starts from or to a subscription made on the way,
   at an instant at which that entry has not lapsed *)
Theorem run_ntfs : forall es s n, inv s -> Forall wf_ev es -> In n (all_ntfs (snd (run s es))) ->
  exists x, (In x (subs s) \/ Exists (is_subscribe_of (key x)) es) /\ now s <= n_at n /\
            ntf_of (n_at n) x n /\ sub_live_le (n_at n) x.
Proof.
  induction es as [|e r IH]; intros s n Hi Hw Hn; [destruct Hn|]. cbn in Hn. inversion Hw as [|? ? Hwe Hwr]; subst.
  destruct (step s e) as [s1 o] eqn:S. destruct (step_facts _ _ _ _ Hi Hwe S) as [Hi1 Hnow Hnew _ _ Hntf].
  specialize (IH s1 n Hi1 Hwr). destruct (run s1 r) as [s2 os]. cbn in *. apply in_app_or in Hn as [Hn|Hn].
  - destruct (Hntf n Hn) as [x [tau [Hx [Ht [Hof Hl]]]]]. pose proof Hof as [_ [_ [_ Hat]]]. rewrite Hat. exists x.
    split; [destruct Hx as [Hx|[_ Hx]]; [left; exact Hx | right; left; exact Hx]|]. split; [lia|]. split; assumption.
  - destruct (IH Hn) as [x [Hx [Ht [Hof Hl]]]]. exists x. split; [|split; [lia | split; assumption]].
    destruct Hx as [Hx|Hx]; [|right; right; exact Hx].
    destruct (Hnew x Hx) as [Hx0|Hx0]; [left; exact Hx0 | right; left; exact Hx0].
Qed.

Theorem no_notify_after_cancel : forall s e k s' out es,
  inv s -> is_cancel_of k e -> step s e = (s', out) -> o_ack out = 1 ->
  Forall wf_ev es -> Forall (fun e => ~ is_subscribe_of k e) es ->
  forall n, In n (all_ntfs (snd (run s' es))) -> nkey n <> k.
Proof.
  intros s e k s' out es Hi Hc S Hack Hw Hns n Hn E.
  assert (Hwf : wf_ev e) by (destruct e; try contradiction; exact I).
  destruct (step_facts _ _ _ _ Hi Hwf S) as [Hi' _ _ _ Hgone _].
  destruct (run_ntfs es s' n Hi' Hw Hn) as [x [Hx [_ [[Hk _] _]]]]. rewrite Hk in E. destruct Hx as [Hx|Hx].
  - destruct e; try contradiction; cbn in Hc; subst k; apply (Hgone Hack); rewrite <- E; apply in_map; exact Hx.
  - rewrite E in Hx. exact (proj1 (Forall_Exists_neg _ _) Hns Hx).
Qed.

(* every notification goes to a table entry (or to the subscription just made), in its mode,
   not later than its expiry instant, with the time remaining computed from that instant *)
Theorem notification_content : forall s e s' out n,
  inv s -> wf_ev e -> step s e = (s', out) -> In n (o_ntfs out) ->
  exists x, (In x (subs s) \/ (In x (subs s') /\ is_subscribe_of (key x) e)) /\
    nkey n = key x /\ n_conf n = s_conf x /\ now s <= n_at n <= now s' /\
    match s_task x with
    | Some (t, _) => n_at n <= t /\ n_trem n = remaining (s_life x) t (n_at n) /\ 0 < s_life x
    | None => n_trem n = 0 /\ s_life x = 0
    end.
Proof.
  intros s e s' out n Hi Hw S Hn.
  destruct (sp_ntfs _ _ _ _ (step_facts _ _ _ _ Hi Hw S) n Hn) as [x [tau [Hx [Ht [[Hk [Hc [Htr Hat]]] Hl]]]]]. exists x. rewrite Hat.
  split; [exact Hx|]. split; [exact Hk|]. split; [exact Hc|]. split; [exact Ht|].
  rewrite Htr, (trem_remaining _ _ Hl). unfold sub_live_le in Hl. destruct (s_task x) as [[t k]|]; [|auto].
  destruct Hl. auto.
Qed.

Theorem no_notify_after_expiry : forall es s x t k,
  inv s -> In x (subs s) -> s_task x = Some (t, k) -> Forall wf_ev es ->
  Forall (fun e => ~ is_subscribe_of (key x) e) es ->
  forall n, In n (all_ntfs (snd (run s es))) -> nkey n = key x ->
  n_at n <= t /\ n_trem n = remaining (s_life x) t (n_at n) /\ n_conf n = s_conf x.
Proof.
  intros es s x t k Hi Hx Htask Hw Hns n Hn Hkey.
  destruct (run_ntfs es s n Hi Hw Hn) as [x' [Hx' [_ [[Hk [Hc [Htr _]]] Hl]]]]. rewrite Hkey in Hk. destruct Hx' as [Hx'|Hx'].
  - assert (x' = x) by (apply (nodup_map_inj key (subs s)); auto; apply Hi). subst x'.
    rewrite Htr, (trem_remaining _ _ Hl). unfold sub_live_le in Hl. rewrite Htask in *.
    split; [apply Hl|]. split; [reflexivity | exact Hc].
  - rewrite <- Hk in Hx'. elim (proj1 (Forall_Exists_neg _ _) Hns Hx').
Qed.

Lemma ntfs_nodup : forall nw ob o sb, NoDup (keys sb) -> NoDup (map nkey (map (mk_ntf nw ob) (subs_of o sb))).
Proof. intros nw ob o sb H. rewrite map_map. unfold subs_of. cbn. apply (NoDup_map_filter key). exact H. Qed.

(* _execute of the live detection instance: every subscription of the object gets the current values once,
   nobody else anything; the trigger is cleared and the reported value remembered *)
Theorem execute_step : forall s o g r ob s' out, inv s -> queue s = DExec o g :: r ->
  find_obj o (objs s) = Some ob -> bound ob = true -> gen ob = g ->
  step s StepQ = (s', out) ->
  o_ntfs out = map (mk_ntf (now s) ob) (subs_of o (subs s)) /\
  NoDup (map nkey (o_ntfs out)) /\
  (forall x, In x (subs s) -> s_oid x = o -> In (mk_ntf (now s) ob x) (o_ntfs out)) /\
  (forall n, In n (o_ntfs out) -> n_oid n = o /\ n_pv n = pv ob /\ n_fl n = fl ob) /\
  queue s' = r /\ subs s' = subs s /\
  exists ob', find_obj o (objs s') = Some ob' /\ trig ob' = false /\ pv ob' = pv ob /\
    (reports_prev (okind ob) = true -> prev ob' = Some (pv ob)).
Proof.
  intros s o g r ob s' out [Hnd _] Q F Hb Hg S. cbn [step] in S. rewrite Q in S. cbn [run_dfn] in S.
  cbn [objs set_queue] in S. rewrite F, Hb, Hg, Z.eqb_refl in S. cbn in S. inversion S; subst s' out; clear S.
  cbn [o_ntfs queue subs objs set_objs set_queue now]. split; [reflexivity|]. split.
  { apply ntfs_nodup. exact Hnd. }
  split. { intros x Hx Ho. apply in_map. apply subs_of_In. auto. }
  split. { intros n Hn. apply in_map_iff in Hn as [x [<- Hx]]. apply subs_of_In in Hx as [_ Ho]. cbn. auto. }
  split; [reflexivity|]. split; [reflexivity|].
  exists (set_trig (report ob) false). split.
  { apply (find_obj_upd o _ _ ob F). cbn. rewrite (proj1 (report_det ob)). apply find_obj_some in F. tauto. }
  unfold report. destruct (reports_prev (okind ob)); cbn; auto. split; [reflexivity|]. split; [reflexivity|discriminate].
Qed.

(* _execute of a detection instance that has been unbound meanwhile reaches nobody *)
Theorem stale_execute_step : forall s o g r s' out, queue s = DExec o g :: r ->
  (forall ob, find_obj o (objs s) = Some ob -> bound ob = false \/ gen ob <> g) ->
  step s StepQ = (s', out) -> o_ntfs out = [] /\ s' = set_queue s r.
Proof.
  intros s o g r s' out Q H S. cbn [step] in S. rewrite Q in S. cbn [run_dfn] in S. cbn [objs set_queue] in S.
  destruct (find_obj o (objs s)) as [ob|] eqn:F; [|inversion S; auto].
  destruct (H ob eq_refl) as [Hb|Hg].
  - rewrite Hb in S. cbn in S. inversion S; auto.
  - apply Z.eqb_neq in Hg. rewrite Hg, andb_false_r in S. inversion S; auto.
Qed.

(* The identity of a new Subscription object is the counter (Cov.subscribe_now), so identities below the counter are
   never handed out again; a renewal keeps the identity.  With distinct identities `find_id` returns the entry a
   queued initial notification was made for, which is what subscribe_initial needs. *)
Definition idinv (s : st) : Prop := Forall (fun x => s_id x < ctr s) (subs s) /\ NoDup (map s_id (subs s)).

(* idinv s = ids_ok (ctr s) (subs s) *)
Definition ids_ok (c : Z) (sb : list sub) : Prop := Forall (fun x => s_id x < c) sb /\ NoDup (map s_id sb).

Lemma init_id : forall os, idinv (init os).
Proof. intro os. split; constructor. Qed.

Lemma find_id_in : forall sb x, NoDup (map s_id sb) -> In x sb -> find_id (s_id x) sb = Some x.
Proof. intros sb x. apply (find_unique s_id). intro a. apply Z.eqb_eq. Qed.

Lemma ids_ok_mono : forall sb c c', c <= c' -> ids_ok c sb -> ids_ok c' sb.
Proof. intros sb c c' H [F N]. split; [|exact N]. eapply Forall_impl; [|exact F]. cbn. intros. lia. Qed.

Lemma ids_ok_filter : forall (g : sub -> bool) sb c, ids_ok c sb -> ids_ok c (filter g sb).
Proof.
  intros g sb c [F N]. split; [|apply NoDup_map_filter; exact N].
  apply Forall_forall. intros x Hx. apply filter_In in Hx as [Hx _]. rewrite Forall_forall in F. auto.
Qed.

Lemma subscribe_now_id : forall s c p o cf life s' ok code, inv s -> idinv s ->
  subscribe_now s c p o cf life = (s', ok, code) -> idinv s' /\ ctr s <= ctr s'.
Proof.
  intros s c p o cf life s' ok code [Hk _] [Hlt Hnd] H.
  destruct (subscribe_now_cases _ _ _ _ _ _ _ _ _ H) as [[-> _]|[_ (ob & ob2 & nsub & P)]]; [split; [split; auto|lia]|].
  pose proof (sn_ctr P) as Hc. split; [|exact Hc]. unfold idinv. rewrite Forall_forall in Hlt.
  destruct (sn_subs P) as [[y [Fy [Hid ->]]]|[_ [Hid [Hc1 ->]]]]; split.
  - apply find_sub_some in Fy as [Hy _]. apply Forall_forall. intros x Hx. apply in_map_iff in Hx as [x0 [<- Hx0]].
    destruct (key_eqb c p o x0); [rewrite Hid; specialize (Hlt y Hy)|specialize (Hlt x0 Hx0)]; lia.
  - apply find_sub_some in Fy as [Hy Hky]. rewrite map_replace; [exact Hnd|]. intros x Hx E. apply key_eqb_iff in E.
    rewrite Hid. f_equal. apply (nodup_map_inj key (subs s)); auto; congruence.
  - apply Forall_app. split; [apply Forall_forall; intros x Hx; specialize (Hlt x Hx); lia|constructor; [lia|constructor]].
  - rewrite map_app. apply nodup_snoc; [exact Hnd|]. cbn. rewrite Hid. intro Hin. apply in_map_iff in Hin as [x [E Hx]].
    specialize (Hlt x Hx). lia.
Qed.

Lemma cancel_now_id : forall s c p o s' ok code, idinv s -> cancel_now s c p o = (s', ok, code) ->
  idinv s' /\ ctr s' = ctr s.
Proof.
  intros s c p o s' ok code Hid H.
  destruct (cancel_now_cases _ _ _ _ _ _ _ H) as [[-> _]|[_ [[y [_ ->]]|[_ ->]]]]; (split; [|reflexivity]); try exact Hid.
  exact (ids_ok_filter _ _ _ Hid).
Qed.

Lemma fire_item_id : forall s it, idinv s -> idinv (fst (fire_item s it)).
Proof.
  intros s [k [c p o|o]] Hid; cbn.
  - destruct (find_sub c p o (subs s)); cbn; [|exact Hid]. destruct (task_eqb _ _ _); cbn; [|exact Hid].
    exact (ids_ok_filter _ _ _ Hid).
  - destruct (find_obj o (objs s)); cbn; [|exact Hid]. destruct (task_eqb _ _ _); cbn; [|exact Hid].
    apply (ids_ok_mono (subs s) (ctr s) (ctr s + 1)); [lia|exact Hid].
Qed.

Lemma ticks_id : forall n s, idinv s -> idinv (fst (ticks n s)).
Proof. apply ticks_pres; [intros s H; exact H|apply fire_item_id]. Qed.

Lemma drain_id : forall s s1 ns, idinv s -> drain s = (s1, ns) -> idinv s1 /\ ctr s1 = ctr s.
Proof.
  intros s s1 ns H D. unfold drain in D. apply run_queue_facts in D as [Fr _]. unfold idinv. rewrite (df_subs _ _ Fr), (df_ctr _ _ Fr). auto.
Qed.

Definition same_vals (a b : obj) : Prop := pv a = pv b /\ fl a = fl b /\ okind a = okind b.

Lemma run_dfn_find : forall s d s1 ns i ob, run_dfn s d = (s1, ns) -> find_obj i (objs s) = Some ob ->
  exists ob', find_obj i (objs s1) = Some ob' /\ same_vals ob' ob.
Proof.
  intros s d s1 ns i ob H F.
  destruct (run_dfn_cases _ _ _ _ H) as [[-> _]|(a & a' & xs & Fa & -> & _ & _ & Ha)]; [exists ob; unfold same_vals; auto|].
  assert (Hs : same_vals a' a /\ oid a' = oid a).
  { destruct (report_shape a) as [pr E]. destruct Ha as [[_ [_ ->]]|[k [_ ->]]]; rewrite E; unfold same_vals; cbn; auto. }
  cbn [objs set_objs]. destruct (Z.eq_dec i (oid a)) as [->|Hne].
  - rewrite (find_obj_upd _ a' _ a Fa (proj2 Hs)). exists a'. split; [reflexivity|]. rewrite F in Fa. inversion Fa. tauto.
  - rewrite find_obj_upd_other; [|exact Hne|intros; exact (proj2 Hs)]. exists ob. unfold same_vals. auto.
Qed.

Lemma run_queue_find : forall q s s1 ns i ob, run_queue q s = (s1, ns) -> find_obj i (objs s) = Some ob ->
  exists ob', find_obj i (objs s1) = Some ob' /\ same_vals ob' ob.
Proof.
  induction q as [|d r IH]; intros s s1 ns i ob H F; cbn in H.
  - inversion H; subst. exists ob. unfold same_vals. auto.
  - destruct (run_dfn s d) as [sa na] eqn:E1. destruct (run_queue r sa) as [sb nb] eqn:E2. inversion H; subst.
    destruct (run_dfn_find _ _ _ _ _ _ E1 F) as [oa [Fa [A1 [A2 A3]]]].
    destruct (IH _ _ _ _ _ E2 Fa) as [ob' [Fb [B1 [B2 B3]]]]. exists ob'. unfold same_vals. split; [exact Fb|]. repeat split; congruence.
Qed.

Theorem subscribe_initial : forall s c p o cf life s' out ob,
  inv s -> idinv s -> wf_ev (Subscribe c p o cf life) -> step s (Subscribe c p o cf life) = (s', out) ->
  find_obj o (objs s) = Some ob -> okind ob <> KNoCov ->
  o_ack out = 1 /\
  In (mkNtf c p o cf (life_of life) (pv ob) (fl ob) (now s)) (o_ntfs out) /\
  queue s' = [] /\
  exists x, find_sub c p o (subs s') = Some x /\ s_conf x = cf /\ s_life x = life_of life /\
    (life_of life = 0 -> s_task x = None) /\
    (0 < life_of life -> exists k, s_task x = Some (now s + life_of life * TICKS, k)).
Proof.
  intros s c p o cf life s' out ob Hi Hid Hwf S F HK. cbn [step] in S. pose proof (wf_life life Hwf) as Hlf.
  (* the first drain empties the queue and keeps the values of ob (ob1); subscribe_now queues the initial notification
     of nsub, so the second drain runs exactly [DInit (s_id nsub)]; identities are distinct, so find_id returns nsub *)
  destruct (drain s) as [s1 n1] eqn:D1. destruct (drain_facts _ _ _ Hi D1) as [A1 [B1 [C1 [Q1 _]]]].
  destruct (drain_id _ _ _ Hid D1) as [I1 _].
  unfold drain in D1. destruct (run_queue_find _ _ _ _ _ _ D1 F) as [ob1 [F1 [V1 [V2 V3]]]].
  destruct (subscribe_now s1 c p o cf life) as [[s2 ok] code] eqn:SN.
  destruct (subscribe_now_facts _ _ _ _ _ _ _ _ _ A1 Hlf SN) as [A2 _].
  destruct (subscribe_now_id _ _ _ _ _ _ _ _ _ A1 I1 SN) as [[_ Hnd2] _].
  destruct (subscribe_now_cases _ _ _ _ _ _ _ _ _ SN) as [[_ [_ Hno]]|[-> (ob' & ob2 & nsub & P)]]; [elim HK; rewrite <- V3; auto|].
  pose proof (sn_find P) as F'. rewrite F1 in F'. inversion F'; subst ob'; clear F'.
  destruct (sn_bound P) as [_ [P1 P2]]. pose proof (sn_key P) as Hkey. unfold key in Hkey. injection Hkey as K1 K2 K3.
  destruct (drain s2) as [s3 n3] eqn:D3. destruct (drain_facts _ _ _ A2 D3) as [A3 [B3 [C3 [Q3 _]]]].
  inversion S; subst s' out; clear S. cbn [req_out o_ack o_ntfs ack_out].
  split; [reflexivity|]. split.
  - apply in_or_app. right. unfold drain in D3. rewrite (sn_queue P), Q1 in D3. cbn [app run_queue run_dfn] in D3.
    cbn [subs objs set_queue] in D3. rewrite (find_id_in _ _ Hnd2 (sn_in P)), K3, (sn_found P) in D3. inversion D3 as [[E3 E4]].
    left. unfold mk_ntf. rewrite K1, K2, K3, (sn_conf P), P1, P2, V1, V2, (sn_now P), B1. f_equal.
    unfold trem. rewrite (sn_life P). destruct (life_of life =? 0) eqn:E0; [lia|].
    destruct (proj2 (sn_task P) ltac:(lia)) as [k ->]. rewrite B1. unfold TICKS.
    replace (now s + life_of life * 8 - now s) with (life_of life * 8) by lia. rewrite Z.quot_mul by lia. rewrite E0. reflexivity.
  - split; [exact Q3|]. exists nsub. rewrite C3. pose proof (sn_task P) as [T1 T2]. rewrite B1 in T2.
    split; [rewrite <- K1, <- K2, <- K3; apply find_sub_in; [apply A2|exact (sn_in P)]|]. split; [exact (sn_conf P)|]. split; [exact (sn_life P)|auto].
Qed.

Lemma akey_mk_act : forall nw os x, akey (mk_act nw os x) = key x /\ a_conf (mk_act nw os x) = s_conf x
  /\ a_trem (mk_act nw os x) = trem nw x.
Proof.
  intros. unfold mk_act. destruct (find_obj (s_oid x) os) as [o|]; [destruct (okind o)|]; cbn; auto.
Qed.

Theorem active_list_exact : forall s c s' out, inv s -> (step s (ReadActive c) = (s', out) \/ step s (ReadNow c) = (s', out)) ->
  exists l, o_act out = Some l /\ map akey l = keys (subs s) /\ NoDup (map akey l) /\
    forall a, In a l -> exists x, In x (subs s) /\ akey a = key x /\ a_conf a = s_conf x /\
      match s_task x with
      | Some (t, _) => now s < t /\ a_trem a = remaining (s_life x) t (now s)
      | None => a_trem a = 0 /\ s_life x = 0
      end.
Proof.
  intros s c s' out Hi S.
  (* either way the list is read off the table of s; the objects it is read with do not matter *)
  assert (Hl : exists os, o_act out = Some (map (mk_act (now s) os) (subs s))).
  { destruct S as [S|S]; cbn [step] in S.
    - destruct (drain s) as [s1 ns] eqn:D. pose proof (drain_facts _ _ _ Hi D) as [_ [B [C _]]].
      inversion S; subst s' out. exists (objs s1). cbn [o_act]. unfold read_active. rewrite C, B. reflexivity.
    - inversion S; subst s' out. exists (objs s). reflexivity. }
  destruct Hl as [os ->]. eexists. split; [reflexivity|].
  assert (E : map akey (map (mk_act (now s) os) (subs s)) = keys (subs s)).
  { rewrite map_map. apply map_ext. intro x. apply akey_mk_act. }
  split; [exact E|]. split; [rewrite E; apply Hi|].
  intros a Ha. apply in_map_iff in Ha as [x [<- Hx]]. exists x. split; [exact Hx|].
  destruct (akey_mk_act (now s) os x) as [K1 [K2 K3]]. split; [exact K1|]. split; [exact K2|].
  destruct Hi as [_ [_ Hlive]]. rewrite Forall_forall in Hlive. specialize (Hlive x Hx).
  rewrite K3, (trem_remaining _ _ (live_le _ _ Hlive)). unfold sub_live in Hlive.
  destruct (s_task x) as [[t k]|]; [split; [tauto|reflexivity]|auto].
Qed.

Definition not_due_before (x : sub) (tm : Z) : Prop :=
  match s_task x with Some (t, _) => tm < t | None => True end.
