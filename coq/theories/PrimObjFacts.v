(* PrimObjFacts.v — object life cycles (PrimObj.v): encode observes the value only and leaves it alone,
   decode-into does not depend on what the object held before, and after set_long(w) the encoder
   emits exactly the word w. *)
From Bac Require Import Base BytesFacts Tag Prim PrimTables PrimInt PrimFacts PrimObj.
Open Scope N_scope.

Definition is_encode (o : op) : Prop := o = OEncApp \/ exists c, o = OEncCtx c.

Lemma encode_keeps_state tb otb maxi k s o :
  is_encode o \/ o = OGetLong -> snd (step tb otb maxi k s o) = s.
Proof.
  intros [[->|[c ->]]| ->]; cbn [step snd]; try reflexivity.
  destruct s; reflexivity.
Qed.

(* what an encode call shows is a function of the current value — not of the history that led to it *)
Lemma encode_obs_app tb otb maxi k s : fst (step tb otb maxi k s OEncApp) = ores zs (enc_octets_app tb s).
Proof. reflexivity. Qed.
Lemma encode_obs_ctx tb otb maxi k s c : fst (step tb otb maxi k s (OEncCtx c)) = ores zs (enc_octets_ctx tb c s).
Proof. reflexivity. Qed.

(* a history may end anywhere: the state after h ++ [o] is the step from the state after h *)
Lemma final_app tb otb maxi k s h1 h2 :
  final tb otb maxi k s (h1 ++ h2) = final tb otb maxi k (final tb otb maxi k s h1) h2.
Proof. revert s. induction h1 as [|o r IH]; intros s; cbn [final app]; [reflexivity|apply IH]. Qed.

Lemma dec_into_fresh tb k t v : dec_app tb k t = Ok v -> forall s, dec_into tb k s t = (None, v).
Proof. intros H s. unfold dec_into. rewrite H. reflexivity. Qed.

(* set_long(w) on any object identifier: the encoder then emits the four octets of w, get_long gives w *)
Theorem objid_set_long_encode tb otb maxi t0 i0 w : enum_bijective otb = true -> (0 <= w < 4294967296)%Z ->
  let s := snd (step tb otb maxi 12 (PObjId t0 i0) (OSetLong w)) in
  enc_app otb s = Ok (app_tag 12 (be4 (Z.to_N w))) /\
  fst (step tb otb maxi 12 s OGetLong) = [0%Z; w].
Proof.
  intros B W. cbn [step snd]. unfold objid_set_long. cbn [enc_app step fst]. unfold enc_objid.
  rewrite (objid_word_of_num otb _ _ B), Z2N.id by lia_div.
  replace ((w / 4194304) mod 1024 * 4194304 + w mod 4194304)%Z with w by lia_div.
  cbn [bind ores]. unfold pack_L. destruct ((0 <=? w)%Z && (w <? 4294967296)%Z) eqn:R; [|lia]. split; reflexivity.
Qed.
