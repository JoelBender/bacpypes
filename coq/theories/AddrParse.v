(* AddrParse.v — what decode_str yields on each notation; print/parse round trip. *)
From Bac Require Import Base Addr AddrFacts.
Open Scope N_scope.

(* decode_str by branches: its two inline matches (type and network; octets and IP attributes) and the two arms
   of its match on the combined pattern, under names of their own *)
Definition addr_kind (p : pfx) (c : core) : res (aty * option Z) :=
  match p, c with
  | PStar, CBcast => Ok (AGlobalBroadcast, None)
  | PNet n, CBcast => do v <- net_check n; Ok (ARemoteBroadcast, Some v)
  | PNone, CBcast => Ok (ALocalBroadcast, None)
  | PNet n, _ => do v <- net_check n; Ok (ARemoteStation, Some v)
  | PStar, _ => Err ValueErr
  | PNone, _ => Ok (ALocalStation, None)
  end.
Definition core_mac (c : core) : res (option (list N) * option ipinfo) :=
  match c with
  | CBcast => Ok (None, None)
  | CField f => do m <- field_mac f; Ok (Some m, None)
  | CIp h m p => do x <- ip_from_text h m p; Ok (Some (fst x), Some (snd x))
  end.
Definition decode_matched (p : pfx) (c : core) (r : rt) : res addr :=
  do tn <- addr_kind p c; do mi <- core_mac c; do ro <- route_of r;
  Ok (mkAddr (fst tn) (snd tn) (fst mi) ro (snd mi)).
Definition decode_legacy (s : str) : res addr :=
  let t := strip_nl s in
  if is_ethernet t then do b <- xtob s; Ok (station b)
  else if is_oldhex t then do b <- xtob (removelast (skipn 2 s)); Ok (station b)
  else match split_at 58 t, split_at 58 s with
       | Some (n, x), Some (_, xs) =>
           if digits n && is_oldhex x then
             do v <- net_check n;
             do b <- xtob (removelast (skipn 2 xs));
             Ok (mkAddr ARemoteStation (Some v) (Some b) None None)
           else Err ValueErr
       | _, _ => Err ValueErr
       end.

Lemma decode_str_eq s : decode_str s =
  if str_eqb s [42] then Ok bcast_local
  else if str_eqb s [42; 58; 42] then Ok bcast_global
  else match match_combined (strip_nl s) with
       | Some (p, c, r) => decode_matched p c r
       | None => decode_legacy s
       end.
Proof. reflexivity. Qed.

(* the two wildcard tests at the head agree with what the pattern would give *)
Lemma decode_str_combined s : decode_str s =
  match match_combined (strip_nl s) with Some (p, c, r) => decode_matched p c r | None => decode_legacy s end.
Proof.
  rewrite decode_str_eq.
  destruct (str_eqb s [42]) eqn:E1; [apply list_eqb_N_eq in E1; subst s; reflexivity|].
  destruct (str_eqb s [42; 58; 42]) eqn:E2; [apply list_eqb_N_eq in E2; subst s; reflexivity|]. reflexivity.
Qed.

Lemma matched_plain c : c <> CBcast ->
  decode_matched PNone c RNone = do mi <- core_mac c; Ok (mkAddr ALocalStation None (fst mi) None (snd mi)).
Proof. intro H. destruct c; [congruence|reflexivity|reflexivity]. Qed.

Lemma matched_net_station n c : c <> CBcast ->
  decode_matched (PNet n) c RNone =
    do v <- net_check n; do mi <- core_mac c; Ok (mkAddr ARemoteStation (Some v) (fst mi) None (snd mi)).
Proof.
  intro H. unfold decode_matched. destruct c; [congruence| |]; cbn [addr_kind]; destruct (net_check n); reflexivity.
Qed.

Lemma matched_star c : c <> CBcast -> decode_matched PStar c RNone = Err ValueErr.
Proof. intro H. destruct c; [congruence|reflexivity|reflexivity]. Qed.

Lemma matched_net_bcast n :
  decode_matched (PNet n) CBcast RNone = do v <- net_check n; Ok (mkAddr ARemoteBroadcast (Some v) None None None).
Proof. unfold decode_matched. cbn [addr_kind]. destruct (net_check n); reflexivity. Qed.

Lemma matched_net_refused n c r e : net_check n = Err e -> decode_matched (PNet n) c r = Err e.
Proof. intro H. unfold decode_matched. destruct c; cbn [addr_kind]; rewrite H; reflexivity. Qed.

(* a route-free text is an optional prefix, "<net>:" or "*:", and a core *)
Definition with_pfx (p : pfx) (cs : str) : str :=
  match p with PNone => cs | PNet n => n ++ 58 :: cs | PStar => 42 :: 58 :: cs end.

(* the inline match of match_combined that reads the prefix off the text before '@' *)
Definition split_pfx (body : str) : pfx * str :=
  match split_at 58 body with
  | Some (a, rest) => if digits a then (PNet a, rest) else if str_eqb a [42] then (PStar, rest) else (PNone, body)
  | None => (PNone, body)
  end.

Lemma match_combined_eq s : match_combined s =
  match split_at 64 s with
  | None => let '(p, cs) := split_pfx s in match match_core cs with Some c => Some (p, c, RNone) | None => None end
  | Some (b, rs) =>
      match match_route rs with
      | Some r => let '(p, cs) := split_pfx b in match match_core cs with Some c => Some (p, c, r) | None => None end
      | None => None
      end
  end.
Proof. unfold match_combined. destruct (split_at 64 s) as [[b rs]|]; [destruct (match_route rs)|]; reflexivity. Qed.

Definition noprefix (cs : str) : bool :=
  match split_at 58 cs with
  | Some (a, _) => negb (digits a) && negb (str_eqb a [42])
  | None => true
  end.
Definition pfx_ok (p : pfx) (cs : str) : Prop :=
  match p with PNone => noprefix cs = true | PNet n => digits n = true | PStar => True end.

Lemma split_with_pfx p cs : pfx_ok p cs -> split_pfx (with_pfx p cs) = (p, cs).
Proof.
  destruct p as [|n|]; cbn [pfx_ok with_pfx]; intro H; unfold split_pfx.
  - unfold noprefix in H. destruct (split_at 58 cs) as [[a rest]|]; [|reflexivity].
    apply andb_true_iff in H as [H1 H2]. apply negb_true_iff in H1, H2. now rewrite H1, H2.
  - rewrite (split_at_app 58 n cs), H; [reflexivity|]. now apply digits_notin.
  - reflexivity.
Qed.

Lemma split_pfx_inv body p cs : split_pfx body = (p, cs) -> body = with_pfx p cs.
Proof.
  unfold split_pfx. destruct (split_at 58 body) as [[a rest]|] eqn:E; [apply split_at_spec in E as [-> _]|].
  - destruct (digits a); [|destruct (str_eqb a [42]) eqn:Ea]; intro H; injection H as <- <-; try reflexivity.
    apply list_eqb_N_eq in Ea. subst a. reflexivity.
  - intro H. injection H as <- <-. reflexivity.
Qed.

(* a prefix consists of digits, '*' and ':' : no other character (newline, '@') comes in with it *)
Lemma with_pfx_notin k p cs : cls is_digit [42; 58] k = false -> pfx_ok p cs -> ~ In k cs -> ~ In k (with_pfx p cs).
Proof.
  intros Hk Hp H. apply orb_false_iff in Hk as [Hd Hsep]. cbn [existsb] in Hsep.
  destruct p as [|n|]; cbn [with_pfx pfx_ok] in *; [exact H| |intros [E|[E|Hin]]; [lia|lia|auto]].
  intro Hin. apply in_app_or in Hin as [Hin|[E|Hin]]; [|lia|auto]. exact (digits_notin n k Hp Hd Hin).
Qed.
Lemma with_pfx_nonl p cs : pfx_ok p cs -> nonl cs = true -> nonl (with_pfx p cs) = true.
Proof. intros Hp H. apply nonl_notin, with_pfx_notin; [reflexivity|exact Hp|now apply nonl_notin]. Qed.

Lemma match_combined_with_pfx p cs : pfx_ok p cs -> ~ In 64 cs ->
  match_combined (with_pfx p cs) = match match_core cs with Some c => Some (p, c, RNone) | None => None end.
Proof.
  intros Hp H64. rewrite match_combined_eq, (split_at_none 64) by now apply with_pfx_notin.
  now rewrite (split_with_pfx p cs Hp).
Qed.

Lemma match_route_not_none rs : match_route rs <> Some RNone.
Proof. unfold match_route. destruct (is_field rs); [discriminate|]. destruct (ip_port rs) as [[h p]|]; discriminate. Qed.

Lemma match_combined_inv t p c :
  match_combined t = Some (p, c, RNone) -> exists cs, t = with_pfx p cs /\ match_core cs = Some c.
Proof.
  rewrite match_combined_eq. destruct (split_at 64 t) as [[b rs]|].
  - destruct (match_route rs) as [r|] eqn:Er; [|discriminate].
    destruct (split_pfx b) as [p' cs]. destruct (match_core cs); [|discriminate].
    intro H. injection H as _ _ ->. now apply match_route_not_none in Er.
  - destruct (split_pfx t) as [p' cs] eqn:E. destruct (match_core cs) as [c'|] eqn:Em; [|discriminate].
    intro H. injection H as -> ->. exists cs. split; [now apply split_pfx_inv|exact Em].
Qed.

Lemma match_core_bcast cs : match_core cs = Some CBcast -> cs = [42].
Proof.
  unfold match_core. destruct (str_eqb cs [42]) eqn:Es; [intros _; now apply list_eqb_N_eq in Es|].
  destruct (is_field cs); [discriminate|]. destruct (ip_mask_port cs) as [[[h m] p]|]; discriminate.
Qed.

Lemma decode_with_pfx p cs : pfx_ok p cs -> nonl cs = true -> ~ In 64 cs ->
  decode_str (with_pfx p cs) =
    match match_core cs with Some c => decode_matched p c RNone | None => decode_legacy (with_pfx p cs) end.
Proof.
  intros Hp Hnl H64.
  rewrite decode_str_combined, (strip_nl_nonl _ (with_pfx_nonl p cs Hp Hnl)), (match_combined_with_pfx p cs Hp H64).
  destruct (match_core cs); reflexivity.
Qed.

(* what may follow a prefix in a route-free text; plain_text: a whole text as it stands *)
Definition core_text (cs : str) (c : core) : Prop := nonl cs = true /\ ~ In 64 cs /\ match_core cs = Some c.
Definition plain_text (cs : str) (c : core) : Prop := noprefix cs = true /\ core_text cs c.

Lemma decode_pfx_core p cs c : pfx_ok p cs -> core_text cs c -> decode_str (with_pfx p cs) = decode_matched p c RNone.
Proof. intros Hp (Hnl & H64 & Hc). now rewrite (decode_with_pfx p cs Hp Hnl H64), Hc. Qed.

(* decode_pfx_core at each prefix with the text written out, the form rewriting needs *)
Lemma decode_plain_core cs c : plain_text cs c -> decode_str cs = decode_matched PNone c RNone.
Proof. intros [Hp Hc]. exact (decode_pfx_core PNone cs c Hp Hc). Qed.
Lemma decode_net_core n cs c : digits n = true -> core_text cs c ->
  decode_str (n ++ 58 :: cs) = decode_matched (PNet n) c RNone.
Proof. exact (decode_pfx_core (PNet n) cs c). Qed.
Lemma decode_star_core cs c : core_text cs c -> decode_str (42 :: 58 :: cs) = decode_matched PStar c RNone.
Proof. exact (decode_pfx_core PStar cs c I). Qed.

Lemma field_mac_digits s : digits s = true ->
  field_mac s = if 256 <=? dec_val s then Err ValueErr else Ok [dec_val s].
Proof. intro H. unfold field_mac. now rewrite (not_starts_0x is_digit s (digits_forall s H) eq_refl). Qed.

Lemma core_digits_ok s : digits s = true -> plain_text s (CField s).
Proof.
  intro H. pose proof (fun k => digits_notin s k H) as Notin. repeat split.
  - unfold noprefix. now rewrite (split_at_none 58 s (Notin 58 eq_refl)).
  - apply nonl_notin, Notin. reflexivity.
  - apply Notin. reflexivity.
  - unfold match_core, is_field. now rewrite H, (forallb_not_single is_digit s 42 (digits_forall s H) eq_refl).
Qed.

(* "<station>" *)
Lemma decode_station s : digits s = true ->
  decode_str s = if 256 <=? dec_val s then Err ValueErr else Ok (station [dec_val s]).
Proof.
  intro H. rewrite (decode_plain_core s _ (core_digits_ok s H)), matched_plain by discriminate.
  cbn [core_mac]. rewrite (field_mac_digits s H). destruct (256 <=? dec_val s); reflexivity.
Qed.

(* "<net>:<station>" *)
Lemma decode_net_station n s : digits n = true -> digits s = true ->
  decode_str (n ++ 58 :: s) =
    if (65535 <=? Z.of_N (dec_val n))%Z then Err ValueErr
    else if 256 <=? dec_val s then Err ValueErr
    else Ok (mkAddr ARemoteStation (Some (Z.of_N (dec_val n))) (Some [dec_val s]) None None).
Proof.
  intros Hn Hs. rewrite (decode_net_core n s _ Hn (proj2 (core_digits_ok s Hs))), matched_net_station by discriminate.
  unfold net_check. destruct (65535 <=? Z.of_N (dec_val n))%Z; [reflexivity|]. cbn [bind core_mac].
  rewrite (field_mac_digits s Hs). destruct (256 <=? dec_val s); reflexivity.
Qed.

Lemma core_star : core_text [42] CBcast.
Proof. repeat split. intros [E|[]]. discriminate. Qed.

(* "<net>:*" *)
Lemma decode_net_bcast n : digits n = true ->
  decode_str (n ++ [58; 42]) =
    if (65535 <=? Z.of_N (dec_val n))%Z then Err ValueErr
    else Ok (mkAddr ARemoteBroadcast (Some (Z.of_N (dec_val n))) None None None).
Proof.
  intros Hn. rewrite (decode_net_core n [42] CBcast Hn core_star), matched_net_bcast.
  unfold net_check. destruct (65535 <=? Z.of_N (dec_val n))%Z; reflexivity.
Qed.

Lemma field_mac_hex h : hex_pairs h = true -> field_mac (48 :: 120 :: h) = unhex h.
Proof. intro H. exact (xtob_hex h (hex_pairs_forall h H)). Qed.

Lemma core_hex_ok h : hex_pairs h = true -> plain_text (48 :: 120 :: h) (CField (48 :: 120 :: h)).
Proof.
  intro H. pose proof (hex_pairs_forall h H) as Hf.
  assert (C : forallb (cls is_hex [120]) (48 :: 120 :: h) = true) by (apply (cls_base is_hex [120]) in Hf; exact Hf).
  pose proof (fun k => forallb_notin _ _ k C) as Notin. repeat split.
  - unfold noprefix. now rewrite (split_at_none 58 _ (Notin 58 eq_refl)).
  - apply nonl_notin, Notin. reflexivity.
  - apply Notin. reflexivity.
  - unfold match_core, is_field.
    rewrite (forallb_not_single _ _ 42 C eq_refl).
    rewrite (not_digits (48 :: 120 :: h) 120 (or_intror (or_introl eq_refl)) eq_refl).
    (* the literal "0x" decides starts_0x *)
    cbn [starts_0x skipn N.eqb Pos.eqb andb orb]. now rewrite H.
Qed.

Definition quad (a b c d : str) : str := a ++ 46 :: b ++ 46 :: c ++ 46 :: d.
Definition opt_sfx (sep : N) (o : option str) : str := match o with Some s => sep :: s | None => [] end.
Definition ip_text (h : str) (m p : option str) : str := h ++ opt_sfx 47 m ++ opt_sfx 58 p.

Lemma quad_nonempty a b c d : quad a b c d <> [].
Proof. unfold quad. destruct a; discriminate. Qed.

Lemma inet_ntoa_quad a b c d : inet_ntoa [a; b; c; d] = quad (dec_str a) (dec_str b) (dec_str c) (dec_str d).
Proof. reflexivity. Qed.

Lemma opt_sfx_cls seps sep o : cls is_digit seps sep = true -> opt_digits o = true ->
  forallb (cls is_digit seps) (opt_sfx sep o) = true.
Proof.
  intros Hsep Ho. destruct o as [s|]; [|reflexivity]. cbn [opt_sfx forallb]. rewrite Hsep.
  now apply cls_base, digits_forall.
Qed.

Section Ip.
Context (a b c d : str) (m p : option str).
Context (Ha : digits a = true) (Hb : digits b = true) (Hc : digits c = true) (Hd : digits d = true)
        (Hm : opt_digits m = true) (Hp : opt_digits p = true).

Lemma quad_cls seps : cls is_digit seps 46 = true -> forallb (cls is_digit seps) (quad a b c d) = true.
Proof.
  intro Hsep. pose proof (fun s H => cls_base is_digit seps s (digits_forall s H)) as D.
  unfold quad. repeat (rewrite forallb_app; cbn [forallb]). now rewrite Hsep, (D a Ha), (D b Hb), (D c Hc), (D d Hd).
Qed.

(* the part before the port has no ':', the whole text neither newline nor '@' *)
Lemma ip_head_cls : forallb (cls is_digit [46; 47]) (quad a b c d ++ opt_sfx 47 m) = true.
Proof. now rewrite forallb_app, (quad_cls [46; 47] eq_refl), (opt_sfx_cls [46; 47] 47 m eq_refl Hm). Qed.

Lemma ip_text_cls : forallb (cls is_digit [46; 47; 58]) (ip_text (quad a b c d) m p) = true.
Proof.
  pose proof (opt_sfx_cls [46; 47; 58]) as O.
  unfold ip_text. now rewrite !forallb_app, (quad_cls [46; 47; 58] eq_refl), (O 47 m eq_refl Hm), (O 58 p eq_refl Hp).
Qed.

Lemma ip_text_split58 : split_at 58 (ip_text (quad a b c d) m p) =
  match p with Some ps => Some (quad a b c d ++ opt_sfx 47 m, ps) | None => None end.
Proof.
  pose proof (forallb_notin _ _ 58 ip_head_cls eq_refl) as H58.
  unfold ip_text. destruct p as [ps|]; cbn [opt_sfx].
  - now rewrite app_assoc, (split_at_app 58 _ ps H58).
  - now rewrite app_nil_r, (split_at_none 58 _ H58).
Qed.

Lemma dotted_quad : dotted (quad a b c d) = Some (a, b, c, d).
Proof.
  unfold dotted, quad.
  rewrite (split_at_app 46 a) by now apply digits_notin.
  rewrite (split_at_app 46 b) by now apply digits_notin.
  rewrite (split_at_app 46 c) by now apply digits_notin.
  now rewrite Ha, Hb, Hc, Hd.
Qed.

Lemma quad_not_digits t : digits (quad a b c d ++ t) = false.
Proof.
  apply (not_digits _ 46); [|reflexivity]. apply in_or_app. left. unfold quad. apply in_or_app. right. now left.
Qed.

(* split at ':' (ip_text_split58), then at '/' *)
Lemma ip_mask_port_text : ip_mask_port (ip_text (quad a b c d) m p) = Some (quad a b c d, m, p).
Proof.
  pose proof (forallb_notin _ _ 47 (quad_cls [46] eq_refl) eq_refl) as Q47.
  assert (D : is_dotted (quad a b c d) = true) by (unfold is_dotted; now rewrite dotted_quad).
  assert (S47 : split_at 47 (quad a b c d ++ opt_sfx 47 m) =
                match m with Some ms => Some (quad a b c d, ms) | None => None end).
  { destruct m as [ms|]; cbn [opt_sfx]; [now apply split_at_app|]. rewrite app_nil_r. now apply split_at_none. }
  unfold ip_mask_port. rewrite ip_text_split58.
  destruct p as [ps|]; [|unfold ip_text; cbn [opt_sfx]; rewrite app_nil_r]; rewrite S47;
    destruct m as [ms|]; cbn [opt_sfx opt_digits] in *; rewrite ?app_nil_r, D, ?Hm, ?Hp; reflexivity.
Qed.

Lemma core_ip_ok : plain_text (ip_text (quad a b c d) m p) (CIp (quad a b c d) m p).
Proof.
  pose proof ip_text_cls as C. pose proof (fun k => forallb_notin _ _ k C) as Notin. repeat split.
  - unfold noprefix. rewrite ip_text_split58. destruct p as [ps|]; [|reflexivity].
    now rewrite quad_not_digits, (forallb_not_single _ _ 42 ip_head_cls eq_refl).
  - apply nonl_notin, Notin. reflexivity.
  - apply Notin. reflexivity.
  - unfold match_core, is_field.
    (* ip_text h m p unfolds to h ++ suffixes, the form quad_not_digits speaks of *)
    rewrite (quad_not_digits _ : digits (ip_text _ m p) = false), (not_starts_0x _ _ C eq_refl),
      (forallb_not_single _ _ 42 C eq_refl).
    cbn [andb orb]. now rewrite ip_mask_port_text.
Qed.

(* "a.b.c.d[/len][:port]" *)
Lemma decode_ip :
  decode_str (ip_text (quad a b c d) m p) =
    do x <- ip_from_text (quad a b c d) m p;
    Ok (mkAddr ALocalStation None (Some (fst x)) None (Some (snd x))).
Proof.
  rewrite (decode_plain_core _ _ core_ip_ok), matched_plain by discriminate.
  cbn [core_mac]. destruct (ip_from_text (quad a b c d) m p); reflexivity.
Qed.

(* "<net>:a.b.c.d[/len][:port]" *)
Lemma decode_net_ip n : digits n = true ->
  decode_str (n ++ 58 :: ip_text (quad a b c d) m p) =
    if (65535 <=? Z.of_N (dec_val n))%Z then Err ValueErr
    else do x <- ip_from_text (quad a b c d) m p;
         Ok (mkAddr ARemoteStation (Some (Z.of_N (dec_val n))) (Some (fst x)) None (Some (snd x))).
Proof.
  intro Hn. rewrite (decode_net_core n _ _ Hn (proj2 core_ip_ok)), matched_net_station by discriminate.
  unfold net_check. destruct (65535 <=? Z.of_N (dec_val n))%Z; [reflexivity|]. cbn [bind core_mac].
  destruct (ip_from_text (quad a b c d) m p); reflexivity.
Qed.
End Ip.

Lemma inet_aton_quad a b c d a' b' c' d' :
  digits a = true -> digits b = true -> digits c = true -> digits d = true ->
  aton_part a = Some a' -> aton_part b = Some b' -> aton_part c = Some c' -> aton_part d = Some d' ->
  inet_aton (quad a b c d) = Ok [a'; b'; c'; d'].
Proof.
  intros Ha Hb Hc Hd A B C D. unfold inet_aton. rewrite (dotted_quad a b c d Ha Hb Hc Hd), A, B, C, D. reflexivity.
Qed.

(* what pdu.py computes for address ipv, mask length len, port, host text h *)
Definition ip_denoted (ipv len port : N) (h : str) : ipinfo :=
  let ipz := Z.of_N ipv in
  let mask := Z.land (Z.shiftl M32 (32 - Z.of_N len)) M32 in
  mkIp ipz mask (Some (Z.land ipz (Z.lnot mask))) (Some (Z.land ipz mask)) (Z.of_N port) h
       (inet_ntoa (be4 (Z.to_N (Z.land (Z.lor (Z.land ipz mask) (Z.lnot mask)) M32)))).

Lemma land_port port : port <= 65535 -> Z.to_N (Z.land (Z.of_N port) 65535) = port.
Proof.
  intro H. change 65535%Z with (Z.ones 16). rewrite Z.land_ones by lia.
  rewrite Z.mod_small; [apply N2Z.id|]. change (2 ^ 16)%Z with 65536%Z. lia.
Qed.

Lemma ip_from_text_ok a b c d m p a' b' c' d' :
  digits a = true -> digits b = true -> digits c = true -> digits d = true ->
  aton_part a = Some a' -> aton_part b = Some b' -> aton_part c = Some c' -> aton_part d = Some d' ->
  dec_val (odefault s47808 p) <= 65535 -> dec_val (odefault s32 m) <= 32 ->
  ip_from_text (quad a b c d) m p =
    Ok ([a'; b'; c'; d'] ++ be2 (dec_val (odefault s47808 p)),
        ip_denoted (be_val [a'; b'; c'; d']) (dec_val (odefault s32 m)) (dec_val (odefault s47808 p)) (quad a b c d)).
Proof.
  intros Ha Hb Hc Hd A B C D Hp Hm. unfold ip_from_text.
  destruct (65535 <? Z.of_N (dec_val (odefault s47808 p)))%Z eqn:E1; [lia|].
  rewrite (inet_aton_quad a b c d a' b' c' d' Ha Hb Hc Hd A B C D). cbn [bind].
  destruct (32 <? Z.of_N (dec_val (odefault s32 m)))%Z eqn:E2; [lia|].
  rewrite (land_port _ Hp). reflexivity.
Qed.

Lemma aton_dec_sweep :
  forallb (fun k => match aton_part (dec_str (N.of_nat k)) with Some v => v =? N.of_nat k | None => false end)
          (seq 0 256) = true.
Proof. vm_compute. reflexivity. Qed.

Lemma aton_dec a : a < 256 -> aton_part (dec_str a) = Some a.
Proof.
  intro H. pose proof aton_dec_sweep as Sw. rewrite forallb_forall in Sw.
  specialize (Sw (N.to_nat a)). rewrite N2Nat.id in Sw.
  destruct (aton_part (dec_str a)) as [v|].
  - f_equal. apply N.eqb_eq. apply Sw. apply in_seq. lia.
  - discriminate Sw. apply in_seq. lia.
Qed.

(* the three shapes str() gives to a station's octets *)
Inductive mac_text (l : list N) : str -> Prop :=
| MT_dec b : l = [b] -> b < 256 -> mac_text l (dec_str b)
| MT_hex : l <> [] -> bytes_ok l = true -> mac_text l (48 :: 120 :: btox l)
| MT_ip a b c d port p : l = [a; b; c; d] ++ be2 port -> a < 256 -> b < 256 -> c < 256 -> d < 256 ->
    port <= 65535 -> opt_digits p = true -> dec_val (odefault s47808 p) = port ->
    mac_text l (ip_text (quad (dec_str a) (dec_str b) (dec_str c) (dec_str d)) None p).

Lemma be_val2 p1 p2 : be_val [p1; p2] = p1 * 256 + p2.
Proof. unfold be_val. cbn [fold_left]. lia. Qed.

Lemma print_mac_shape l : l <> [] -> bytes_ok l = true -> exists s, print_mac (Some l) = Ok s /\ mac_text l s.
Proof.
  intros Hne Hok. destruct l as [|x [|y r]]; [congruence| |].
  - exists (dec_str x). split; [reflexivity|]. apply MT_dec; [reflexivity|].
    cbn [bytes_ok forallb] in Hok. unfold byte_ok in Hok. lia.
  - cbn [print_mac].
    replace (lenN (x :: y :: r) <? 2) with false by (unfold lenN; cbn [length]; lia).
    set (port := be_val (skipn (length (x :: y :: r) - 2) (x :: y :: r))).
    destruct ((lenN (x :: y :: r) =? 6) && (47808 <=? port) && (port <=? 47823)) eqn:E.
    + apply andb_true_iff in E as [E E3]. apply andb_true_iff in E as [E1 E2].
      unfold lenN in E1. cbn [length] in E1.
      destruct r as [|c [|d [|p1 [|p2 [|z r']]]]]; cbn [length] in E1; try lia.
      subst port. cbn [length Nat.sub skipn] in *. rewrite be_val2 in *.
      cbn [bytes_ok forallb] in Hok. unfold byte_ok in Hok. set (port := p1 * 256 + p2) in *.
      exists (ip_text (quad (dec_str x) (dec_str y) (dec_str c) (dec_str d)) None
                      (if port =? 47808 then None else Some (dec_str port))).
      split; [rewrite <- inet_ntoa_quad; unfold ip_text; now destruct (port =? 47808)|].
      apply (MT_ip _ x y c d port); try lia.
      * unfold be2, port. cbn [app]. repeat f_equal; lia_div.
      * destruct (port =? 47808); [reflexivity|apply dec_str_digits].
      * destruct (port =? 47808) eqn:EP; cbn [odefault]; [change (dec_val s47808) with 47808; lia|apply dec_str_val].
    + eexists. split; [reflexivity|]. apply MT_hex; [discriminate|exact Hok].
Qed.

Lemma mac_text_core l s : mac_text l s ->
  exists c i, plain_text s c /\ core_mac c = Ok (Some l, i) /\ c <> CBcast.
Proof.
  intros [b -> Hb | Hne Hok | a b c d port p -> Ha Hb Hc Hd Hp Hop Hv].
  - exists (CField (dec_str b)), None. split; [apply core_digits_ok, dec_str_digits|]. split; [|discriminate].
    cbn [core_mac]. rewrite (field_mac_digits _ (dec_str_digits b)), dec_str_val.
    now replace (256 <=? b) with false by lia.
  - pose proof (hex_pairs_btox l Hne Hok) as H. exists (CField (48 :: 120 :: btox l)), None.
    split; [now apply core_hex_ok|]. split; [|discriminate].
    cbn [core_mac]. now rewrite (field_mac_hex _ H), (unhex_btox l Hok).
  - eexists (CIp _ None p), _.
    split; [apply core_ip_ok; try apply dec_str_digits; [reflexivity|exact Hop]|]. split; [|discriminate].
    cbn [core_mac].
    rewrite (ip_from_text_ok _ _ _ _ None p a b c d); try apply dec_str_digits; try now apply aton_dec.
    + rewrite Hv. reflexivity.
    + lia.
    + cbn [odefault]. change (dec_val s32) with 32. lia.
Qed.

Definition wf_net (o : option Z) : Prop := exists n, o = Some n /\ (0 <= n < 65535)%Z.
Definition wf_mac (o : option (list N)) : Prop := exists l, o = Some l /\ l <> [] /\ bytes_ok l = true.
Definition wf_addr (a : addr) : Prop :=
  route a = None /\
  match ty a with
  | ANull => False
  | ALocalBroadcast | AGlobalBroadcast => net a = None /\ mac a = None
  | ARemoteBroadcast => wf_net (net a) /\ mac a = None
  | ALocalStation => net a = None /\ wf_mac (mac a)
  | ARemoteStation => wf_net (net a) /\ wf_mac (mac a)
  end.

(* print a is a text of mac_text_core behind the prefix its type asks for; decode_plain_core / decode_net_core
   read it back *)
Lemma print_parse_key a : wf_addr a ->
  exists s a', print a = Ok s /\ decode_str s = Ok a' /\ key a' = key a /\ route a' = None.
Proof.
  destruct a as [t n m r i]. unfold wf_addr, key, print. cbn [ty net mac route]. intros [-> H].
  destruct t; cbn [ty] in H.
  - contradiction.
  - destruct H as [-> ->]. exists [42]. eexists. repeat split.
  - destruct H as [-> (l & -> & Hne & Hok)].
    destruct (print_mac_shape l Hne Hok) as (s & -> & Ht).
    destruct (mac_text_core l s Ht) as (c & j & Hs & Hm & Hk).
    exists s. eexists. split; [reflexivity|].
    rewrite (decode_plain_core s c Hs), (matched_plain c Hk), Hm. repeat split.
  - destruct H as [(z & -> & Hz) ->]. cbn [print_net bind]. rewrite (dec_strZ_nonneg z) by lia.
    eexists. eexists. split; [reflexivity|]. rewrite (decode_net_bcast _ (dec_str_digits _)), dec_str_val.
    destruct (65535 <=? Z.of_N (Z.to_N z))%Z eqn:E; [lia|]. repeat split. cbn [ty net mac]. now rewrite Z2N.id by lia.
  - destruct H as [(z & -> & Hz) (l & -> & Hne & Hok)]. cbn [print_net bind]. rewrite (dec_strZ_nonneg z) by lia.
    destruct (print_mac_shape l Hne Hok) as (s & -> & Ht).
    destruct (mac_text_core l s Ht) as (c & j & [_ Hs] & Hm & Hk).
    eexists. eexists. split; [reflexivity|].
    rewrite (decode_net_core _ s c (dec_str_digits _) Hs), (matched_net_station _ c Hk), Hm.
    unfold net_check. rewrite dec_str_val.
    destruct (65535 <=? Z.of_N (Z.to_N z))%Z eqn:E; [lia|]. repeat split. cbn [ty net mac]. now rewrite Z2N.id by lia.
  - destruct H as [-> ->]. exists [42; 58; 42]. eexists. repeat split.
Qed.
