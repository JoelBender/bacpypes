(* ApciFacts.v — TABLE OBLIGATIONS: facts about the AST-translated code-table functions of
   gen/ApduFns.v (apdu.py:58-108), for every integer argument (not a grid).  Rebuilt by make
   whenever the translator changes the generated text, so a change to the tables or to the
   rounding loops in the source breaks the build. *)
From Bac Require Import Base PyRt.
From BacGen Require Import ApduFns.
Open Scope Z_scope.

Notation enc_ms := encode_max_segments_accepted.
Notation dec_ms := decode_max_segments_accepted.
Notation enc_ml := encode_max_apdu_length_accepted.
Notation dec_ml := decode_max_apdu_length_accepted.

(* table look-ups at literal indices are computed; comparisons with the argument stay *)
Ltac lookups :=
  repeat match goal with
  | |- context [tbl_get_o ?t ?i] =>
      let v := eval vm_compute in (tbl_get_o t i) in change (tbl_get_o t i) with v
  end.
Ltac simp := cbn [bind oz_cmp_le_l oz_cmp_ge_r oz_ord negb oz_truth].

(* the two tables are the standard's (clause 20.1.2.4 and 20.1.2.5) *)
Lemma maxsegs_table_std :
  _max_segments_accepted_encoding = [None; Some 2; Some 4; Some 8; Some 16; Some 32; Some 64; None].
Proof. reflexivity. Qed.
Lemma maxapdu_table_std :
  _max_apdu_length_encoding = [Some 50; Some 128; Some 206; Some 480; Some 1024; Some 1476;
                               None; None; None; None; None; None; None; None; None; None].
Proof. reflexivity. Qed.

Lemma enc_ms_eq n : enc_ms n =
  if n =? 0 then Ok 0 else if n >? 64 then Ok 7
  else if 64 <=? n then Ok 6 else if 32 <=? n then Ok 5 else if 16 <=? n then Ok 4
  else if 8 <=? n then Ok 3 else if 4 <=? n then Ok 2 else if 2 <=? n then Ok 1
  else Err ValueErr.
Proof.
  unfold encode_max_segments_accepted. lookups. simp.
  destruct (n =? 0); reflexivity.
Qed.

Lemma enc_ml_eq n : enc_ml n =
  if n >=? 1476 then Ok 5 else if n >=? 1024 then Ok 4 else if n >=? 480 then Ok 3
  else if n >=? 206 then Ok 2 else if n >=? 128 then Ok 1 else if n >=? 50 then Ok 0
  else Err ValueErr.
Proof. unfold encode_max_apdu_length_accepted. lookups. simp. reflexivity. Qed.

(* decoders: list indexing with Python's negative-index rule *)
Lemma py_index_In {A} (l : list A) i x : py_index l i = Ok x -> In x l.
Proof.
  unfold py_index. destruct (_ || _); [discriminate|].
  destruct (nth_error l _) eqn:E; [|discriminate]. intros H; injection H as <-. eapply nth_error_In; eassumption.
Qed.
Lemma py_index_range {A} (l : list A) i :
  i < - Z.of_nat (length l) \/ Z.of_nat (length l) <= i -> py_index l i = Err IndexErr.
Proof. intros H. unfold py_index. destruct (i <? 0) eqn:E; destruct (_ || _) eqn:F; try reflexivity; lia. Qed.

Lemma dec_ms_range c : c < -8 \/ 8 <= c -> dec_ms c = Err IndexErr.
Proof. intros H. unfold decode_max_segments_accepted, tbl_get_o. rewrite py_index_range by exact H. reflexivity. Qed.

Lemma dec_ml_range c : c < -16 \/ 16 <= c -> dec_ml c = Err IndexErr.
Proof. intros H. unfold decode_max_apdu_length_accepted, tbl_get_o. rewrite py_index_range by exact H. reflexivity. Qed.

Lemma dec_ms_values c v : dec_ms c = Ok (Some v) ->
  v = 2 \/ v = 4 \/ v = 8 \/ v = 16 \/ v = 32 \/ v = 64.
Proof.
  unfold decode_max_segments_accepted, tbl_get_o. destruct (py_index _ c) eqn:E; cbn [bind]; [|discriminate].
  intros H; injection H as ->. apply py_index_In in E. cbn in E. intuition congruence.
Qed.

Lemma dec_ml_values c v : dec_ml c = Ok (Some v) ->
  v = 50 \/ v = 128 \/ v = 206 \/ v = 480 \/ v = 1024 \/ v = 1476.
Proof.
  unfold decode_max_apdu_length_accepted, tbl_get_o. destruct (py_index _ c) eqn:E; cbn [bind]; [|discriminate].
  destruct (negb _); [discriminate|]. intros H; injection H as ->. apply py_index_In in E. cbn in E.
  intuition congruence.
Qed.

(* decoding follows the table: code c in 1..6 means 2^c segments; 0 (unspecified) and
   7 (more than 64) carry no number *)
Lemma maxsegs_decode_table :
  (forall c, 1 <= c <= 6 -> dec_ms c = Ok (Some (2 ^ c))) /\
  dec_ms 0 = Ok None /\ dec_ms 7 = Ok None.
Proof.
  repeat split; try reflexivity.
  intros c H.
  assert (Hc : c = 1 \/ c = 2 \/ c = 3 \/ c = 4 \/ c = 5 \/ c = 6) by lia.
  repeat (destruct Hc as [-> | Hc]); try subst c; reflexivity.
Qed.

(* the decision list read as a table: which n get which code; the codes 1..6 stand for 2^c segments *)
Lemma enc_ms_cases n :
  n = 0 /\ enc_ms n = Ok 0 \/ 64 < n /\ enc_ms n = Ok 7
  \/ (exists c, 1 <= c <= 6 /\ 2 ^ c <= n < 2 * 2 ^ c /\ 2 <= n <= 64 /\ enc_ms n = Ok c)
  \/ (n < 0 \/ n = 1) /\ enc_ms n = Err ValueErr.
Proof.
  rewrite enc_ms_eq.
  destruct (n =? 0) eqn:E0; [left; split; [lia|reflexivity]|].
  destruct (n >? 64) eqn:E1; [right; left; split; [lia|reflexivity]|].
  destruct (64 <=? n) eqn:E2; [right; right; left; exists 6; repeat split; lia|].
  destruct (32 <=? n) eqn:E3; [right; right; left; exists 5; repeat split; lia|].
  destruct (16 <=? n) eqn:E4; [right; right; left; exists 4; repeat split; lia|].
  destruct (8 <=? n) eqn:E5; [right; right; left; exists 3; repeat split; lia|].
  destruct (4 <=? n) eqn:E6; [right; right; left; exists 2; repeat split; lia|].
  destruct (2 <=? n) eqn:E7; [right; right; left; exists 1; repeat split; lia|].
  right; right; right. split; [lia|reflexivity].
Qed.

(* a capability of two or more segments is rounded DOWN to the nearest table entry; more than
   64 becomes code 7 *)
Lemma maxsegs_round_down n : 2 <= n ->
  exists c, enc_ms n = Ok c /\
    (n <= 64 -> 1 <= c <= 6 /\
       exists lo, dec_ms c = Ok (Some lo) /\ lo <= n < 2 * lo /\
         (c < 6 -> dec_ms (c + 1) = Ok (Some (2 * lo)))) /\
    (64 < n -> c = 7).
Proof.
  intros H. destruct maxsegs_decode_table as (D & _).
  destruct (enc_ms_cases n) as [[R E]|[[R E]|[(c & Hc & R & L & E)|[R E]]]]; try lia.
  - exists 7. split; [exact E|]. split; [lia|reflexivity].
  - exists c. split; [exact E|]. split; [|lia]. intros _. split; [exact Hc|]. exists (2 ^ c).
    split; [exact (D c Hc)|]. split; [exact R|]. intros Hc6.
    rewrite <- Z.pow_succ_r by lia. apply D. lia.
Qed.

(* never up: the number the chosen code stands for is the greatest table entry not above n *)
Lemma maxsegs_greatest n c lo c' v : enc_ms n = Ok c -> dec_ms c = Ok (Some lo) ->
  dec_ms c' = Ok (Some v) -> v <= n -> lo <= n /\ v <= lo.
Proof.
  intros He Hd Hv Hle. apply dec_ms_values in Hv.
  destruct (enc_ms_cases n) as [[R E]|[[R E]|[(k & Hk & R & L & E)|[R E]]]];
    rewrite E in He; try discriminate; injection He as <-; try discriminate.
  rewrite (proj1 maxsegs_decode_table k Hk) in Hd. injection Hd as <-.
  (* v is a power of two below 2 * 2^k *)
  assert (Hk' : k = 1 \/ k = 2 \/ k = 3 \/ k = 4 \/ k = 5 \/ k = 6) by lia.
  repeat (destruct Hk' as [-> | Hk']); try subst k; lia.
Qed.

(* one segment (or a negative number) cannot be rounded down to a table entry: refused *)
Lemma maxsegs_refuse_below n : n < 0 \/ n = 1 -> enc_ms n = Err ValueErr.
Proof.
  intros H. destruct (enc_ms_cases n) as [[R E]|[[R E]|[(c & Hc & R & L & E)|[R E]]]]; [lia..|exact E].
Qed.

Lemma maxsegs_unspecified : enc_ms 0 = Ok 0 /\ dec_ms 0 = Ok None.
Proof. split; reflexivity. Qed.

Lemma maxsegs_encode_total n : (exists c, enc_ms n = Ok c /\ 0 <= c <= 7) \/ enc_ms n = Err ValueErr.
Proof.
  destruct (enc_ms_cases n) as [[R E]|[[R E]|[(c & Hc & R & L & E)|[R E]]]];
    [left; exists 0|left; exists 7|left; exists c|right; exact E]; (split; [exact E|lia]).
Qed.

Lemma enc_ml_cases n :
  n < 50 /\ enc_ml n = Err ValueErr \/ 50 <= n < 128 /\ enc_ml n = Ok 0 \/ 128 <= n < 206 /\ enc_ml n = Ok 1
  \/ 206 <= n < 480 /\ enc_ml n = Ok 2 \/ 480 <= n < 1024 /\ enc_ml n = Ok 3
  \/ 1024 <= n < 1476 /\ enc_ml n = Ok 4 \/ 1476 <= n /\ enc_ml n = Ok 5.
Proof.
  rewrite enc_ml_eq.
  destruct (n >=? 1476) eqn:E5; [do 6 right; split; [lia|reflexivity]|].
  destruct (n >=? 1024) eqn:E4; [do 5 right; left; split; [lia|reflexivity]|].
  destruct (n >=? 480) eqn:E3; [do 4 right; left; split; [lia|reflexivity]|].
  destruct (n >=? 206) eqn:E2; [do 3 right; left; split; [lia|reflexivity]|].
  destruct (n >=? 128) eqn:E1; [do 2 right; left; split; [lia|reflexivity]|].
  destruct (n >=? 50) eqn:E0; [right; left; split; [lia|reflexivity]|].
  left. split; [lia|reflexivity].
Qed.


Lemma maxapdu_greatest n c lo c' v : enc_ml n = Ok c -> dec_ml c = Ok (Some lo) ->
  dec_ml c' = Ok (Some v) -> v <= n -> lo <= n /\ v <= lo.
Proof.
  intros He Hd Hv Hle. apply dec_ml_values in Hv.
  destruct (enc_ml_cases n) as [[R E]|[[R E]|[[R E]|[[R E]|[[R E]|[[R E]|[R E]]]]]]];
    rewrite E in He; try discriminate; injection He as <-; injection Hd as <-; lia.
Qed.

(* below the smallest entry every code would promise too much: refused *)
Lemma maxapdu_refuse_below n : n < 50 -> enc_ml n = Err ValueErr.
Proof.
  intros H. destruct (enc_ml_cases n) as [[R E]|[[R E]|[[R E]|[[R E]|[[R E]|[[R E]|[R E]]]]]]]; [exact E|lia..].
Qed.

Lemma tables_inverse :
  (forall c, 1 <= c <= 6 -> exists v, dec_ms c = Ok (Some v) /\ enc_ms v = Ok c) /\
  (forall c, 0 <= c <= 5 -> exists v, dec_ml c = Ok (Some v) /\ enc_ml v = Ok c).
Proof.
  split; intros c H.
  - assert (Hc : c = 1 \/ c = 2 \/ c = 3 \/ c = 4 \/ c = 5 \/ c = 6) by lia.
    repeat (destruct Hc as [-> | Hc]); try subst c; eexists; split; reflexivity.
  - assert (Hc : c = 0 \/ c = 1 \/ c = 2 \/ c = 3 \/ c = 4 \/ c = 5) by lia.
    repeat (destruct Hc as [-> | Hc]); try subst c; eexists; split; reflexivity.
Qed.

Lemma tables_never_up :
  (forall n c v, enc_ms n = Ok c -> dec_ms c = Ok (Some v) -> v <= n) /\
  (forall n c v, enc_ml n = Ok c -> dec_ml c = Ok (Some v) -> v <= n).
Proof.
  split; intros n c v He Hd.
  - assert (Hv : dec_ms 1 = Ok (Some 2)) by reflexivity.
    destruct (Z_le_dec 2 n) as [L|L].
    + exact (proj1 (maxsegs_greatest n c v 1 2 He Hd Hv L)).
    + destruct (Z.eq_dec n 0) as [->|N0].
      * vm_compute in He. injection He as <-. discriminate.
      * rewrite maxsegs_refuse_below in He by lia. discriminate.
  - assert (Hv : dec_ml 0 = Ok (Some 50)) by reflexivity.
    destruct (Z_le_dec 50 n) as [L|L].
    + exact (proj1 (maxapdu_greatest n c v 0 50 He Hd Hv L)).
    + rewrite maxapdu_refuse_below in He by lia. discriminate.
Qed.
