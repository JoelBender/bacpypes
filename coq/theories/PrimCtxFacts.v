(* PrimCtxFacts.v — Tag.app_to_context followed by Tag.context_to_app (Prim.app_to_ctx / ctx_to_app) gives an
   application tag back: for the primitive values (PrimFacts.v) and the leaves of constructed data (CodecFacts.v). *)
From Bac Require Import Base BytesFacts Tag Prim.
Open Scope N_scope.

(* what encode(tag) leaves in the tag; a Boolean's value sits in the LVT and its content is empty *)
Definition app_shape (k : N) (t : tag) : Prop :=
  cls t = 0 /\ num t = k /\
  (if k =? 1 then data t = [] /\ lvt t < 256 else lvt t = lenN (data t)).

(* the context tag has the same content octets; a Boolean's value moves from the LVT into one octet *)
Lemma ctx_roundtrip c k t : app_shape k t ->
  exists d, app_to_ctx c t = Ok (mkTag 1 c (lenN d) d) /\ ctx_to_app k (mkTag 1 c (lenN d) d) = Ok t /\
            (bytes_ok (data t) = true -> lvt t < 4294967296 -> bytes_ok d = true /\ lenN d < 4294967296).
Proof.
  destruct t as [tc tn tl td]. unfold app_shape; cbn [cls num lvt data].
  intros [-> [-> S]]. unfold app_to_ctx, ctx_to_app; cbn [cls num lvt data negb N.eqb].
  destruct (k =? 1) eqn:K.
  - destruct S as [-> L]. apply N.eqb_eq in K as ->. rewrite put_ok by exact L. cbn [bind].
    exists [tl]. split; [reflexivity|]. split; [reflexivity|]. intros _ _.
    split; [apply bytes_ok_cons; split; [exact L|reflexivity]|reflexivity].
  - subst tl. exists td. auto.
Qed.
