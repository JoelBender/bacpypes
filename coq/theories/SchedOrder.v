(* SchedOrder.v — one pass of the event loops: firing order, nothing lost, progress despite
   raising tasks, termination within the supplied fuel; core.run ends in a quiescent state having
   fired everything that was due. *)
From Bac Require Import Base ListFacts Deferred DeferredFacts Sched SchedFacts SchedThms SchedPassive.
From Coq Require Import Permutation Sorted.
Open Scope Z_scope.

(* one pass at clock T over the queue H0 it started with *)
Definition Pass (H0 : list entry) (T : Z) (s : st) (acc : list event) : Prop :=
  Inv s /\ now s = T /\ sorted (fired acc) /\
  (forall k, In k (fired acc) -> e_when k <= T /\ forall x, In x (heap s) -> elt k x) /\
  (forall x, In x H0 -> In x (heap s) \/ In x (fired acc)).

Lemma Pass_fire : forall H0 T jit c, passive_cfg c -> 0 <= jit -> forall s acc s2 ev r z, Pass H0 T s acc /\ passive_dq s ->
  fire_step jit c s = (s2, ev, r, z) -> Pass H0 T s2 (acc ++ ev) /\ passive_dq s2.
Proof.
  intros H0 T jit c Hc Hj s acc s2 ev r z Ho F. pose proof Ho as [[Hi [HT [Hs [Hk Hl]]]] Hp].
  destruct (fire_step_passive _ _ _ _ _ _ _ Hc Hj Hi Hp F)
    as [[_ [-> [-> _]]]|(e & rest & new & Hh & Hd & Hn & Hi2 & Hp2 & Hfd & _ & _ & Hperm & Hnew)].
  { rewrite app_nil_r. exact Ho. }
  split; [|exact Hp2]. unfold Pass. rewrite fired_app, Hfd.
  pose proof (Inv_head_min _ _ _ Hi Hh) as Hrest.
  split; [exact Hi2|]. split; [congruence|]. split; [|split].
  - apply sorted_snoc; [exact Hs|]. intros k Hin. apply (Hk k Hin). rewrite Hh. left. reflexivity.
  - intros k Hin. apply in_app_or in Hin.
    assert (Hkw : e_when k <= T) by (destruct Hin as [Hin|[<-|[]]]; [apply (Hk k Hin) | lia]).
    split; [exact Hkw|]. intros x Hxin. apply (Permutation_in _ Hperm) in Hxin. apply in_app_or in Hxin as [Hxin|Hxin].
    + apply e_lt_spec. left. specialize (Hnew x Hxin). lia.
    + destruct Hin as [Hin|[<-|[]]]; [apply (Hk k Hin); rewrite Hh; right; exact Hxin | apply Hrest, Hxin].
  - intros x Hx0. destruct (Hl x Hx0) as [Hin|Hin]; [|right; apply in_or_app; left; exact Hin].
    rewrite Hh in Hin. destruct Hin as [<-|Hin]; [right; apply in_or_app; right; left; reflexivity|].
    left. apply (Permutation_in _ (Permutation_sym Hperm)). apply in_or_app. right. exact Hin.
Qed.

Lemma Pass_dq : forall H0 T s acc q, Pass H0 T s acc -> Pass H0 T (set_dq s q) acc.
Proof. intros H0 T s acc q [Hi Ho]. split; [apply Inv_set_dq, Hi | exact Ho]. Qed.

Lemma Pass_noise : forall H0 T s acc ev, Pass H0 T s acc -> noise ev -> Pass H0 T s (acc ++ ev).
Proof. intros H0 T s acc ev Ho Hn. unfold Pass. rewrite fired_app, (fired_noise _ Hn), app_nil_r. exact Ho. Qed.

Lemma pass_facts : forall guard jit c s s' ev, passive_cfg c -> passive_dq s -> 0 <= jit -> Inv s ->
  run_once guard jit c s = (s', ev) \/ run guard jit c s = (s', ev) ->
  Inv s' /\ passive_dq s' /\ now s' = now s /\ sorted (fired ev) /\ (forall k, In k (fired ev) -> e_when k <= now s) /\
  forall x, In x (heap s) -> In x (heap s') \/ In x (fired ev).
Proof.
  intros guard jit c s s' ev Hc Hp Hj Hi H.
  assert (H0 : Pass (heap s) (now s) s []).
  { split; [exact Hi|]. split; [reflexivity|]. split; [constructor|]. split; [intros k [] | intros x Hx; left; exact Hx]. }
  destruct (loops_pres_passive (Pass (heap s) (now s)) guard jit c (Pass_fire _ _ jit c Hc Hj) (Pass_dq _ _) (Pass_noise _ _)
              s [] s' ev H0 Hp H) as [[Hi' [Hn [Hs [Hk Hl]]]] Hp'].
  split; [exact Hi'|]. split; [exact Hp'|]. split; [exact Hn|]. split; [exact Hs|].
  split; [intros k Hin; apply (Hk k Hin) | exact Hl].
Qed.

Definition dcount (T : Z) (h : list entry) : nat := length (filter (fun e => e_when e <=? T) h).

Lemma due_count_eq : forall s, due_count s = dcount (now s) (heap s).
Proof. reflexivity. Qed.

Lemma dcount_perm : forall T h h', Permutation h h' -> dcount T h = dcount T h'.
Proof.
  intros T h h' P. unfold dcount. induction P; cbn [filter].
  - reflexivity.
  - destruct (e_when x <=? T); cbn [length]; congruence.
  - destruct (e_when x <=? T), (e_when y <=? T); reflexivity.
  - congruence.
Qed.

Lemma dcount_sorted_zero : forall T e r, sorted (e :: r) -> T < e_when e -> dcount T (e :: r) = 0%nat.
Proof.
  intros T e r Hs Hd. inversion Hs as [|? ? _ Hf]; subst. rewrite Forall_forall in Hf.
  unfold dcount. rewrite filter_none; [reflexivity|].
  intros x [<-|Hx]; [lia|]. apply Hf, e_lt_spec in Hx. lia.
Qed.

Lemma dcount_in : forall T h x, In x h -> e_when x <= T -> (1 <= dcount T h)%nat.
Proof.
  intros T h x Hx Hd. unfold dcount.
  assert (Hi : In x (filter (fun e => e_when e <=? T) h)) by (apply filter_In; split; [exact Hx | lia]).
  destruct (filter (fun e => e_when e <=? T) h); [destruct Hi | cbn [length]; lia].
Qed.

Lemma get_next_none_due : forall s s1 z, Inv s -> get_next_task s = (None, s1, z) -> due_count s = 0%nat.
Proof.
  intros s s1 z Hi G. pose proof (Inv_sorted s Hi) as Hso. unfold get_next_task in G. rewrite due_count_eq.
  destruct (heap s) as [|e r]; [reflexivity|].
  destruct (e_when e <=? now s) eqn:E; [discriminate|]. apply dcount_sorted_zero; [exact Hso | lia].
Qed.

(* a due entry that fires is gone for good: the slot a recurring task is re-queued at lies after the clock *)
Lemma fire_step_due : forall jit c s s2 ev r z, passive_cfg c -> 0 <= jit -> Inv s -> passive_dq s ->
  fire_step jit c s = (s2, ev, r, z) ->
  (s2 = s /\ ev = [] /\ r = false /\ z = false /\ due_count s = 0%nat) \/
  (Inv s2 /\ passive_dq s2 /\ now s2 = now s /\ nofuel ev /\ due_count s = S (due_count s2) /\
   (z = false -> due_count s2 = 0%nat)).
Proof.
  intros jit c s s2 ev r z Hc Hj Hi Hp F.
  destruct (fire_step_passive _ _ _ _ _ _ _ Hc Hj Hi Hp F)
    as [[G [-> [-> [-> ->]]]]|(e & rest & new & Hh & Hd & Hn & Hi2 & Hp2 & _ & Hnf & Hz & Hperm & Hnew)].
  { left. repeat split. exact (get_next_none_due _ _ _ Hi G). }
  right. split; [exact Hi2|]. split; [exact Hp2|]. split; [exact Hn|]. split; [exact Hnf|].
  assert (H2 : due_count s2 = dcount (now s) rest).
  { rewrite due_count_eq, Hn, (dcount_perm _ _ _ Hperm). unfold dcount. rewrite filter_app, filter_none; [reflexivity|].
    intros x Hx. specialize (Hnew x Hx). lia. }
  rewrite H2. split.
  - rewrite due_count_eq, Hh. unfold dcount. cbn [filter].
    destruct (e_when e <=? now s) eqn:E; [reflexivity | lia].
  - intros ->. destruct rest as [|e' r']; [reflexivity|].
    pose proof (Inv_sorted s Hi) as Hso. rewrite Hh in Hso. inversion Hso; subst.
    apply dcount_sorted_zero; [assumption | lia].
Qed.

Lemma loop_iter_due : forall jit c s s3 ev x z, passive_cfg c -> 0 <= jit -> Inv s -> passive_dq s ->
  loop_iter true jit c s = (s3, ev, x, z) ->
  Inv s3 /\ passive_dq s3 /\ nofuel ev /\
  (if x then In EvRaise ev /\ due_count s = S (due_count s3)
   else dq s3 = [] /\ if z then due_count s = S (due_count s3) else due_count s3 = 0%nat).
Proof.
  intros jit c s s3 ev x z Hc Hj Hi Hp L. unfold loop_iter in L. destruct (fire_step jit c s) as [[[s2 ev1] r1] z0] eqn:F.
  destruct (fire_step_due _ _ _ _ _ _ _ Hc Hj Hi Hp F) as [[-> [-> [-> [-> Hz0]]]]|[Hi2 [Hp2 [_ [Hnf1 [Hs Hz]]]]]].
  - destruct (do_drain true jit c s) as [[s3' ev2] r2] eqn:D. destruct (do_drain_guarded _ _ _ _ _ _ Hp D) as [-> [-> Hnf2]].
    inversion L; subst. split; [apply Inv_set_dq, Hi|]. split; [reflexivity|]. split; [exact Hnf2|].
    split; [reflexivity | exact Hz0].
  - destruct r1.
    + inversion L; subst. split; [exact Hi2|]. split; [exact Hp2|].
      split; [apply nofuel_app; [exact Hnf1 | intros [X|[]]; discriminate X]|].
      split; [apply in_or_app; right; left; reflexivity | exact Hs].
    + destruct (do_drain true jit c s2) as [[s3' ev2] r2] eqn:D.
      destruct (do_drain_guarded _ _ _ _ _ _ Hp2 D) as [-> [-> Hnf2]]. inversion L; subst.
      split; [apply Inv_set_dq, Hi2|]. split; [reflexivity|]. split; [apply nofuel_app; assumption|].
      split; [reflexivity|]. destruct z; [exact Hs | exact (Hz eq_refl)].
Qed.

Lemma run_once_loop_progress : forall jit c, passive_cfg c -> 0 <= jit -> forall fuel s s' ev, Inv s -> passive_dq s ->
  (due_count s < fuel)%nat -> run_once_loop true jit c fuel s = (s', ev) ->
  nofuel ev /\ (due_count s' = 0%nat \/ (In EvRaise ev /\ (due_count s' < due_count s)%nat)).
Proof.
  intros jit c Hc Hj. induction fuel as [|f IH]; intros s s' ev Hi Hp Hf H; [lia|].
  rewrite run_once_loop_S in H. destruct (loop_iter true jit c s) as [[[s3 ev1] x] z] eqn:L.
  destruct (loop_iter_due _ _ _ _ _ _ _ Hc Hj Hi Hp L) as [Hi3 [Hp3 [Hnf1 Hd]]]. destruct x.
  - inversion H; subst. split; [exact Hnf1|]. right. split; [apply Hd | destruct Hd; lia].
  - destruct Hd as [_ Hd]. destruct z; cbn [orb negb] in H.
    + destruct (run_once_loop true jit c f s3) as [s4 ev3] eqn:R. inversion H; subst s' ev.
      destruct (IH _ _ _ Hi3 Hp3 ltac:(lia) R) as [Hnf Hpr]. split; [apply nofuel_app; assumption|].
      destruct Hpr as [Hz4|[Hr4 Hl4]]; [left; exact Hz4|]. right. split; [apply in_or_app; right; exact Hr4 | lia].
    + inversion H; subst. split; [exact Hnf1|]. left. exact Hd.
Qed.

Lemma run_once_progress : forall jit c s s' ev, passive_cfg c -> passive_dq s -> 0 <= jit -> Inv s ->
  run_once true jit c s = (s', ev) ->
  nofuel ev /\ (due_count s' = 0%nat \/ (In EvRaise ev /\ (due_count s' < due_count s)%nat)).
Proof.
  intros jit c s s' ev Hc Hp Hj Hi H. eapply (run_once_loop_progress jit c Hc Hj); [exact Hi | exact Hp | | exact H]. lia.
Qed.

Lemma passes_fire_all : forall jit c, passive_cfg c -> 0 <= jit -> forall n s s' ev, Inv s -> passive_dq s ->
  (due_count s <= n)%nat -> run_ops true jit c s (repeat RunOnce n) = (s', ev) ->
  Inv s' /\ now s' = now s /\ due_count s' = 0%nat /\
  (forall x, In x (heap s) -> In x (heap s') \/ In x (fired ev)) /\ nofuel ev.
Proof.
  intros jit c Hc Hj. induction n as [|n IH]; intros s s' ev Hi Hp Hn H; cbn [repeat run_ops step] in H.
  - inversion H; subst. split; [exact Hi|]. split; [reflexivity|]. split; [lia|]. split; [intros x Hx; left; exact Hx | intros []].
  - destruct (run_once true jit c s) as [s1 ev1] eqn:R.
    destruct (run_ops true jit c s1 (repeat RunOnce n)) as [s2 ev2] eqn:R2. inversion H; subst.
    destruct (pass_facts _ _ _ _ _ _ Hc Hp Hj Hi (or_introl R)) as [Hi1 [Hp1 [Hn1 [_ [_ Hk1]]]]].
    destruct (run_once_progress _ _ _ _ _ Hc Hp Hj Hi R) as [Hnf Hpr].
    assert (Hle : (due_count s1 <= n)%nat) by (destruct Hpr as [Hpr|[_ Hpr]]; lia).
    destruct (IH _ _ _ Hi1 Hp1 Hle R2) as [Hi2 [Hn2 [Hz [Hk Hnf2]]]].
    split; [exact Hi2|]. split; [congruence|]. split; [exact Hz|]. split; [|apply nofuel_app; assumption].
    intros x Hx. rewrite fired_app. destruct (Hk1 x Hx) as [Hx1|Hx1]; [|right; apply in_or_app; left; exact Hx1].
    destruct (Hk x Hx1) as [Hx2|Hx2]; [left; exact Hx2 | right; apply in_or_app; right; exact Hx2].
Qed.

Lemma due_tasks_fire_despite_raises : forall jit c s s' ev, passive_cfg c -> passive_dq s -> 0 <= jit -> Inv s ->
  run_ops true jit c s (repeat RunOnce (S (due_count s))) = (s', ev) ->
  forall x, In x (heap s) -> e_when x <= now s -> In x (fired ev).
Proof.
  intros jit c s s' ev Hc Hp Hj Hi H x Hx Hd.
  destruct (passes_fire_all jit c Hc Hj _ _ _ _ Hi Hp (le_S _ _ (le_n _)) H) as [_ [Hn [Hz [Hk _]]]].
  destruct (Hk x Hx) as [Hin|Hin]; [|exact Hin].
  exfalso. rewrite due_count_eq in Hz. pose proof (dcount_in (now s') _ _ Hin ltac:(lia)). lia.
Qed.

(* what decreases in core.run (guarded code): an iteration that pops a due entry need not empty the deferred queue (the
   callback may raise before the drain), and an iteration with nothing due empties it; hence twice the due entries plus
   one for a non-empty queue, the `2 * due_count s + 2` of Sched.run *)
Definition rmeasure (s : st) : nat :=
  (2 * due_count s + match dq s with [] => 0 | _ :: _ => 1 end)%nat.

Lemma quiescent_spec : forall s, Inv s -> quiescent s = true <-> dq s = [] /\ due_count s = 0%nat.
Proof.
  intros s Hi. pose proof (Inv_sorted s Hi) as Hso. unfold quiescent. rewrite due_count_eq.
  destruct (dq s); [|split; [discriminate | intros [X _]; discriminate X]].
  destruct (heap s) as [|e r]; [split; [split|]; reflexivity|].
  destruct (e_when e <=? now s) eqn:E; cbn [negb].
  - split; [discriminate|]. intros [_ Hz].
    pose proof (dcount_in (now s) (e :: r) e (or_introl eq_refl) ltac:(lia)). lia.
  - split; [|reflexivity]. intros _. split; [reflexivity|]. apply dcount_sorted_zero; [exact Hso | lia].
Qed.

Lemma run_loop_progress : forall jit c, passive_cfg c -> 0 <= jit -> forall fuel s s' ev, Inv s -> passive_dq s ->
  (rmeasure s < fuel)%nat -> run_loop true jit c fuel s = (s', ev) -> nofuel ev /\ quiescent s' = true.
Proof.
  intros jit c Hc Hj. induction fuel as [|f IH]; intros s s' ev Hi Hp Hf H; [lia|].
  rewrite run_loop_S in H. destruct (quiescent s) eqn:Q; [inversion H; subst; split; [intros [] | exact Q]|].
  destruct (loop_iter true jit c s) as [[[s3 ev1] x] z] eqn:L.
  destruct (loop_iter_due _ _ _ _ _ _ _ Hc Hj Hi Hp L) as [Hi3 [Hp3 [Hnf1 Hd]]].
  (* a due entry is gone, or nothing was due and the deferred queue, which was not empty, is now *)
  assert (Hm : (rmeasure s3 < rmeasure s)%nat).
  { unfold rmeasure. destruct x; [destruct Hd as [_ Hd]; destruct (dq s3), (dq s); lia|].
    destruct Hd as [-> Hd]. destruct z; [destruct (dq s); lia|]. rewrite Hd.
    destruct (dq s) eqn:Dq; [|lia]. destruct (due_count s) eqn:Du; [|lia].
    rewrite (proj2 (quiescent_spec s Hi) (conj Dq Du)) in Q. discriminate Q. }
  destruct (run_loop true jit c f s3) as [s4 ev3] eqn:R. inversion H; subst.
  destruct (IH _ _ _ Hi3 Hp3 ltac:(lia) R) as [Hnf Hq4]. split; [apply nofuel_app; assumption | exact Hq4].
Qed.

Lemma run_fires_all_due : forall jit c s s' ev, passive_cfg c -> passive_dq s -> 0 <= jit -> Inv s ->
  run true jit c s = (s', ev) ->
  nofuel ev /\ dq s' = [] /\ due_count s' = 0%nat /\
  forall x, In x (heap s) -> e_when x <= now s -> In x (fired ev).
Proof.
  intros jit c s s' ev Hc Hp Hj Hi H.
  assert (Hm : (rmeasure s < 2 * due_count s + 2 + slack)%nat) by (unfold rmeasure; destruct (dq s); lia).
  destruct (run_loop_progress jit c Hc Hj _ _ _ _ Hi Hp Hm H) as [Hnf Hq].
  destruct (pass_facts _ _ _ _ _ _ Hc Hp Hj Hi (or_intror H)) as [Hi' [_ [Hn [_ [_ Hk]]]]].
  destruct (proj1 (quiescent_spec _ Hi') Hq) as [Hd Hz].
  split; [exact Hnf|]. split; [exact Hd|]. split; [exact Hz|].
  intros x Hx Hdue. destruct (Hk x Hx) as [Hin|Hin]; [|exact Hin].
  exfalso. rewrite due_count_eq in Hz. pose proof (dcount_in (now s') _ _ Hin ltac:(lia)). lia.
Qed.
