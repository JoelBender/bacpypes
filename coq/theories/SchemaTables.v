(* SchemaTables.v — table obligations about coq/gen/Schemas.v (re-checked by make on every run). *)
From Coq Require Import String.
From Bac Require Import Base.
From Bac Require Import Tag.
From Bac Require Import Schema.
From Bac Require Import Codec.
From Bac Require Import CodecFacts.
From BacGen Require Import Schemas.
Open Scope N_scope.

(* every definition of apdu.py / basetypes.py is LL(1)-deterministic: optional elements, choice
   alternatives and list items can be told apart by one tag; context numbers are encodable *)
Lemma C03_all_wf : forallb wf_ty all_types = true.
Proof. vm_compute. reflexivity. Qed.

(* no definition falls outside the fragment for which the round trip is proved *)
Definition unsupported_names : list string :=
  map fst (filter (fun p => negb (supported (snd p))) all_named).
Lemma C03_supported_or_listed : unsupported_names = [].
Proof. vm_compute. reflexivity. Qed.

(* registries: service choices distinct, every registered class is a Sequence *)
Fixpoint nodupb (l : list N) : bool :=
  match l with [] => true | a :: r => negb (existsb (N.eqb a) r) && nodupb r end.
Definition is_seq (t : ty) : bool := match t with TSeq _ => true | _ => false end.
Definition registry_ok (r : list (N * ty)) : bool :=
  nodupb (map fst r) && forallb (fun p => is_seq (snd p) && (fst p <? 256)) r.
Lemma C03_registries_shape :
  registry_ok confirmed_request_types && registry_ok complex_ack_types &&
  registry_ok unconfirmed_request_types && registry_ok error_types = true
  /\ (length confirmed_request_types, length complex_ack_types,
      length unconfirmed_request_types, length error_types) = (27, 12, 11, 8)%nat.
Proof. vm_compute. split; reflexivity. Qed.

Lemma supported_or_listed : forall n t, In (n, t) all_named ->
  supported t = true \/ In n unsupported_names.
Proof.
  intros n t Hin. destruct (supported t) eqn:E; [left; reflexivity|right].
  unfold unsupported_names. apply in_map_iff. exists (n, t). split; [reflexivity|].
  apply filter_In. split; [exact Hin|]. cbn [snd]. rewrite E. reflexivity.
Qed.

Lemma all_named_supported n t : In (n, t) all_named -> supported t = true.
Proof.
  intros Hin. destruct (supported_or_listed n t Hin) as [E|E]; [exact E|].
  rewrite C03_supported_or_listed in E. contradiction.
Qed.

Lemma C03_all_supported : forallb supported all_types = true.
Proof.
  apply forallb_forall. intros t Ht. apply in_map_iff in Ht as ([n t'] & <- & Hin).
  exact (all_named_supported n t' Hin).
Qed.
