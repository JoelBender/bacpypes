(* NetLocal.v — a frame without DADR (local unicast, local broadcast, last leg of a routed packet) dies on its LAN:
   one step, nothing new in flight, every node hears it at most once (lemmas about Net.v, property C06). *)
From Bac Require Import Base ListFacts Net NetFacts NetOnce.
Open Scope N_scope.

Definition hearers (os : list obs) : list nat :=
  flat_map (fun o => match o with OUp who _ _ _ => [who] | _ => [] end) os.

Lemma hearers_app : forall a b, hearers (a ++ b) = hearers a ++ hearers b.
Proof. intros. unfold hearers. apply flat_map_app. Qed.

Lemma hearers_rev : forall os, hearers (rev os) = rev (hearers os).
Proof. apply flat_map_rev_single. intros []; cbn; lia. Qed.

Lemma hearers_flat_map : forall {A} (g : A -> list obs) l, hearers (flat_map g l) = flat_map (fun x => hearers (g x)) l.
Proof. intros. apply flat_map_flat_map. Qed.

Lemma hearers_emit : forall w who acts, hearers (snd (emit w who acts)) = repeat who (count_up acts).
Proof.
  intros. rewrite emit_flat_map. cbn [snd]. rewrite hearers_flat_map. unfold count_up.
  induction acts as [|a r IH]; [reflexivity|]. cbn [flat_map filter]. rewrite IH. destruct a; reflexivity.
Qed.

Lemma process_npdu_nodadr : forall n i src dst p n' acts,
  process_npdu n i src dst p = (n', acts) -> n_dadr p = None -> n_msg p = None ->
  Forall frameless_action acts.
Proof.
  intros n i src dst p n' acts H Hd Hm.
  destruct (process_npdu_shape _ _ _ _ _ _ _ H) as [[_ E]|(ai & la & _ & _ & _ & _ & head & fw & Ea & Hh)].
  - destruct E as [E|[E|E]]; subst acts; repeat constructor.
  - unfold fwd_tail in Ea. rewrite Hd, app_nil_r in Ea. subst acts.
    destruct Hh as [[_ Hp]|[(w & Em & _)|(nets & Em & _)]]; [|congruence..].
    destruct Hp as [E|[(e & E)|[E|(_ & _ & _ & E)]]]; subst head; repeat constructor.
Qed.

Lemma emit_frameless : forall w who acts, Forall frameless_action acts -> fst (emit w who acts) = [].
Proof.
  intros w who acts H. rewrite emit_flat_map. cbn [fst]. induction H as [|a r Ha _ IH]; [reflexivity|].
  cbn [flat_map]. rewrite IH. destruct a; try contradiction; reflexivity.
Qed.

Lemma member_nodadr : forall ns f x, n_dadr (f_npdu f) = None -> n_msg (f_npdu f) = None ->
  out_frames ns f x = [] /\ (hearers (out_obs ns f x) = [] \/ hearers (out_obs ns f x) = [fst x]).
Proof.
  intros ns f x Hd Hm. unfold out_frames, out_obs.
  destruct (member_out ns f x) as [[[w'|] fs] os] eqn:Em; cbn [fst snd].
  - destruct (member_out_some _ _ _ _ _ _ Em) as (w & lan & wmac & n' & acts & _ & _ & _ & Hpr & _ & He).
    pose proof (emit_frameless w' (fst x) acts (process_npdu_nodadr _ _ _ _ _ _ _ Hpr Hd Hm)) as Hf.
    pose proof (hearers_emit w' (fst x) acts) as Hh. rewrite He in Hf, Hh. cbn [fst snd] in Hf, Hh.
    split; [assumption|]. rewrite Hh. pose proof (process_npdu_up_once _ _ _ _ _ _ _ Hpr).
    destruct (count_up acts) as [|[|k]]; [left|right|lia]; reflexivity.
  - destruct (member_out_none _ _ _ _ _ Em); subst. auto.
Qed.

Lemma deliver_nodadr : forall members ns f q tr ns' q' tr',
  deliver ns f members q tr = (ns', q', tr') -> NoDup (map fst members) ->
  n_dadr (f_npdu f) = None -> n_msg (f_npdu f) = None ->
  q' = q /\ tr' = rev (flat_map (out_obs ns f) members) ++ tr.
Proof.
  intros members ns f q tr ns' q' tr' H Hnd Hd Hm. destruct (deliver_as_map _ _ _ _ _ _ _ _ H Hnd) as (A1 & A2 & _).
  split; [|assumption]. rewrite A1, (flat_map_nil _ _ (fun x _ => proj1 (member_nodadr ns f x Hd Hm))).
  apply app_nil_r.
Qed.

Theorem local_frame_dies : forall w f,
  queue w = [f] -> n_dadr (f_npdu f) = None -> n_msg (f_npdu f) = None ->
  NoDup (map fst (lan_members (lans w) (f_lan f))) ->
  exists w' osn, step w = Some w' /\ queue w' = [] /\ trace w' = osn ++ OFrame f :: trace w /\
                 NoDup (hearers osn) /\
                 (forall x, In x (hearers osn) -> In x (map fst (lan_members (lans w) (f_lan f)))).
Proof.
  intros w f Hq Hd Hm Hnd. rewrite (step_cons w f [] Hq).
  destruct (deliver (nodes w) f (lan_members (lans w) (f_lan f)) [] [OFrame f]) as [[ns q'] os] eqn:Ed.
  destruct (deliver_nodadr _ _ _ _ _ _ _ _ Ed Hnd Hd Hm) as (A1 & A2). subst q' os.
  pose proof (fun x => proj2 (member_nodadr (nodes w) f x Hd Hm)) as Hmem.
  eexists. eexists. split; [reflexivity|]. cbn [queue trace]. split; [reflexivity|].
  split; [rewrite <- app_assoc; reflexivity|]. rewrite hearers_rev, hearers_flat_map. split.
  - apply NoDup_rev. apply (nodup_sub_flat_map (fun x => [fst x])); [exact Hmem|].
    rewrite flat_map_single. assumption.
  - intros who Hwho. apply in_rev, in_flat_map in Hwho. destruct Hwho as (x & Hx & Hwx).
    destruct (Hmem x) as [E|E]; rewrite E in Hwx; [contradiction|]. destruct Hwx as [Hwx|[]]. subst who. apply in_map. assumption.
Qed.
