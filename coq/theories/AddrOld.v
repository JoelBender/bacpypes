(* AddrOld.v — the legacy X'<hex pairs>' notation (with optional network), which only the
   regular expressions after the combined pattern accept. *)
From Bac Require Import Base Addr AddrFacts AddrParse.
Open Scope N_scope.

Definition oldtext (h : str) : str := 88 :: 39 :: h ++ [39].

Lemma oldtext_cls h : forallb is_hex h = true -> forallb (cls is_hex [88; 39]) (oldtext h) = true.
Proof. intro H. unfold oldtext. cbn [forallb]. now rewrite forallb_app, (cls_base _ _ _ H). Qed.

Lemma core_old_none h : forallb is_hex h = true -> match_core (oldtext h) = None.
Proof.
  intro H. pose proof (fun k => forallb_notin _ _ k (oldtext_cls h H)) as Notin. unfold match_core, is_field.
  (* the head characters X' decide these three tests *)
  change (str_eqb (oldtext h) [42]) with false. change (digits (oldtext h)) with false.
  change (starts_0x (oldtext h)) with false. cbn [orb andb]. unfold ip_mask_port, is_dotted, dotted.
  now rewrite (split_at_none 58 _ (Notin 58 eq_refl)), (split_at_none 47 _ (Notin 47 eq_refl)),
    (split_at_none 46 _ (Notin 46 eq_refl)).
Qed.

Lemma eth_groups_chars k : forall s, eth_groups k s = true -> forallb (cls is_hex [58]) s = true.
Proof.
  induction k as [|k IH]; intros [|a [|b [|c r]]] H; try discriminate H; cbn [eth_groups] in H.
  - apply andb_true_iff in H as [Ha Hb]. cbn [forallb]. unfold cls. now rewrite Ha, Hb.
  - apply andb_true_iff in H as [H Hr]. apply andb_true_iff in H as [H Hb]. apply andb_true_iff in H as [Hc Ha].
    apply N.eqb_eq in Hc. subst c. cbn [forallb]. unfold cls at 1 2. now rewrite Ha, Hb, (IH r Hr).
Qed.
Lemma not_ethernet s : In 88 s -> is_ethernet s = false.
Proof.
  intro H. destruct (is_ethernet s) eqn:E; [|reflexivity]. apply eth_groups_chars in E.
  now destruct (forallb_notin _ _ 88 E eq_refl).
Qed.

Lemma is_oldhex_text h : hex_pairs h = true -> is_oldhex (oldtext h) = true.
Proof. intro H. unfold is_oldhex, oldtext. now rewrite last_last, removelast_last, H. Qed.

Lemma xtob_oldtext h : forallb is_hex h = true -> xtob (removelast (skipn 2 (oldtext h))) = unhex h.
Proof. intro H. unfold oldtext. cbn [skipn]. rewrite removelast_last. now apply xtob_hex. Qed.

(* "[<net>:]X'<hex pairs>'" fails the combined pattern only at its core, so it reaches the legacy patterns *)
Lemma decode_old p h : forallb is_hex h = true -> pfx_ok p (oldtext h) ->
  let t := with_pfx p (oldtext h) in decode_str t = decode_legacy t /\ strip_nl t = t.
Proof.
  intros Hf Hp. pose proof (fun k => forallb_notin _ _ k (oldtext_cls h Hf)) as Notin.
  assert (Hnl : nonl (oldtext h) = true) by (apply nonl_notin, Notin; reflexivity).
  split; [|now apply strip_nl_nonl, with_pfx_nonl].
  now rewrite (decode_with_pfx p _ Hp Hnl (Notin 64 eq_refl)), (core_old_none h Hf).
Qed.

(* "X'<hex pairs>'" *)
Lemma decode_oldhex h : hex_pairs h = true ->
  exists b, unhex h = Ok b /\ decode_str (oldtext h) = Ok (station b).
Proof.
  intro H. destruct (hex_pairs_unhex h H) as [b Hb]. exists b. split; [exact Hb|].
  pose proof (hex_pairs_forall h H) as Hf.
  assert (Hp : noprefix (oldtext h) = true).
  { unfold noprefix. now rewrite (split_at_none 58 _ (forallb_notin _ _ 58 (oldtext_cls h Hf) eq_refl)). }
  destruct (decode_old PNone h Hf Hp) as [E Es]. cbn [with_pfx] in E, Es.
  rewrite E. unfold decode_legacy. rewrite Es, (not_ethernet (oldtext h)) by now left.
  now rewrite (is_oldhex_text h H), (xtob_oldtext h Hf), Hb.
Qed.

(* "<net>:X'<hex pairs>'" *)
Lemma decode_net_oldhex n h : digits n = true -> hex_pairs h = true ->
  exists b, unhex h = Ok b /\
  decode_str (n ++ 58 :: oldtext h) =
    if (65535 <=? Z.of_N (dec_val n))%Z then Err ValueErr
    else Ok (mkAddr ARemoteStation (Some (Z.of_N (dec_val n))) (Some b) None None).
Proof.
  intros Hn H. destruct (hex_pairs_unhex h H) as [b Hb]. exists b. split; [exact Hb|].
  pose proof (hex_pairs_forall h H) as Hf.
  destruct (decode_old (PNet n) h Hf Hn) as [E Es]. cbn [with_pfx] in E, Es.
  rewrite E. unfold decode_legacy. rewrite Es, not_ethernet by (apply in_or_app; right; right; now left).
  (* the text begins with a digit, not with X *)
  assert (NO : is_oldhex (n ++ 58 :: oldtext h) = false).
  { destruct (digits_head n Hn) as (c & r & -> & Hc). apply is_digit_spec in Hc.
    unfold is_oldhex. destruct r; cbn [app]; (replace (c =? 88) with false by lia); reflexivity. }
  rewrite NO, (split_at_app 58 n _ (digits_notin n 58 Hn eq_refl)), Hn, (is_oldhex_text h H). cbn [andb].
  unfold net_check. destruct (65535 <=? Z.of_N (dec_val n))%Z; cbn [bind]; [reflexivity|].
  now rewrite (xtob_oldtext h Hf), Hb.
Qed.
