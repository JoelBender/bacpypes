(* SchedC14.v — vocabulary of props/C14.v: reachable states (after any history from the initial state), the order on
   queue entries, the calls of a trace; the deferred loop of the model against the pure one; the self-suspending task.
   The other notions the theorems are stated with: Inv, fire_of (SchedFacts), fired, has_inst (SchedThms),
   passive_cfg, passive_dq (SchedPassive). *)
From Bac Require Import Base Deferred DeferredFacts Sched SchedFacts SchedThms.
From Coq Require Import Sorted.
Open Scope Z_scope.

Definition reachable (guard : bool) (jit : Z) (c : cfg) (s : st) : Prop :=
  exists ops ev, run_ops guard jit c st0 ops = (s, ev).

Lemma reachable_inv : forall guard jit c s, reachable guard jit c s -> Inv s.
Proof. intros guard jit c s [ops [ev H]]. eapply reach_inv; exact H. Qed.

Definition key_lt (a b : entry) : Prop :=
  e_when a < e_when b \/ (e_when a = e_when b /\ (e_seq a < e_seq b)%N).

Lemma elt_key_lt : forall a b, elt a b <-> key_lt a b.
Proof. exact e_lt_spec. Qed.

Lemma sorted_key_lt : forall l, sorted l -> StronglySorted key_lt l.
Proof.
  induction 1; constructor; [assumption|]. rewrite Forall_forall in *. intros x Hx.
  apply elt_key_lt, H0, Hx.
Qed.

Definition calls_of (ev : list event) : list nat :=
  flat_map (fun x => match x with EvCall i => [i] | _ => [] end) ev.

Lemma calls_of_app : forall a b, calls_of (a ++ b) = calls_of a ++ calls_of b.
Proof. intros. apply flat_map_app. Qed.

Lemma run_acts_dq : forall jit c l s s' ev x, run_acts jit c s l = (s', ev, x) -> dq s' = dq s /\ calls_of ev = [].
Proof.
  intros jit c l s s' ev x H.
  refine (run_acts_I (fun s1 acc => dq s1 = dq s /\ calls_of acc = []) jit c _ _ l s [] s' ev x (conj eq_refl eq_refl) H).
  - (* I_suspend *) intros s1 acc i [Hd Hc]. split; [|exact Hc]. rewrite <- Hd. apply tm_suspend_frame.
  - (* I_install *) intros s1 acc i f s2 auto [Hd Hc] _ T. rewrite calls_of_app, Hc. split; [|reflexivity].
    rewrite <- Hd. apply (tm_install_frame _ _ _ T).
Qed.

Lemma call_batch_s_calls : forall jit c b s s' ev x, call_batch_s true jit c s b = (s', ev, x) ->
  x = false /\ dq s' = dq s ++ flat_map d_spawns b /\ calls_of ev = map d_id b.
Proof.
  induction b as [|d b IH]; intros s s' ev x H; cbn [call_batch_s] in H.
  - inversion H; subst. rewrite app_nil_r. repeat split.
  - destruct (run_acts jit c (set_dq s (dq s ++ d_spawns d)) (d_acts d)) as [[s2 ev2] failed] eqn:RA.
    destruct (run_acts_dq _ _ _ _ _ _ _ RA) as [Hd Hc]. cbn [dq set_dq] in Hd.
    rewrite andb_false_r in H.
    destruct (call_batch_s true jit c s2 b) as [[s3 ev3] x3] eqn:R. inversion H; subst.
    destruct (IH _ _ _ _ R) as [-> [Hd3 Hc3]]. split; [reflexivity|]. split.
    + rewrite Hd3, Hd. cbn [flat_map]. rewrite app_assoc. reflexivity.
    + change (calls_of ([EvCall (d_id d)] ++ (ev2 ++ (if failed || d_raises d then [EvRaise] else [])) ++ ev3)
              = map d_id (d :: b)).
      rewrite !calls_of_app, Hc, Hc3. cbn [map calls_of flat_map app].
      destruct (failed || d_raises d); reflexivity.
Qed.

(* with the guard, whatever the callbacks do to the schedule, the model's deferred loop calls what the pure loop of
   Deferred.v calls, in that order *)
Lemma sdrain_calls : forall jit c fuel s s' ev x, (f_size (dq s) <= fuel)%nat ->
  sdrain true jit c fuel s = (s', ev, x) ->
  exists L, drain true fuel (dq s) = (L, [], DDone) /\ x = false /\ dq s' = [] /\ calls_of ev = map d_id L.
Proof.
  induction fuel as [|f IH]; intros s s' ev x Hf H; cbn [sdrain] in H.
  - destruct (dq s) as [|d0 q0] eqn:Q.
    + inversion H; subst. exists []. repeat split. exact Q.
    + discriminate (f_size_zero _ Hf).
  - destruct (dq s) as [|d0 q0] eqn:Q.
    + inversion H; subst. exists []. repeat split. exact Q.
    + destruct (call_batch_s true jit c (set_dq s []) (d0 :: q0)) as [[s1 ev1] x1] eqn:B.
      destruct (call_batch_s_calls _ _ _ _ _ _ _ B) as [-> [Hd1 Hc1]]. cbn [dq set_dq app] in Hd1.
      destruct (sdrain true jit c f s1) as [[s2 ev2] x2] eqn:R. inversion H; subst.
      assert (Hsz : (f_size (dq s1) <= f)%nat).
      { rewrite Hd1. pose proof (f_size_spawns (d0 :: q0)) as Hs. cbn [length] in Hs. lia. }
      destruct (IH _ _ _ _ Hsz R) as [L' [HL' [-> [Hd2 Hc2]]]].
      cbn [drain]. rewrite call_batch_guarded. rewrite <- Hd1, HL'.
      exists ((d0 :: q0) ++ L'). split; [reflexivity|]. split; [reflexivity|]. split; [exact Hd2|].
      rewrite calls_of_app, Hc1, Hc2, map_app. reflexivity.
Qed.

(* the finding: a recurring task that suspends itself inside its own callback is re-installed by
   process_task and fires again although nobody installed or resumed it *)
Definition self_suspender : cfg := [mkT (Recurring 10 0) false [] [ASuspend 0]].
