(* BvllGenFacts.v — the definitions translated from py34/bacpypes/bvll.py (BacGen.BvllFns,
   regenerated on every run) equal the hand model Bac.Bvll, FOR ALL INPUTS.  The scripts do not
   mention generated variable names: they unfold the generated definitions, destruct the objects /
   option fields / octet-list shapes and compute. *)
From Bac Require Import Base BytesFacts Bvll BvllFacts BvllRound BvllTotal BvllRt BvllGen.
Open Scope N_scope.

(* destruct an object into nine variables whose names do not shadow the projections.  The scripts rely on the
   numbering `fresh` gives: after `dobj self; dobj b` the buffer of b is xd0 (self's is xd), a b destructed inside a
   loop body is xd1; self's address attribute is xa *)
Ltac dobj o :=
  let xt := fresh "xt" in let xf := fresh "xf" in let xl := fresh "xl" in let xd := fresh "xd" in
  let xc := fresh "xc" in let xb := fresh "xb" in let xa := fresh "xa" in let xv := fresh "xv" in
  let xq := fresh "xq" in destruct o as [xt xf xl xd xc xb xa xv xq].

(* attribute reads and assignments on an open object, the readers on an open buffer; numbers are left alone *)
Ltac obj_cbn :=
  cbn [get get_short bind app hdr_copy empty_obj py_append set_pduData set_bvlciType set_bvlciFunction set_bvlciLength
       bvlciType bvlciFunction bvlciLength pduData bvlciResultCode bvlciBDT bvlciAddress bvlciTimeToLive bvlciFDT].

(* arithmetic on lengths written in another order in the source (len(x) + 4 for 4 + len(x), ...) is the same number *)
Ltac norm_len :=
  try rewrite (N.add_comm (lenN _) _); try rewrite (N.mul_comm (lenN _) _); try rewrite (N.add_comm (_ * _) _).

Lemma py_append_append b x y : py_append (py_append b x) y = py_append b (x ++ y).
Proof. unfold py_append, set_pduData. cbn. now rewrite app_assoc. Qed.

Lemma py_append_nil b : py_append b [] = b.
Proof. dobj b. unfold py_append. cbn. now rewrite app_nil_r. Qed.

Lemma set_pduData_nil_id b : pduData b = [] -> set_pduData [] b = b.
Proof. dobj b. cbn. now intros ->. Qed.

Lemma py_get_data_all b : py_get_data (lenN (pduData b)) b = Ok (pduData b, set_pduData [] b).
Proof. unfold py_get_data. now rewrite get_data_all. Qed.

Lemma message_type_is_model k : class_messageType k = fn_of_kind k.
Proof. destruct k; reflexivity. Qed.

Lemma BVLCI_update_is_model dst src : BVLCI_update dst src = Ok (hdr_copy dst src, src).
Proof. reflexivity. Qed.

Definition enc_header_spec (self pdu : pyobj) : res (pyobj * pyobj) :=
  do t <- put (bvlciType self);
  do f <- put (bvlciFunction self);
  if negb (bvlciLength self =? lenN (pduData self) + 4) then Err EncodingError
  else Ok (self, py_append pdu (t ++ f ++ put_short (bvlciLength self))).

Lemma BVLCI_encode_is_model self pdu : BVLCI_encode self pdu = enc_header_spec self pdu.
Proof.
  unfold BVLCI_encode, enc_header_spec, py_put_N, py_put_short_N.
  destruct (put (bvlciType self)) as [t|]; cbn [bind]; [|reflexivity].
  destruct (put (bvlciFunction self)) as [f|]; cbn [bind]; [|reflexivity].
  norm_len. destruct (negb _); cbn [bind]; [reflexivity|]. now rewrite !py_append_append.
Qed.

Lemma BVLPDU_encode_is_model self pdu :
  BVLPDU_encode self pdu =
  do t <- put (bvlciType self);
  do f <- put (bvlciFunction self);
  if negb (bvlciLength self =? lenN (pduData self) + 4) then Err EncodingError
  else Ok (self, py_append pdu (t ++ f ++ put_short (bvlciLength self) ++ pduData self)).
Proof.
  unfold BVLPDU_encode. rewrite BVLCI_encode_is_model. unfold enc_header_spec, py_put_data_bytes.
  destruct (put (bvlciType self)) as [t|]; cbn [bind]; [|reflexivity].
  destruct (put (bvlciFunction self)) as [f|]; cbn [bind]; [|reflexivity].
  destruct (negb _); cbn [bind]; [reflexivity|]. now rewrite py_append_append, <- !app_assoc.
Qed.

Lemma BVLPDU_decode_is_model self pdu :
  BVLPDU_decode self pdu =
  do (fl, body) <- dec_bvlci (pduData pdu);
  Ok (set_pduData body (set_bvlciLength (snd fl) (set_bvlciFunction (fst fl) (set_bvlciType 129 self))),
      set_pduData [] pdu).
Proof.
  rewrite dec_bvlci_eq. dobj self; dobj pdu. unfold BVLPDU_decode, BVLCI_decode, py_get, py_get_short, py_get_data.
  cbn [pduData]. destruct xd0 as [|t [|f [|hi [|lo body]]]]; obj_cbn; try reflexivity;
    (destruct (t =? 129) eqn:T; cbn [negb andb]; obj_cbn; [|reflexivity]); try reflexivity.
  apply N.eqb_eq in T; subst t. norm_len. destruct (_ =? _); cbn [negb]; [|reflexivity].
  obj_cbn. rewrite get_data_all. reflexivity.
Qed.

Lemma py_for_enc {A} (enc1 : A -> res (list N)) (body : A -> pyobj * pyobj -> res (pyobj * pyobj)) :
  (forall e s b, body e (s, b) = do x <- enc1 e; Ok (s, py_append b x)) ->
  forall t s b, py_for t body (s, b) = do x <- encs enc1 t; Ok (s, py_append b x).
Proof.
  intros B. induction t as [|e r IH]; intros s b; cbn [py_for encs bind]; [now rewrite py_append_nil|].
  rewrite B. destruct (enc1 e) as [x|]; [|reflexivity]. cbn [bind].
  rewrite IH. destruct (encs enc1 r) as [y|]; [|reflexivity]. cbn [bind]. now rewrite py_append_append.
Qed.

Lemma enc_bdte_body e (s b : pyobj) :
  (do v1 <- py_addrAddr_bdte e; do b1 <- py_put_data_obytes v1 b;
   do v2 <- py_addrMask_bdte e; do b2 <- py_put_long_Z v2 b1; Ok (s, b2))
  = do x <- enc_bdte e; Ok (s, py_append b x).
Proof.
  destruct e as [a m]. unfold py_addrAddr_bdte, py_addrMask_bdte, enc_bdte, py_put_data_obytes, py_put_long_Z.
  destruct a as [| |l]; cbn [b_addr b_mask py_addrAddr_addr addr_bytes bind]; try reflexivity.
  destruct m as [z|]; cbn [bind]; [|reflexivity]. now rewrite py_append_append.
Qed.

Lemma enc_fdte_body e (s b : pyobj) :
  (do v1 <- py_addrAddr_addr (f_addr e); do b1 <- py_put_data_obytes v1 b;
   do b2 <- py_put_short_OZ (f_ttl e) b1; do b3 <- py_put_short_OZ (f_rem e) b2; Ok (s, b3))
  = do x <- enc_fdte e; Ok (s, py_append b x).
Proof.
  destruct e as [a t r]. unfold enc_fdte, py_put_data_obytes, py_put_short_OZ.
  destruct a as [| |l]; cbn [f_addr f_ttl f_rem py_addrAddr_addr addr_bytes bind]; try reflexivity.
  destruct (put_short_o t) as [x|]; cbn [bind]; [|reflexivity].
  destruct (put_short_o r) as [y|]; cbn [bind]; [|reflexivity]. now rewrite !py_append_append.
Qed.

Definition enc_self (k : bvl_class) (self : pyobj) : pyobj :=
  set_bvlciLength (enc_len (bvlciLength self) (msg_of_obj k self)) self.

Lemma class_encode_is_model k self b :
  class_encode k self b =
  do body <- enc_body (msg_of_obj k self);
  Ok (enc_self k self, py_append (hdr_copy b (enc_self k self)) body).
Proof.
  destruct k; unfold class_encode, enc_self, msg_of_obj, enc_body, enc_len; dobj self; dobj b;
    cbv beta zeta delta [Result_encode WriteBroadcastDistributionTable_encode ReadBroadcastDistributionTable_encode
      ReadBroadcastDistributionTableAck_encode ForwardedNPDU_encode RegisterForeignDevice_encode
      ReadForeignDeviceTable_encode ReadForeignDeviceTableAck_encode DeleteForeignDeviceTableEntry_encode
      DistributeBroadcastToNetwork_encode OriginalUnicastNPDU_encode OriginalBroadcastNPDU_encode];
    rewrite BVLCI_update_is_model; norm_len.
  (* Result, RegisterForeignDevice: one short *)
  1, 6: unfold py_put_short_OZ; cbn [bind bvlciResultCode bvlciTimeToLive]; destruct (put_short_o _); reflexivity.
  (* WriteBroadcastDistributionTable, ReadBroadcastDistributionTableAck: the BDT loop *)
  1, 3: cbn [bind bvlciBDT bvlciLength set_bvlciLength]; norm_len; rewrite enc_bdt_encs;
    apply py_for_enc; intros e s b'; apply enc_bdte_body.
  (* the two Read requests: nothing appended *)
  1, 3: cbn [bind]; now rewrite py_append_nil.
  (* the three NPDU carriers *)
  4-6: reflexivity.
  (* ForwardedNPDU *)
  - unfold py_put_data_obytes, py_put_data_bytes. cbn [bind bvlciAddress pduData set_bvlciLength bvlciLength].
    destruct xa; cbn [py_addrAddr_addr addr_bytes bind]; try reflexivity. now rewrite py_append_append.
  (* ReadForeignDeviceTableAck *)
  - cbn [bind bvlciFDT bvlciLength set_bvlciLength]. rewrite enc_fdt_encs.
    apply py_for_enc; intros e s b'; apply enc_fdte_body.
  (* DeleteForeignDeviceTableEntry *)
  - unfold py_put_data_obytes. cbn [bind bvlciAddress set_bvlciLength bvlciLength].
    destruct xa; cbn [py_addrAddr_addr addr_bytes bind]; reflexivity.
Qed.

(* the decoders' table loops: a `while b.pduData:` whose body does what the model's step does and appends the
   entry to an attribute (get / set) *)
Lemma while_rows {A} (step : list N -> res (A * list N)) (get : pyobj -> list A) (set : list A -> pyobj -> pyobj)
      (cond : pyobj * pyobj -> bool) (body : pyobj * pyobj -> res (pyobj * pyobj)) :
  (forall l s, get (set l s) = l) -> (forall l l' s, set l' (set l s) = set l' s) -> (forall s, set (get s) s = s) ->
  (forall s b, cond (s, b) = py_nonempty (pduData b)) ->
  (forall s b, body (s, b) = do (e, r) <- step (pduData b); Ok (set (get s ++ [e]) s, set_pduData r b)) ->
  forall fuel s b, py_while fuel cond body (s, b) =
     do t <- rows step fuel (pduData b); Ok (set (get s ++ t) s, set_pduData [] b).
Proof.
  intros GS SS SG C B. induction fuel as [|f IH]; intros s b; cbn [py_while]; rewrite C;
    (destruct (pduData b) as [|x l] eqn:E; cbn [py_nonempty rows bind];
     [now rewrite set_pduData_nil_id, app_nil_r, SG by exact E|]); [reflexivity|].
  rewrite B, E. destruct (step (x :: l)) as [[e r]|]; cbn [bind]; [|reflexivity].
  rewrite IH. cbn [pduData set_pduData]. destruct (rows step f r) as [t|]; cbn [bind]; [|reflexivity].
  rewrite GS, SS, <- app_assoc. reflexivity.
Qed.

Lemma while_bdt (cond : pyobj * pyobj -> bool) (body : pyobj * pyobj -> res (pyobj * pyobj)) :
  (forall s b, cond (s, b) = py_nonempty (pduData b)) ->
  (forall s b, body (s, b) =
     do (e, r) <- dec_bdte (pduData b); Ok (set_bvlciBDT (bvlciBDT s ++ [e]) s, set_pduData r b)) ->
  forall fuel s b, py_while fuel cond body (s, b) =
     do t <- dec_bdt_fuel fuel (pduData b); Ok (set_bvlciBDT (bvlciBDT s ++ t) s, set_pduData [] b).
Proof.
  intros C B fuel s b. rewrite dec_bdt_fuel_rows.
  apply (while_rows dec_bdte bvlciBDT set_bvlciBDT); auto. intros s'. now dobj s'.
Qed.

Lemma while_fdt (cond : pyobj * pyobj -> bool) (body : pyobj * pyobj -> res (pyobj * pyobj)) :
  (forall s b, cond (s, b) = py_nonempty (pduData b)) ->
  (forall s b, body (s, b) =
     do (e, r) <- dec_fdte (pduData b); Ok (set_bvlciFDT (bvlciFDT s ++ [e]) s, set_pduData r b)) ->
  forall fuel s b, py_while fuel cond body (s, b) =
     do t <- dec_fdt_fuel fuel (pduData b); Ok (set_bvlciFDT (bvlciFDT s ++ t) s, set_pduData [] b).
Proof.
  intros C B fuel s b. rewrite dec_fdt_fuel_rows.
  apply (while_rows dec_fdte bvlciFDT set_bvlciFDT); auto. intros s'. now dobj s'.
Qed.

Definition same_header (r b : pyobj) : Prop :=
  bvlciType r = bvlciType b /\ bvlciFunction r = bvlciFunction b /\ bvlciLength r = bvlciLength b.

Lemma class_decode_spec k self b :
  match class_decode k self b with
  | Ok (r, _) => dec_body k (pduData b) = Ok (msg_of_obj k r) /\ same_header r b
  | Err e => dec_body k (pduData b) = Err e
  end.
Proof.
  destruct k; unfold class_decode, msg_of_obj, dec_body, same_header; dobj self; dobj b;
    cbv beta zeta delta [Result_decode WriteBroadcastDistributionTable_decode ReadBroadcastDistributionTable_decode
      ReadBroadcastDistributionTableAck_decode ForwardedNPDU_decode RegisterForeignDevice_decode
      ReadForeignDeviceTable_decode ReadForeignDeviceTableAck_decode DeleteForeignDeviceTableEntry_decode
      DistributeBroadcastToNetwork_decode OriginalUnicastNPDU_decode OriginalBroadcastNPDU_decode];
    rewrite BVLCI_update_is_model.
  (* Result, RegisterForeignDevice: one short *)
  1, 6: unfold py_get_short; cbn [bind pduData]; destruct (get_short xd0) as [[c r]|]; cbn; auto.
  (* WriteBroadcastDistributionTable, ReadBroadcastDistributionTableAck: the BDT loop *)
  1, 3: cbn [bind pduData]; unfold dec_bdt; erewrite while_bdt; [ | intros s b; dobj b; reflexivity | ];
    [ cbn [pduData]; destruct (dec_bdt_fuel (length xd0) xd0); cbn; auto
    | intros s b; cbv beta iota; unfold py_get_data, py_get_long, dec_bdte, dec_addr; dobj b; cbn [pduData bind];
      destruct (get_data 6 xd1) as [[d r]|]; cbn [bind pduData set_pduData]; [|reflexivity];
      destruct (get_long r) as [[m r2]|]; reflexivity ].
  (* the two Read requests: nothing read *)
  1, 3: cbn; auto.
  (* the three NPDU carriers: the whole buffer *)
  4-6: cbn [bind]; rewrite py_get_data_all; cbn; auto.
  (* ForwardedNPDU *)
  - unfold py_get_data at 1, dec_addr. cbn [bind pduData].
    destruct (get_data 6 xd0) as [[d r]|]; cbn [bind]; [|reflexivity].
    rewrite py_get_data_all. cbn; auto.
  (* ReadForeignDeviceTableAck *)
  - cbn [bind pduData]. unfold dec_fdt.
    erewrite while_fdt; [ | intros s b; dobj b; reflexivity | ].
    + cbn [pduData]. destruct (dec_fdt_fuel (length xd0) xd0); cbn; auto.
    + intros s b. cbv beta iota. unfold py_get_data, py_get_short, dec_fdte, dec_addr. dobj b. cbn [pduData bind].
      destruct (get_data 6 xd1) as [[d r]|]; cbn [bind pduData set_pduData]; [|reflexivity].
      destruct (get_short r) as [[t r2]|]; cbn [bind pduData set_pduData]; [|reflexivity].
      destruct (get_short r2) as [[q r3]|]; reflexivity.
  (* DeleteForeignDeviceTableEntry *)
  - unfold py_get_data, dec_addr. cbn [bind pduData].
    destruct (get_data 6 xd0) as [[d r]|]; cbn; auto.
Qed.

Lemma class_decode_is_model k self b :
  (do (r, _) <- class_decode k self b; Ok (msg_of_obj k r)) = dec_body k (pduData b).
Proof.
  pose proof (class_decode_spec k self b) as H. destruct (class_decode k self b) as [[r b']|e]; cbn [bind].
  - now destruct H as [-> _].
  - now rewrite H.
Qed.

Lemma msg_of_obj_of_msg stored m : msg_of_obj (kind_of m) (obj_of_msg stored m) = m.
Proof. destruct m; reflexivity. Qed.

Lemma gen_indication_is_model k o :
  gen_indication k o =
  do body <- enc_body (msg_of_obj k o);
  do t <- put (bvlciType o);
  do f <- put (bvlciFunction o);
  if negb (enc_len (bvlciLength o) (msg_of_obj k o) =? lenN body + 4) then Err EncodingError
  else Ok (t ++ f ++ put_short (enc_len (bvlciLength o) (msg_of_obj k o)) ++ body).
Proof.
  unfold gen_indication. rewrite class_encode_is_model.
  destruct (enc_body (msg_of_obj k o)) as [body|]; cbn [bind]; [|reflexivity].
  rewrite BVLPDU_encode_is_model. unfold enc_self. dobj o. obj_cbn.
  destruct (put xt) as [t|]; cbn [bind]; [|reflexivity].
  destruct (put xf) as [f|]; cbn [bind]; [|reflexivity].
  destruct (negb _); reflexivity.
Qed.

Lemma gen_enc_frame_with_is_model stored m : gen_enc_frame_with stored m = enc_frame_with stored m.
Proof.
  unfold gen_enc_frame_with, enc_frame_with. rewrite gen_indication_is_model, msg_of_obj_of_msg.
  destruct m; reflexivity.
Qed.

Lemma gen_enc_frame_is_model m : gen_enc_frame m = enc_frame m.
Proof. apply gen_enc_frame_with_is_model. Qed.

(* the BVLPDU as BVLPDU.decode leaves it, handed to the class decoder *)
Definition bvlpdu_obj (f l : N) (body : list N) : pyobj := mkObj 129 f l body None [] ANone None [].

Lemma gen_confirmation_eq fresh bs :
  gen_confirmation fresh bs =
  do (fl, body) <- dec_bvlci bs;
  match lookup_fn (fst fl) bvl_pdu_types with
  | None => Err DecodingError
  | Some k => do (rpdu, _) <- class_decode k (fresh k) (bvlpdu_obj (fst fl) (snd fl) body);
              Ok (k, rpdu)
  end.
Proof.
  unfold gen_confirmation. rewrite BVLPDU_decode_is_model. cbn [pduData set_pduData empty_obj].
  destruct (dec_bvlci bs) as [[[f l] body]|]; reflexivity.
Qed.

Lemma gen_dec_frame_from_is_model fresh bs : gen_dec_frame_from fresh bs = dec_frame bs.
Proof.
  unfold gen_dec_frame_from, dec_frame, dec_msg. rewrite gen_confirmation_eq.
  destruct (dec_bvlci bs) as [[[f l] body]|]; cbn [bind fst snd]; [|reflexivity].
  destruct (lookup_fn f bvl_pdu_types) as [k|]; [|reflexivity].
  etransitivity; [|exact (class_decode_is_model k (fresh k) (bvlpdu_obj f l body))].
  destruct (class_decode k (fresh k) _) as [[r b']|]; reflexivity.
Qed.

Lemma gen_dec_frame_is_model bs : gen_dec_frame bs = dec_frame bs.
Proof. apply gen_dec_frame_from_is_model. Qed.

Lemma gen_confirmation_header fresh bs k rpdu :
  gen_confirmation fresh bs = Ok (k, rpdu) ->
  exists body, dec_bvlci bs = Ok (bvlciFunction rpdu, bvlciLength rpdu, body) /\ bvlciType rpdu = 129 /\
               lookup_fn (bvlciFunction rpdu) bvl_pdu_types = Some k.
Proof.
  rewrite gen_confirmation_eq. destruct (dec_bvlci bs) as [[[f l] body]|]; cbn [bind fst snd]; [|discriminate].
  destruct (lookup_fn f bvl_pdu_types) as [k'|] eqn:L; [|discriminate].
  pose proof (class_decode_spec k' (fresh k') (bvlpdu_obj f l body)) as H.
  destruct (class_decode k' (fresh k') _) as [[r b']|]; cbn [bind]; [|discriminate].
  intros [= <- <-]. destruct H as [_ (Ht & Hf & Hl)]. cbn in Ht, Hf, Hl.
  exists body. rewrite Ht, Hf, Hl. auto.
Qed.

Lemma gen_length_field stored m bs :
  gen_enc_frame_with stored m = Ok bs -> lenN bs < 65536 ->
  nth 0 bs 0 = 129 /\ nth 1 bs 0 = fn_of m /\ nth 2 bs 0 * 256 + nth 3 bs 0 = lenN bs.
Proof. rewrite gen_enc_frame_with_is_model. apply length_field. Qed.

Lemma gen_frame_roundtrip fresh m : wf_msg m = true -> frame_len m < 65536 ->
  exists bs, gen_enc_frame m = Ok bs /\ gen_dec_frame_from fresh bs = Ok m /\ lenN bs = frame_len m.
Proof.
  intros W L. destruct (frame_roundtrip m W L) as (bs & E & D & N). exists bs.
  now rewrite gen_enc_frame_is_model, gen_dec_frame_from_is_model.
Qed.

Lemma gen_stale_refused stored m : wf_msg m = true ->
  enc_len stored m <> frame_len m -> gen_enc_frame_with stored m = Err EncodingError.
Proof. rewrite gen_enc_frame_with_is_model. apply stale_refused. Qed.

Lemma gen_dec_frame_type fresh bs : hd_error bs <> Some 129 -> gen_dec_frame_from fresh bs = Err DecodingError.
Proof. rewrite gen_dec_frame_from_is_model. apply dec_frame_type. Qed.

Lemma gen_dec_frame_length_any fresh bs :
  nth 2 bs 0 * 256 + nth 3 bs 0 <> lenN bs -> gen_dec_frame_from fresh bs = Err DecodingError.
Proof. rewrite gen_dec_frame_from_is_model. apply dec_frame_length_any. Qed.

Lemma gen_dec_frame_accepts fresh bs m : gen_dec_frame_from fresh bs = Ok m ->
  exists hi lo body, bs = 129 :: fn_of m :: hi :: lo :: body /\ hi * 256 + lo = lenN bs.
Proof. rewrite gen_dec_frame_from_is_model. apply dec_frame_accepts. Qed.

Lemma gen_dec_frame_total fresh bs :
  (exists m, gen_dec_frame_from fresh bs = Ok m) \/ gen_dec_frame_from fresh bs = Err DecodingError.
Proof. rewrite gen_dec_frame_from_is_model. apply dec_frame_total. Qed.

Lemma gen_dec_frame_unknown fresh f hi lo body :
  12 <= f -> gen_dec_frame_from fresh (129 :: f :: hi :: lo :: body) = Err DecodingError.
Proof. rewrite gen_dec_frame_from_is_model. apply dec_frame_unknown. Qed.
