(* NetTerm.v — global broadcasts terminate on EVERY topology (cycles included): they are application frames
   without a destination network, so no router ever needs a path for them.  Lemmas about Net.v (property C06). *)
From Bac Require Import Base Net NetFacts NetTerm2.
Open Scope N_scope.

Definition gb_npdu (p : npdu) : Prop := n_msg p = None /\ n_dadr p = Some DGlobal.
Definition gb_frame (f : frame) : Prop := gb_npdu (f_npdu f).

Theorem global_broadcast_terminates : forall w,
  Forall gb_frame (queue w) -> exists k, queue (run k w) = [].
Proof.
  intros w Hall. apply forwarding_terminates.
  - eapply Forall_impl; [|exact Hall]. intros f [Hm _]. exact Hm.
  - intros f d wn Hf Hd. rewrite Forall_forall in Hall. destruct (Hall f Hf) as [_ Hg].
    unfold target in Hd. rewrite Hg in Hd. discriminate.
Qed.

Definition gb_out (a : action) : Prop :=
  match a with Tx _ _ q | Fwd _ _ q => gb_npdu q | _ => True end.

Lemma emit_all_gb : forall w who acts, Forall gb_out acts -> Forall gb_frame (fst (emit w who acts)).
Proof.
  intros w who. induction acts as [|a r IH]; intro Hall; [constructor|].
  inversion Hall as [|? ? Ha Hr]; subst. rewrite emit_cons. cbn [fst]. apply Forall_app. split; [|exact (IH Hr)].
  destruct a; cbn [act_frames gb_out] in *; try (constructor; fail).
  all: destruct (nth_error (w_ports w) port) as [[lan m]|]; [constructor; [exact Ha|constructor]|constructor].
Qed.

Lemma indication_gb : forall n data, Forall gb_out (snd (indication n AGB data)).
Proof.
  intros. unfold indication.
  destruct (nth_adapter n (local_idx n)); [|repeat constructor].
  destruct (negb (modelled_config n)); [repeat constructor|]. cbn [snd].
  apply Forall_forall. intros x Hx. apply in_map_iff in Hx. destruct Hx as [j [Hj _]]. subst x.
  split; reflexivity.
Qed.

Lemma submit_gb : forall w who data,
  queue w = [] -> Forall gb_frame (queue (submit w who AGB data)).
Proof.
  intros w who data Hq. unfold submit.
  destruct (nth_error (nodes w) who) as [wn|]; [|rewrite Hq; constructor].
  pose proof (indication_gb (w_node wn) data) as Hi.
  destruct (indication (w_node wn) AGB data) as [n' acts] eqn:Ei. cbn [snd] in Hi.
  pose proof (emit_all_gb (mkW n' (w_ports wn)) who acts Hi) as He.
  destruct (emit (mkW n' (w_ports wn)) who acts) as [fs os]. cbn [queue]. rewrite Hq. exact He.
Qed.
