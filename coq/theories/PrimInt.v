(* PrimInt.v — Unsigned / Integer / Enumerated content octets: the encoder's loops equal the standard's
   shortest forms (independent spec_min_unsigned / spec_min_signed), and the decoders invert them. *)
From Bac Require Import Base BytesFacts Tag Prim.
Open Scope N_scope.

(* the standard's shortest forms (clause 20.2.4 / 20.2.5), written without reference to the encoder *)
Definition spec_min_unsigned (n : N) : list N :=
  if n <? 256 then [n]
  else if n <? 65536 then [n / 256; n mod 256]
  else if n <? 16777216 then [n / 65536; (n / 256) mod 256; n mod 256]
  else [n / 16777216; (n / 65536) mod 256; (n / 256) mod 256; n mod 256].

Definition spec_min_signed (z : Z) : list N :=
  let b (k : Z) := Z.to_N ((z / k) mod 256)%Z in
  if ((-128 <=? z) && (z <? 128))%Z then [b 1%Z]
  else if ((-32768 <=? z) && (z <? 32768))%Z then [b 256%Z; b 1%Z]
  else if ((-8388608 <=? z) && (z <? 8388608))%Z then [b 65536%Z; b 256%Z; b 1%Z]
  else [b 16777216%Z; b 65536%Z; b 256%Z; b 1%Z].

Lemma strip0_single x : strip0 [x] = [x].
Proof. destruct x; reflexivity. Qed.
Lemma strip0_zero b r : strip0 (0 :: b :: r) = strip0 (b :: r).
Proof. reflexivity. Qed.
Lemma strip0_nz a r : a <> 0 -> strip0 (a :: r) = a :: r.
Proof. intros H. destruct a; [congruence|]. destruct r; reflexivity. Qed.

Lemma strip0_be4 n : n < 4294967296 -> strip0 (be4 n) = spec_min_unsigned n.
Proof.
  intros H. unfold be4, spec_min_unsigned.
  destruct (n <? 256) eqn:E1; [|destruct (n <? 65536) eqn:E2; [|destruct (n <? 16777216) eqn:E3]].
  - replace ((n / 16777216) mod 256) with 0 by lia_div. replace ((n / 65536) mod 256) with 0 by lia_div.
    replace ((n / 256) mod 256) with 0 by lia_div. rewrite !strip0_zero, strip0_single. f_equal. lia_div.
  - replace ((n / 16777216) mod 256) with 0 by lia_div. replace ((n / 65536) mod 256) with 0 by lia_div.
    rewrite !strip0_zero, strip0_nz by lia_div. f_equal. lia_div.
  - replace ((n / 16777216) mod 256) with 0 by lia_div.
    rewrite !strip0_zero, strip0_nz by lia_div. f_equal. lia_div.
  - rewrite strip0_nz by lia_div. f_equal. lia_div.
Qed.

Lemma unbe_spec_min_unsigned n : unbe (spec_min_unsigned n) = n.
Proof.
  unfold spec_min_unsigned, unbe.
  destruct (n <? 256) eqn:E1; [|destruct (n <? 65536) eqn:E2; [|destruct (n <? 16777216) eqn:E3]];
  cbn [fold_left]; lia_div.
Qed.

Lemma unbe_be4 n : n < 4294967296 -> unbe (be4 n) = n.
Proof. intros H. unfold unbe, be4. cbn [fold_left]. lia_div. Qed.
Lemma unbe_app4 l a b c d :
  unbe (l ++ [a; b; c; d]) = unbe l * 4294967296 + unbe [a; b; c; d].
Proof. unfold unbe. rewrite fold_left_app. cbn [fold_left]. lia. Qed.
(* in two 4-octet halves: one lia goal over all eight octets is slow to build and slower to re-check *)
Lemma unbe_be8 n : n < 18446744073709551616 -> unbe (be8 n) = n.
Proof.
  intros H. unfold be8.
  assert (H1 : n / 4294967296 < 4294967296) by (apply N.div_lt_upper_bound; [discriminate|exact H]).
  assert (H2 : n mod 4294967296 < 4294967296) by (apply N.mod_upper_bound; discriminate).
  pose proof (unbe_be4 _ H1) as E1. pose proof (unbe_be4 _ H2) as E2.
  unfold be4 at 2. rewrite unbe_app4. fold (be4 (n mod 4294967296)). rewrite E1, E2.
  rewrite N.mul_comm. symmetry. apply N.div_mod. discriminate.
Qed.

Lemma enc_unsigned_eq z : enc_unsigned z =
  if (0 <=? z)%Z && (z <? 4294967296)%Z then Ok (spec_min_unsigned (Z.to_N z)) else Err StructErr.
Proof.
  unfold enc_unsigned, pack_L. destruct ((0 <=? z)%Z && (z <? 4294967296)%Z) eqn:E; [|reflexivity].
  cbn [bind]. rewrite strip0_be4 by lia. reflexivity.
Qed.

Lemma spec_min_unsigned_nonempty n : lenN (spec_min_unsigned n) =? 0 = false.
Proof.
  unfold spec_min_unsigned.
  destruct (n <? 256); [|destruct (n <? 65536); [|destruct (n <? 16777216)]]; reflexivity.
Qed.

Definition sb (z k : Z) : N := Z.to_N ((z / k) mod 256)%Z.

Lemma be4_signed z :
  be4 (Z.to_N (z mod 4294967296)) = [sb z 16777216; sb z 65536; sb z 256; sb z 1].
Proof. unfold be4, sb. repeat (apply (f_equal2 (@cons N)); [lia_div|]). reflexivity. Qed.

Lemma strip_neg_single x : strip_neg [x] = [x].
Proof. reflexivity. Qed.
Lemma strip_neg_step a b r : a = 255 -> 128 <= b -> strip_neg (a :: b :: r) = strip_neg (b :: r).
Proof. intros -> H. cbn [strip_neg]. destruct (b <? 128) eqn:E; [lia|]. reflexivity. Qed.
Lemma strip_neg_stop a b r : a <> 255 \/ b < 128 -> strip_neg (a :: b :: r) = a :: b :: r.
Proof.
  intros H. cbn [strip_neg]. destruct (a =? 255) eqn:E; cbn [negb]; [|reflexivity].
  destruct (b <? 128) eqn:E2; [reflexivity|lia].
Qed.
Lemma strip_pos_single x : strip_pos [x] = [x].
Proof. reflexivity. Qed.
Lemma strip_pos_step a b r : a = 0 -> b < 128 -> strip_pos (a :: b :: r) = strip_pos (b :: r).
Proof. intros -> H. cbn [strip_pos]. destruct (128 <=? b) eqn:E; [lia|]. reflexivity. Qed.
Lemma strip_pos_stop a b r : a <> 0 \/ 128 <= b -> strip_pos (a :: b :: r) = a :: b :: r.
Proof.
  intros H. cbn [strip_pos]. destruct (a =? 0) eqn:E; cbn [negb]; [|reflexivity].
  destruct (128 <=? b) eqn:E2; [reflexivity|lia].
Qed.

(* the sign-aware loops of Integer.encode leave the standard's shortest form: each range of z fixes how many
   leading octets are pure sign extension (255 before an octet >= 128, 0 before an octet < 128) *)
Lemma strip_signed z : (-2147483648 <= z <= 2147483647)%Z ->
  (let d := be4 (Z.to_N (z mod 4294967296)) in if (z <? 0)%Z then strip_neg d else strip_pos d)
  = spec_min_signed z.
Proof.
  intros H. cbn zeta. rewrite be4_signed.
  unfold spec_min_signed. fold (sb z 16777216) (sb z 65536) (sb z 256) (sb z 1).
  destruct (z <? 0)%Z eqn:S;
  (destruct ((-128 <=? z) && (z <? 128))%Z eqn:E1;
   [|destruct ((-32768 <=? z) && (z <? 32768))%Z eqn:E2;
     [|destruct ((-8388608 <=? z) && (z <? 8388608))%Z eqn:E3]]).
  - rewrite 3 strip_neg_step by (unfold sb; lia_div). apply strip_neg_single.
  - rewrite 2 strip_neg_step by (unfold sb; lia_div). apply strip_neg_stop. unfold sb; lia_div.
  - rewrite strip_neg_step by (unfold sb; lia_div). apply strip_neg_stop. unfold sb; lia_div.
  - apply strip_neg_stop. unfold sb; lia_div.
  - rewrite 3 strip_pos_step by (unfold sb; lia_div). apply strip_pos_single.
  - rewrite 2 strip_pos_step by (unfold sb; lia_div). apply strip_pos_stop. unfold sb; lia_div.
  - rewrite strip_pos_step by (unfold sb; lia_div). apply strip_pos_stop. unfold sb; lia_div.
  - apply strip_pos_stop. unfold sb; lia_div.
Qed.

Lemma enc_integer_eq z : enc_integer z =
  if (-2147483648 <=? z)%Z && (z <=? 2147483647)%Z then Ok (spec_min_signed z) else Err ValueErr.
Proof.
  unfold enc_integer. destruct ((z <? -2147483648)%Z || (2147483647 <? z)%Z) eqn:R;
    destruct ((-2147483648 <=? z)%Z && (z <=? 2147483647)%Z) eqn:R'; try lia; [reflexivity|].
  f_equal. apply strip_signed. lia.
Qed.

(* dropping a sign-extension octet does not change the value read back *)
Lemma dec_integer_strip_neg l : dec_integer (strip_neg l) = dec_integer l.
Proof.
  induction l as [|a l IH]; [reflexivity|]. destruct l as [|b r]; [reflexivity|].
  destruct (N.eq_dec a 255) as [->|Ha]; [|now rewrite strip_neg_stop by auto].
  destruct (N.lt_ge_cases b 128) as [Hb|Hb]; [now rewrite strip_neg_stop by auto|].
  rewrite (strip_neg_step 255 b r eq_refl Hb), IH.
  unfold dec_integer. change (128 <=? 255) with true. cbn [fold_left].
  destruct (128 <=? b) eqn:E; [|lia]. do 2 f_equal. lia.
Qed.
Lemma dec_integer_strip_pos l : dec_integer (strip_pos l) = dec_integer l.
Proof.
  induction l as [|a l IH]; [reflexivity|]. destruct l as [|b r]; [reflexivity|].
  destruct (N.eq_dec a 0) as [->|Ha]; [|now rewrite strip_pos_stop by auto].
  destruct (N.lt_ge_cases b 128) as [Hb|Hb]; [|now rewrite strip_pos_stop by auto].
  rewrite (strip_pos_step 0 b r eq_refl Hb), IH.
  unfold dec_integer. cbn [fold_left]. destruct (128 <=? b) eqn:E; [lia|reflexivity].
Qed.

Lemma dec_integer_be4 z : (-2147483648 <= z <= 2147483647)%Z ->
  dec_integer (be4 (Z.to_N (z mod 4294967296))) = Ok z.
Proof.
  intros H. rewrite be4_signed. unfold dec_integer. cbn [fold_left].
  destruct (128 <=? sb z 16777216) eqn:S; f_equal; unfold sb in *; lia_div.
Qed.

Lemma dec_integer_spec z : (-2147483648 <= z <= 2147483647)%Z ->
  dec_integer (spec_min_signed z) = Ok z.
Proof.
  intros H. rewrite <- (strip_signed z H). cbn zeta.
  destruct (z <? 0)%Z; rewrite ?dec_integer_strip_neg, ?dec_integer_strip_pos; apply dec_integer_be4, H.
Qed.
