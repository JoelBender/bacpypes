(* DeferredExnFacts.v — exception isolation for every exception value <-> the handler never raises *)
From Bac Require Import Base Deferred DeferredFacts DeferredExn.
From Coq Require Import Permutation.
Open Scope Z_scope.

Lemma xerase_eq : forall i k e sp a,
  xerase (XF i k e sp a) = DF i (match e with Some _ => true | None => false end) (map xerase sp) a.
Proof.
  intros. reflexivity.
Qed.

Lemma xerase_spawns : forall d, d_spawns (xerase d) = map xerase (x_spawns d).
Proof. intros [i k e sp a]. rewrite xerase_eq. reflexivity. Qed.

(* h_code is the handler of the tree: with it the loop with exception values IS the guarded loop of Deferred.v *)
Lemma xcall_batch_code : forall b,
  xcall_batch h_code b = (b, flat_map x_spawns b, false).
Proof.
  induction b as [|d r IH]; [reflexivity|]. cbn [xcall_batch flat_map]. rewrite IH.
  unfold h_code. destruct (x_exc d); reflexivity.
Qed.

Lemma map_flat_spawns : forall b, map xerase (flat_map x_spawns b) = flat_map d_spawns (map xerase b).
Proof.
  induction b as [|d r IH]; [reflexivity|]. cbn [flat_map map]. rewrite map_app, IH, xerase_spawns. reflexivity.
Qed.

Lemma xdrain_code : forall fuel q c q' s, xdrain h_code fuel q = (c, q', s) ->
  drain true fuel (map xerase q) = (map xerase c, map xerase q', s).
Proof.
  induction fuel as [|f IH]; intros q c q' s H.
  - destruct q; cbn [xdrain] in H; inversion H; subst; reflexivity.
  - destruct q as [|d r]; [cbn [xdrain] in H; inversion H; subst; reflexivity|].
    cbn [xdrain] in H. rewrite xcall_batch_code in H.
    destruct (xdrain h_code f (flat_map x_spawns (d :: r))) as [[c2 q2] s2] eqn:R.
    inversion H; subst. apply IH in R.
    change (map xerase (d :: r)) with (xerase d :: map xerase r). cbn [drain].
    change (xerase d :: map xerase r) with (map xerase (d :: r)).
    rewrite call_batch_guarded. rewrite map_flat_spawns in R. rewrite R. rewrite <- map_app. reflexivity.
Qed.

Lemma xdrain_all_code : forall q,
  exists L, xdrain_all h_code q = (L, [], DDone) /\
            map xerase L = map xerase q ++ flat_map d_spawns (map xerase L) /\
            Permutation (map xerase L) (f_all (map xerase q)).
Proof.
  intros q. unfold xdrain_all.
  destruct (xdrain h_code (f_size (map xerase q)) q) as [[c q'] s] eqn:R.
  pose proof (xdrain_code _ _ _ _ _ R) as D.
  destruct (drain_all_guarded (map xerase q)) as [L [HL [HLe HLp]]].
  unfold drain_all in HL. rewrite HL in D. inversion D as [[Hc Hq Hs]].
  exists c. destruct q' as [|x r]; [|discriminate]. split; [reflexivity|].
  rewrite <- Hc. split; assumption.
Qed.

Lemma raising_handler_loses : forall (h : handler) k e, h k e = true ->
  exists q d, In d q /\
    (let '(c, r, s) := xdrain_all h q in ~ In d c /\ ~ In d r /\ s = DRaised).
Proof.
  intros h k e H.
  exists [XF 0 k (Some e) [] []; XF 1 KFunction None [] []], (XF 1 KFunction None [] []).
  split; [right; left; reflexivity|].
  unfold xdrain_all. cbn. rewrite H. cbn.
  split; [|split; [|reflexivity]].
  - intros [X|[]]. discriminate X.
  - intros [].
Qed.

Lemma xdrain_ext : forall h h' : handler, (forall k e, h k e = h' k e) ->
  forall fuel q, xdrain h fuel q = xdrain h' fuel q.
Proof.
  intros h h' Hh.
  assert (B : forall b, xcall_batch h b = xcall_batch h' b).
  { induction b as [|d r IH]; [reflexivity|]. cbn [xcall_batch]. rewrite IH.
    destruct (x_exc d); [rewrite Hh|]; reflexivity. }
  induction fuel as [|f IH]; intros q; destruct q; cbn [xdrain]; try reflexivity.
  rewrite B. destruct (xcall_batch h' (x :: q)) as [[c q'] x0]. destruct x0; [reflexivity|].
  rewrite IH. reflexivity.
Qed.

(* "total" = the handler itself raises on no (callable, exception value) *)
Lemma isolation_iff_handler_total : forall h : handler,
  (forall k e, h k e = false) <->
  (forall q, exists L, xdrain_all h q = (L, [], DDone)).
Proof.
  intros h. split.
  - intros Hh q. destruct (xdrain_all_code q) as [L [HL _]]. exists L.
    unfold xdrain_all in *. rewrite (xdrain_ext h h_code Hh). exact HL.
  - intros Hq k e. destruct (h k e) eqn:H; [|reflexivity].
    destruct (raising_handler_loses h k e H) as [q [d [_ Hd]]].
    destruct (Hq q) as [L HL]. rewrite HL in Hd. destruct Hd as [_ [_ X]]. discriminate X.
Qed.

(* the two seeded handlers do raise: on a value raised without arguments / on a partial object *)
Lemma h_first_arg_loses : h_first_arg KFunction (mkExn 0 [] true) = true.
Proof. reflexivity. Qed.
Lemma h_fn_name_loses : h_fn_name KPartial (mkExn 0 [1] true) = true.
Proof. reflexivity. Qed.
