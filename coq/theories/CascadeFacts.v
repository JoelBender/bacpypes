(* CascadeFacts.v — on every well-formed configuration placed soundly on IP subnets (net_ok), the
   FIFO cascade of IpNet.v delivers exactly what the delivery-tree semantics BipDeliv.broadcast
   delivers (as multisets of (receiver address, source shown, destination shown, NPDU)). *)
From Coq Require Import Permutation Lia.
From Bac Require Import Base ListFacts Bip BipFacts IpNet BipDeliv BipDelivFacts CascadeTree CascadeNet.
Open Scope N_scope.

Definition static_msg (m : msg) : bool :=
  match m with Result _ | RegisterFD _ | DeleteFDT _ => false | _ => true end.

Lemma routed_homes : forall ls j g,
  routed_from j ls g =
  map (fun k => mkDgram k (g_src g) (g_dst g) (g_msg g))
      (filter (fun k => negb (Nat.eqb k (g_lan g))) (homes_from j ls (g_dst g))).
Proof.
  induction ls as [|l ls IH]; intros j g; [reflexivity|]. cbn [routed_from homes_from].
  rewrite filter_app, map_app, IH. f_equal.
  destruct (N.land (fst (g_dst g)) (l_mask l) =? l_subnet l); cbn [filter andb]; [|rewrite andb_false_r; reflexivity].
  rewrite andb_true_r. destruct (negb (Nat.eqb j (g_lan g))); reflexivity.
Qed.

Section Net.
Context (c : acfg) (lans : list lan) (sl : sub -> nat) (fl : addr * addr -> nat) (now : Z).
Context (W : wf c) (NK : net_ok c lans sl fl).
Let WD := world_of c lans sl fl now.
Let nodeof := node_of c sl fl.
Let lano := lanof sl fl.

Lemma receive_static : forall r src d m, static_msg m = true ->
  node_receive now (nodeof r) src d m = Ok (nodeof r, react c r src d m).
Proof.
  intros r src d m Hs. destruct r as [s y|s|x]; unfold node_receive, nodeof, node_of; cbn [n_kind kind_of].
  - reflexivity.
  - destruct m; try discriminate; cbn [bbmd_confirmation react snd]; reflexivity.
  - unfold react. destruct m; try discriminate; unfold foreign_confirmation, foreign_of;
      cbn [f_status f_bbmd Z.eqb negb bind fst snd]; try reflexivity.
    destruct (addr_eqb src (snd x)); reflexivity.
Qed.

(* destination as the multiplexer of a hearing node shows it *)
Definition dest_shown (g : dgram) : dest :=
  if addr_eqb (g_dst g) (lan_bcast (lan_of WD (g_lan g))) then DBcast else DStation (g_dst g).
Definition handed_up (r : rcv) (acts : list action) : list adelivery :=
  flat_map (fun a => match a with Up s d p => [(rcv_addr r, s, d, p)] | _ => [] end) acts.
Definition sent (r : rcv) (acts : list action) : list dgram := emitted c lans sl fl now r acts.
Definition hear (g : dgram) (r : rcv) : bool := hears WD g (nodeof r).

Lemma emit_index : forall i n acts, fst (emit WD i n acts) = fst (emit WD 0 n acts).
Proof. reflexivity. Qed.

Lemma up_addrs_app : forall w a b, up_addrs w (a ++ b) = up_addrs w a ++ up_addrs w b.
Proof. intros. unfold up_addrs. apply flat_map_app. Qed.
Lemma up_addrs_flat_map {A} w (f : A -> list obs) l :
  up_addrs w (flat_map f l) = flat_map (fun x => up_addrs w (f x)) l.
Proof. induction l as [|x l IH]; [reflexivity|]. cbn [flat_map]. rewrite up_addrs_app, IH. reflexivity. Qed.

Lemma emit_obs : forall i r acts, nth_error (w_nodes WD) i = Some (nodeof r) ->
  up_addrs WD (snd (emit WD i (nodeof r) acts)) = handed_up r acts.
Proof.
  intros i r acts H. unfold emit. cbn [snd]. induction acts as [|a acts IH]; [reflexivity|].
  cbn [flat_map]. rewrite up_addrs_app. unfold handed_up. cbn [flat_map]. fold (handed_up r acts). rewrite IH.
  f_equal. destruct a as [s d p|d m|s m]; cbn [up_addrs flat_map app]; try reflexivity.
  rewrite H. reflexivity.
Qed.

Definition hear_ups (g : dgram) (R : list rcv) : list adelivery :=
  flat_map (fun r => if hear g r then handed_up r (react c r (g_src g) (dest_shown g) (g_msg g)) else []) R.
Definition hear_sends (g : dgram) (R : list rcv) : list dgram :=
  flat_map (fun r => if hear g r then sent r (react c r (g_src g) (dest_shown g) (g_msg g)) else []) R.

Lemma deliver_static : forall g, static_msg (g_msg g) = true -> forall R i,
  (forall k r, nth_error R k = Some r -> nth_error (w_nodes WD) (i + k) = Some (nodeof r)) ->
  exists os, deliver WD g i (map nodeof R) = Ok (map nodeof R, hear_sends g R, os) /\ up_addrs WD os = hear_ups g R.
Proof.
  intros g Hs. induction R as [|r R IH]; intros i H.
  - exists []. split; reflexivity.
  - destruct (IH (S i)) as [os [D U]].
    { intros k r' Hk. replace (S i + k)%nat with (i + S k)%nat by lia. apply H. exact Hk. }
    unfold hear_ups, hear_sends in *. cbn [map deliver]. fold (hear g r). destruct (hear g r) eqn:Hh.
    + fold (dest_shown g). change (w_now WD) with now. rewrite (receive_static r _ _ _ Hs). cbn [bind fst snd].
      rewrite D. cbn [bind fst snd].
      exists (snd (emit WD i (nodeof r) (react c r (g_src g) (dest_shown g) (g_msg g))) ++ os).
      split; [cbn [flat_map]; rewrite Hh; reflexivity|]. rewrite up_addrs_app, U. cbn [flat_map]. rewrite Hh. f_equal.
      apply emit_obs. replace i with (i + 0)%nat by lia. apply H. reflexivity.
    + cbn [bind fst snd]. rewrite D. cbn [bind fst snd app]. exists os. split; [cbn [flat_map]; rewrite Hh; reflexivity|].
      cbn [flat_map]. rewrite Hh. exact U.
Qed.

Lemma deliver_top : forall g, static_msg (g_msg g) = true ->
  exists os, deliver WD g 0 (w_nodes WD) = Ok (w_nodes WD, hear_sends g (all_rcvs c), os) /\
             up_addrs WD os = hear_ups g (all_rcvs c).
Proof.
  intros g Hs. apply (deliver_static g Hs (all_rcvs c) 0). intros k r H. cbn [plus].
  change (w_nodes WD) with (map nodeof (all_rcvs c)). apply map_nth_error. exact H.
Qed.

Definition upT (K : nat) (g : dgram) : list adelivery := up_addrs WD (tree K WD g).

Lemma tree_static : forall K g, static_msg (g_msg g) = true ->
  upT (S K) g = hear_ups g (all_rcvs c) ++ flat_map (upT K) (routed WD g ++ hear_sends g (all_rcvs c)) /\
  (Forall (good K WD) (routed WD g ++ hear_sends g (all_rcvs c)) -> good (S K) WD g).
Proof.
  intros K g Hs. destruct (deliver_top g Hs) as [os [D U]]. split.
  - unfold upT.
    rewrite tree_S.
    rewrite D. cbn [fst snd].
    change (OFrame g :: os ++ flat_map (tree K WD) (routed WD g ++ hear_sends g (all_rcvs c)))
      with ([OFrame g] ++ os ++ flat_map (tree K WD) (routed WD g ++ hear_sends g (all_rcvs c))).
    rewrite !up_addrs_app, up_addrs_flat_map, U. reflexivity.
  - intros F. cbn [good]. eexists. eexists. split; [exact D | exact F].
Qed.

Lemma routed_WD : forall l src dst m,
  routed WD (mkDgram l src dst m) =
  map (fun k => mkDgram k src dst m) (filter (fun k => negb (Nat.eqb k l)) (homes lans dst)).
Proof. intros. unfold routed. apply (routed_homes lans 0 (mkDgram l src dst m)). Qed.

Lemma dest_shown_eq : forall g,
  dest_shown g = if addr_eqb (g_dst g) (lan_bcast (lan_at lans (g_lan g))) then DBcast else DStation (g_dst g).
Proof. reflexivity. Qed.

Lemma hear_spec : forall g r,
  hear g r = Nat.eqb (lano r) (g_lan g) && negb (addr_eqb (rcv_addr r) (g_src g))
             && (addr_eqb (g_dst g) (lan_bcast (lan_at lans (g_lan g))) || addr_eqb (rcv_addr r) (g_dst g)).
Proof. intros. unfold hear, hears, nodeof, node_of. cbn [n_lan n_up n_addr]. rewrite andb_true_r. reflexivity. Qed.

Definition known (dst : addr) (j : nat) : Prop :=
  homes lans dst = [j] /\ (j < length lans)%nat /\ (forall r, In r (all_rcvs c) -> rcv_addr r = dst -> lano r = j).

(* away from its home LAN nobody hears the datagram; the router puts one copy on the home LAN *)
Lemma hop : forall K l j src dst m, static_msg m = true -> known dst j -> (l < length lans)%nat ->
  good K WD (mkDgram j src dst m) ->
  good (S K) WD (mkDgram l src dst m) /\ upT (S K) (mkDgram l src dst m) = upT K (mkDgram j src dst m).
Proof.
  intros K l j src dst m Hs [Hh [Hj Ho]] Hl G. destruct (Nat.eq_dec l j) as [->|N].
  - destruct (good_stable K WD _ G) as [G' [T' _]]. split; [exact G'|]. unfold upT. rewrite T'. reflexivity.
  - destruct (tree_static K (mkDgram l src dst m) Hs) as [T GG].
    assert (forall r, In r (all_rcvs c) -> hear (mkDgram l src dst m) r = false) as NH.
    { intros r Ir. rewrite hear_spec. cbn [g_lan g_src g_dst].
      assert (addr_eqb dst (lan_bcast (lan_at lans l)) = false) as ->.
      { apply addr_eqb_neq. intros E. pose proof (nk_self_home _ _ _ _ NK l Hl) as S. rewrite <- E, Hh in S.
        destruct S as [S|[]]. apply N. symmetry. exact S. }
      cbn [orb]. destruct (addr_eqb (rcv_addr r) dst) eqn:E; [|rewrite andb_false_r; reflexivity].
      apply addr_eqb_eq in E. rewrite (Ho r Ir E).
      assert (Nat.eqb j l = false) as -> by (apply Nat.eqb_neq; intros ->; apply N; reflexivity). reflexivity. }
    assert (hear_ups (mkDgram l src dst m) (all_rcvs c) = []) as EU.
    { apply flat_map_nil. intros r Ir. rewrite (NH r Ir). reflexivity. }
    assert (hear_sends (mkDgram l src dst m) (all_rcvs c) = []) as ED.
    { apply flat_map_nil. intros r Ir. rewrite (NH r Ir). reflexivity. }
    assert (routed WD (mkDgram l src dst m) = [mkDgram j src dst m]) as ER.
    { rewrite routed_WD, Hh. cbn [filter]. assert (Nat.eqb j l = false) as -> by (apply Nat.eqb_neq; intros ->; apply N; reflexivity).
      reflexivity. }
    rewrite EU, ED, ER in T. rewrite ED, ER in GG. cbn [app flat_map] in T. rewrite app_nil_r in T.
    split; [apply GG; constructor; [exact G | constructor] | exact T].
Qed.

(* on its home LAN the datagram reaches exactly BipDeliv.receivers *)
Lemma arrive_bcast : forall s src m B (F : rcv -> dest -> list B), In s (a_subs c) ->
  flat_map (fun r => if hear (mkDgram (sl s) src (sb_bcast s) m) r
                     then F r (dest_shown (mkDgram (sl s) src (sb_bcast s) m)) else []) (all_rcvs c)
  = flat_map (fun rd => F (fst rd) (snd rd)) (receivers c src (sb_bcast s)).
Proof.
  intros s src m B F I. set (g := mkDgram (sl s) src (sb_bcast s) m).
  assert (dest_shown g = DBcast) as ->.
  { rewrite dest_shown_eq. unfold g. cbn [g_dst g_lan]. rewrite (nk_bcast _ _ _ _ NK s I), addr_eqb_refl. reflexivity. }
  rewrite (bcast_rcv c W s src I), flat_map_map. cbn [fst snd].
  unfold all_rcvs. rewrite flat_map_app, flat_map_flat_map.
  rewrite (flat_map_nil _ (map RF (a_fds c))).
  2:{ intros r Ir. apply in_map_iff in Ir. destruct Ir as [x [<- Ix]]. rewrite hear_spec. unfold g. cbn [g_lan lano lanof].
      assert (Nat.eqb (fl x) (sl s) = false) as -> by (apply Nat.eqb_neq; apply (nk_fl _ _ _ _ NK); assumption). reflexivity. }
  rewrite app_nil_r.
  assert (forall s' r, In r (members s') -> lano r = sl s') as HL.
  { intros s' r [<-|Ir]; [reflexivity|]. apply in_map_iff in Ir. destruct Ir as [y [<- _]]. reflexivity. }
  rewrite (flat_map_pick _ (a_subs c) s (subs_nodup c W) I).
  - rewrite <- flat_map_if. apply flat_map_ext_in. intros r Ir.
    rewrite hear_spec. unfold g. cbn [g_lan g_src g_dst]. rewrite (HL s r Ir), Nat.eqb_refl.
    rewrite (nk_bcast _ _ _ _ NK s I), addr_eqb_refl. cbn [andb orb]. rewrite andb_true_r. reflexivity.
  - intros s' I' N. apply flat_map_nil. intros r Ir. rewrite hear_spec. unfold g. cbn [g_lan].
    rewrite (HL s' r Ir).
    assert (Nat.eqb (sl s') (sl s) = false) as ->; [|reflexivity].
    apply Nat.eqb_neq. intros E. apply N. apply (nk_sl_inj _ _ _ _ NK); assumption.
Qed.

Lemma arrive_ucast : forall r0 src m B (F : rcv -> dest -> list B), In r0 (all_rcvs c) ->
  flat_map (fun r => if hear (mkDgram (lano r0) src (rcv_addr r0) m) r
                     then F r (dest_shown (mkDgram (lano r0) src (rcv_addr r0) m)) else []) (all_rcvs c)
  = flat_map (fun rd => F (fst rd) (snd rd)) (receivers c src (rcv_addr r0)).
Proof.
  intros r0 src m B F I. set (g := mkDgram (lano r0) src (rcv_addr r0) m).
  assert (addr_eqb (rcv_addr r0) (lan_bcast (lan_at lans (lano r0))) = false) as NB.
  { apply addr_eqb_neq. apply (nk_not_lanbcast _ _ _ _ NK); [exact I | apply (nk_range _ _ _ _ NK); exact I]. }
  assert (dest_shown g = DStation (rcv_addr r0)) as ->.
  { rewrite dest_shown_eq. unfold g. cbn [g_dst g_lan]. rewrite NB. reflexivity. }
  assert (forall r, In r (all_rcvs c) ->
          hear g r = addr_eqb (rcv_addr r) (rcv_addr r0) && negb (addr_eqb (rcv_addr r) src)) as HH.
  { intros r Ir. rewrite hear_spec. unfold g. cbn [g_lan g_src g_dst]. rewrite NB. cbn [orb]. destruct (addr_eqb (rcv_addr r) (rcv_addr r0)) eqn:E.
    - apply addr_eqb_eq in E. assert (r = r0) as -> by (apply (rcv_inj c W); assumption).
      rewrite Nat.eqb_refl. cbn [andb]. rewrite andb_true_r. reflexivity.
    - rewrite andb_false_r. reflexivity. }
  unfold receivers. rewrite flat_map_app.
  rewrite (flat_map_nil _ (flat_map _ (a_subs c))).
  2:{ intros rd Ird. apply in_flat_map in Ird. destruct Ird as [s [Is Ird]].
      rewrite (addr_not_bcast c W r0 s I Is) in Ird. contradiction. }
  cbn [app]. rewrite flat_map_map. cbn [fst snd]. rewrite <- flat_map_if.
  apply flat_map_ext_in. intros r Ir. rewrite (HH r Ir). reflexivity.
Qed.

(* The actions of a broadcast flow, closed under react (react_flow): a Down carries a static message to a
   node address or a subnet broadcast address, hence to a destination with a single home LAN (home_lan), and
   whoever receives it may take it (flow_recv: a Distribute-Broadcast goes to a BBMD only). *)
Definition flow_recv (m : msg) (r : rcv) : Prop :=
  match m with
  | OrigBroadcast _ | Forwarded _ _ => True
  | Distribute _ => exists s, r = RB s
  | _ => False
  end.
Inductive home_lan : addr -> nat -> Prop :=
| HomeNode r0 : In r0 (all_rcvs c) -> home_lan (rcv_addr r0) (lano r0)
| HomeBcast s : In s (a_subs c) -> home_lan (sb_bcast s) (sl s).
Definition flow_act (r : rcv) (a : action) : Prop :=
  match a with
  | Down d m => static_msg m = true /\ exists dst j, out_addr r d = Some dst /\ home_lan dst j /\
                (forall rd, In rd (receivers c (rcv_addr r) dst) -> flow_recv m (fst rd))
  | _ => True
  end.

Lemma home_lan_known : forall dst j, home_lan dst j -> known dst j.
Proof.
  intros dst j [r I|s I].
  - split; [apply (nk_home_node _ _ _ _ NK); exact I|]. split; [apply (nk_range _ _ _ _ NK); exact I|].
    intros r' I' E. f_equal. apply (rcv_inj c W); assumption.
  - split; [apply (nk_home_bcast _ _ _ _ NK); exact I|]. split; [apply (nk_range _ _ _ _ NK (RB s)), in_all_RB, I|].
    intros r Ir E. exfalso. apply (wf_not_bcast c W (rcv_addr r) s); [apply in_map; exact Ir | exact I | exact E].
Qed.

Lemma arrive : forall dst j src m B (F : rcv -> dest -> list B), home_lan dst j ->
  flat_map (fun r => if hear (mkDgram j src dst m) r then F r (dest_shown (mkDgram j src dst m)) else []) (all_rcvs c)
  = flat_map (fun rd => F (fst rd) (snd rd)) (receivers c src dst).
Proof. intros dst j src m B F [r0 I|s I]; [apply arrive_ucast | apply arrive_bcast]; exact I. Qed.

Lemma sent_cons : forall r a acts, sent r (a :: acts) = sent r [a] ++ sent r acts.
Proof. intros. unfold sent, emitted, emit. cbn [fst flat_map]. rewrite app_nil_r. reflexivity. Qed.
Lemma handed_up_cons : forall r a acts, handed_up r (a :: acts) = handed_up r [a] ++ handed_up r acts.
Proof. intros. unfold handed_up. cbn [flat_map]. rewrite app_nil_r. reflexivity. Qed.

Lemma sent_down : forall r d m dst, In r (all_rcvs c) -> out_addr r d = Some dst ->
  sent r [Down d m] = [mkDgram (lano r) (rcv_addr r) dst m].
Proof.
  intros r d m dst I H. unfold sent, emitted, emit, node_of. cbn [fst flat_map n_up n_lan n_addr app]. f_equal. f_equal.
  destruct d as [|a]; [|cbn in H; congruence].
  pose proof (in_all_inv c r I) as J. destruct r as [s y|s|x]; cbn [out_addr] in H; [| |discriminate]; inversion H; subst.
  - exact (nk_bcast _ _ _ _ NK s (proj1 J)).
  - exact (nk_bcast _ _ _ _ NK s J).
Qed.

Lemma flow_fwd_any : forall r d a p dst j, out_addr r d = Some dst -> home_lan dst j -> flow_act r (Down d (Forwarded a p)).
Proof. intros r d a p dst j H K. split; [reflexivity|]. exists dst, j. repeat split; auto. Qed.

Lemma flow_peer : forall r s' a p, In s' (a_subs c) -> flow_act r (Down (fwd_dest (entry s')) (Forwarded a p)).
Proof.
  intros r s' a p I. rewrite fwd_dest_entry. destruct (wf_entry c W s' I) as [E|E]; rewrite E.
  - apply (flow_fwd_any r _ a p (rcv_addr (RB s')) (lano (RB s'))); [reflexivity|]. apply HomeNode. apply in_all_RB. exact I.
  - apply (flow_fwd_any r _ a p (sb_bcast s') (sl s')); [reflexivity|]. apply HomeBcast. exact I.
Qed.
Lemma flow_stations : forall r L a p, (forall x, In x L -> In x (a_fds c)) ->
  Forall (flow_act r) (stations L (Forwarded a p)).
Proof.
  intros r L a p H. apply Forall_forall. intros act I. apply in_map_iff in I. destruct I as [x [<- Ix]].
  apply (flow_fwd_any r _ a p (rcv_addr (RF x)) (lano (RF x))); [reflexivity|].
  apply HomeNode. apply in_all_RF. apply H. exact Ix.
Qed.
Lemma flow_fds : forall r b a p, Forall (flow_act r) (stations (fds_of c b) (Forwarded a p)).
Proof. intros r b a p. apply flow_stations. intros x Ix. apply (fds_of_spec c b x Ix). Qed.
Lemma flow_peers : forall r (L : list sub) a p, (forall s, In s L -> In s (a_subs c)) ->
  Forall (flow_act r) (to_subs L (Forwarded a p)).
Proof.
  intros r L a p H. apply Forall_forall. intros act I. apply in_map_iff in I. destruct I as [s [<- Is]].
  apply flow_peer. apply H. exact Is.
Qed.
Lemma flow_local : forall s a p, In s (a_subs c) -> flow_act (RB s) (Down DBcast (Forwarded a p)).
Proof. intros s a p I. apply (flow_fwd_any (RB s) DBcast a p (sb_bcast s) (sl s)); [reflexivity | apply HomeBcast; exact I]. Qed.

Lemma react_flow : forall r src d m, In r (all_rcvs c) -> flow_recv m r -> Forall (flow_act r) (react c r src d m).
Proof.
  intros r src d m I OK. destruct m; try contradiction.
  - destruct r as [s y|s|x].
    + repeat constructor.
    + rewrite react_RB_fwd. constructor; [exact Logic.I|]. apply Forall_app. split; [|apply flow_fds].
      destruct d; [constructor|]. destruct (in_bdt _ _); [|constructor]. constructor; [|constructor].
      apply flow_local. apply (in_all_inv c (RB s) I).
    + rewrite react_RF_fwd. destruct (addr_eqb src (snd x)); repeat constructor.
  - destruct OK as [s ->]. rewrite react_RB_dist. constructor; [exact Logic.I|]. apply Forall_app. split.
    + apply Forall_forall. intros act Ia. apply in_map_iff in Ia. destruct Ia as [s' [<- Is']].
      apply filter_In in Is'. destruct Is' as [Is' _].
      destruct (addr_eqb (sb_bbmd s') (sb_bbmd s)); [apply flow_local; apply (in_all_inv c (RB s) I) |].
      apply flow_peer. exact Is'.
    + apply flow_stations. intros z Iz. apply filter_In in Iz. destruct Iz as [Iz _]. apply (fds_of_spec c _ z Iz).
  - destruct r as [s y|s|x].
    + repeat constructor.
    + rewrite react_RB_orig. constructor; [exact Logic.I|]. apply Forall_app. split; [|apply flow_fds].
      apply flow_peers. intros s' Is'. apply (peersR_spec c s s' Is').
    + constructor.
Qed.

(* the Downs that `spread (S n)` leaves unprocessed: [] = the tree is complete within depth S n *)
Definition pending : nat -> rcv -> list action -> list action := walk (fun _ _ _ _ => []) (fun d m => [Down d m]) c.

Definition forest_ups (K : nat) (r : rcv) (acts : list action) : list adelivery :=
  handed_up r acts ++ flat_map (upT K) (sent r acts).

Lemma spread_cons : forall n r a acts, spread (S n) c r (a :: acts) = spread (S n) c r [a] ++ spread (S n) c r acts.
Proof. intros. rewrite !spread_walk. apply walk_cons. Qed.
Lemma spread_down : forall n r d m dst, out_addr r d = Some dst ->
  spread (S (S n)) c r [Down d m] =
  flat_map (fun rd => spread (S n) c (fst rd) (react c (fst rd) (rcv_addr r) (snd rd) m)) (receivers c (rcv_addr r) dst).
Proof. intros n r d m dst H. rewrite !spread_walk, (walk_down _ _ _ _ _ _ _ dst H). apply flat_map_ext. intros rd. symmetry. apply spread_walk. Qed.

Lemma forest_ups_each : forall K n r acts,
  (forall a, In a acts -> Forall (good K WD) (sent r [a]) /\ Permutation (forest_ups K r [a]) (map dl (spread (S n) c r [a]))) ->
  Forall (good K WD) (sent r acts) /\ Permutation (forest_ups K r acts) (map dl (spread (S n) c r acts)).
Proof.
  intros K n r. induction acts as [|a acts IH]; intros H; [split; [constructor | apply Permutation_refl]|].
  destruct (H a (or_introl eq_refl)) as [Ga Pa]. destruct IH as [G P]; [intros b Ib; apply H; right; exact Ib|].
  rewrite sent_cons, spread_cons, map_app. split; [apply Forall_app; split; assumption|].
  unfold forest_ups in *. rewrite handed_up_cons, sent_cons, flat_map_app.
  eapply Permutation_trans; [|apply Permutation_app; [exact Pa | exact P]].
  rewrite <- !app_assoc. apply Permutation_app_head, Permutation_app_swap_app.
Qed.
Lemma forest_ups_leaf : forall K n r a, (forall d m, a <> Down d m) ->
  Forall (good K WD) (sent r [a]) /\ Permutation (forest_ups K r [a]) (map dl (spread (S n) c r [a])).
Proof. intros K n r [s d p|d m|s m] H; [|destruct (H d m eq_refl)|]; split; try constructor; apply Permutation_refl. Qed.

(* One level of spread costs at most two levels of the cascade forest: a datagram put on the sender's
   LAN is copied by the router to the home LAN of its destination, where the receivers hear it (hop). *)
Theorem cascade_spread : forall n r acts, In r (all_rcvs c) -> Forall (flow_act r) acts -> pending n r acts = [] ->
  Forall (good (2 * n) WD) (sent r acts) /\ Permutation (forest_ups (2 * n) r acts) (map dl (spread (S n) c r acts)).
Proof.
  induction n as [|k IHk]; intros r acts I OK P; apply forest_ups_each; intros a Ia;
    pose proof (proj1 (Forall_forall _ _) OK a Ia) as Oa; pose proof (flat_map_eq_nil _ _ P a Ia) as Pa;
    (destruct a as [s d p|d m|s m]; [apply forest_ups_leaf; discriminate | | apply forest_ups_leaf; discriminate]).
  - discriminate.
  - destruct Oa as [Hs [dst [j [Ho [Kd Hr]]]]]. cbv beta iota in Pa. rewrite Ho in Pa.
    unfold forest_ups at 1. rewrite (sent_down r d m dst I Ho), (spread_down k r d m dst Ho).
    set (RCV := receivers c (rcv_addr r) dst) in *.
    assert (forall rd, In rd RCV ->
              Forall (good (2 * k) WD) (sent (fst rd) (react c (fst rd) (rcv_addr r) (snd rd) m)) /\
              Permutation (forest_ups (2 * k) (fst rd) (react c (fst rd) (rcv_addr r) (snd rd) m))
                          (map dl (spread (S k) c (fst rd) (react c (fst rd) (rcv_addr r) (snd rd) m)))) as SUB.
    { intros rd Ird. apply IHk.
      - apply (receivers_in c _ _ _ Ird).
      - apply react_flow; [apply (receivers_in c _ _ _ Ird) | apply Hr; exact Ird].
      - apply (flat_map_eq_nil _ _ Pa rd Ird). }
    set (gj := mkDgram j (rcv_addr r) dst m).
    destruct (tree_static (2 * k) gj Hs) as [TJ GJ].
    assert (routed WD gj = []) as RJ.
    { unfold gj. rewrite routed_WD. destruct (home_lan_known _ _ Kd) as [Hh _]. rewrite Hh. cbn [filter].
      rewrite Nat.eqb_refl. reflexivity. }
    assert (hear_sends gj (all_rcvs c) =
            flat_map (fun rd => sent (fst rd) (react c (fst rd) (rcv_addr r) (snd rd) m)) RCV) as DJ.
    { unfold hear_sends, gj. cbn [g_src g_msg].
      apply (arrive dst j (rcv_addr r) m _ (fun r' d' => sent r' (react c r' (rcv_addr r) d' m)) Kd). }
    assert (hear_ups gj (all_rcvs c) =
            flat_map (fun rd => handed_up (fst rd) (react c (fst rd) (rcv_addr r) (snd rd) m)) RCV) as UJ.
    { unfold hear_ups, gj. cbn [g_src g_msg].
      apply (arrive dst j (rcv_addr r) m _ (fun r' d' => handed_up r' (react c r' (rcv_addr r) d' m)) Kd). }
    rewrite RJ, DJ in GJ. rewrite RJ, DJ, UJ in TJ. cbn [app] in GJ, TJ.
    assert (good (S (2 * k)) WD gj) as GJ'.
    { apply GJ. apply Forall_flat_map. apply Forall_forall. intros rd Ird. apply (SUB rd Ird). }
    destruct (hop (S (2 * k)) (lano r) j (rcv_addr r) dst m Hs (home_lan_known _ _ Kd)
                  (nk_range _ _ _ _ NK r I) GJ') as [GG TT].
    replace (2 * S k)%nat with (S (S (2 * k))) by lia.
    split; [constructor; [exact GG | constructor]|].
    change (handed_up r [Down d m]) with (@nil adelivery). cbn [app flat_map]. rewrite app_nil_r.
    unfold gj in TJ. rewrite TT, TJ, flat_map_flat_map, map_flat_map.
    eapply Permutation_trans; [apply Permutation_sym; apply perm_flat_map_app|].
    apply perm_flat_map_ext. intros rd Ird. apply (SUB rd Ird).
Qed.

Lemma pend_origin : forall o n p, In o (all_rcvs c) -> pending (3 + n) o (originate c o p) = [].
Proof.
  intros o n p Io. unfold pending. rewrite (walk_origin _ _ c W o n p Io). apply flat_map_nil. intros r _. reflexivity.
Qed.

Lemma originate_flow : forall o p, In o (all_rcvs c) ->
  Forall (flow_act o) (originate c o p) /\ handed_up o (originate c o p) = [].
Proof.
  intros o p Io. pose proof (in_all_inv c o Io) as J. destruct o as [s0 x|s0|x0].
  - destruct J as [I Ix]. split; [|reflexivity]. constructor; [|constructor].
    split; [reflexivity|]. exists (sb_bcast s0), (sl s0). repeat split. apply HomeBcast. exact I.
  - rewrite originate_RB. split.
    + constructor.
      * split; [reflexivity|]. exists (sb_bcast s0), (sl s0). repeat split. apply HomeBcast. exact J.
      * apply Forall_app. split; [apply flow_peers; intros s Is; apply (peersR_spec c s0 s Is) | apply flow_fds].
    + unfold handed_up, to_subs, stations. cbn [flat_map app]. rewrite flat_map_app, !flat_map_map.
      rewrite !flat_map_nil; [reflexivity | intros; reflexivity | intros; reflexivity].
  - destruct (wf_home c W x0 J) as [s0 [I Hx]]. rewrite originate_RF.
    split; [|reflexivity]. constructor; [|constructor]. split; [reflexivity|].
    exists (rcv_addr (RB s0)), (lano (RB s0)). repeat split.
    + cbn [out_addr rcv_addr]. rewrite Hx. reflexivity.
    + apply HomeNode. apply in_all_RB. exact I.
    + intros rd Ird. exists s0.
      assert (rcv_addr (RB s0) <> rcv_addr (RF x0)) as Ne.
      { cbn [rcv_addr]. intros E. apply (RF_not_RB c W x0 s0 J I). symmetry. exact E. }
      rewrite (unicast_rcv c W (RB s0) (rcv_addr (RF x0)) (in_all_RB c s0 I) Ne) in Ird.
      destruct Ird as [<-|[]]. reflexivity.
Qed.

Lemma up_addrs_perm : forall w a b, Permutation a b -> Permutation (up_addrs w a) (up_addrs w b).
Proof. intros w a b H. unfold up_addrs. apply Permutation_flat_map. exact H. Qed.

Theorem cascade_equals_delivery : forall o n p fuel, In o (all_rcvs c) ->
  (list_sum (map (tsize (2 * (3 + n)) WD) (sent o (originate c o p))) < fuel)%nat ->
  exists log, cascade fuel WD (sent o (originate c o p)) [] = Ok (WD, log) /\
              Permutation (up_addrs WD log) (map dl (broadcast n c o p)).
Proof.
  intros o n p fuel Io Hf. destruct (originate_flow o p Io) as [OK TG].
  destruct (cascade_spread (3 + n) o (originate c o p) Io OK (pend_origin o n p Io)) as [G P].
  destruct (cascade_is_forest (2 * (3 + n)) WD fuel _ [] G Hf) as [log [C PL]].
  exists log. split; [exact C|]. eapply Permutation_trans; [apply up_addrs_perm; exact PL|].
  cbn [app]. rewrite up_addrs_flat_map. unfold forest_ups in P. rewrite TG in P. cbn [app] in P. exact P.
Qed.

End Net.

Definition a_rcv (d : adelivery) : addr := fst (fst (fst d)).

Theorem cascade_broadcast_once : forall c lans sl fl now o n p fuel,
  wf c -> net_ok c lans sl fl -> In o (all_rcvs c) ->
  let w := world_of c lans sl fl now in
  let q := emitted c lans sl fl now o (originate c o p) in
  (list_sum (map (tsize (2 * (3 + n)) w) q) < fuel)%nat ->
  exists log, cascade fuel w q [] = Ok (w, log) /\
    let D := up_addrs w log in
    (forall d, In d D -> d = (a_rcv d, rcv_addr o, DBcast, p)) /\
    NoDup (map a_rcv D) /\
    ~ In (rcv_addr o) (map a_rcv D) /\
    (full c -> forall a, In a (all_addrs c) -> a <> rcv_addr o -> In a (map a_rcv D)).
Proof.
  intros c lans sl fl now o n p fuel W NK Io w q Hf.
  destruct (cascade_equals_delivery c lans sl fl now W NK o n p fuel Io Hf) as [log [C P]].
  exists log. split; [exact C|]. cbv zeta.
  destruct (broadcast_once_any_size c o n p W Io) as [L [N [E Cov]]].
  assert (Permutation (map a_rcv (up_addrs w log)) (map d_addr (broadcast n c o p))) as PA.
  { eapply Permutation_trans; [apply Permutation_map; exact P|]. rewrite map_map.
    assert (forall l : list delivery, map (fun x => a_rcv (dl x)) l = map d_addr l) as ->; [|apply Permutation_refl].
    intros l. apply map_ext. intros [[[r s] dd] pp]. reflexivity. }
  repeat split.
  - intros d Id. apply (Permutation_in _ P) in Id. apply in_map_iff in Id. destruct Id as [x [<- Ix]].
    rewrite (L x Ix). reflexivity.
  - apply (Permutation_NoDup (Permutation_sym PA)). exact N.
  - intros H. apply E. apply (Permutation_in _ PA). exact H.
  - intros F a Ia Na. apply (Permutation_in _ (Permutation_sym PA)). apply Cov; assumption.
Qed.
