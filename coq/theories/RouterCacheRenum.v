(* RouterCacheRenum.v — what property C19 needs beyond Coherent.  WF: no key occurs twice in `routers` or in a
   record's `dnets` (a Python dict cannot); every operation keeps it.  On Inv = Coherent /\ WF,
   update_source_network with something filed under the old number succeeds (renumber_ok); hence Inv after
   every history, and the history theorems of props/C19.v; the I-Am-Router-To-Network handler seen from the cache
   (on_iam). *)
From Bac Require Import Base ListFacts RouterCache RouterCacheFacts.
Open Scope Z_scope.

Definition keys {K V} (l : list (K * V)) : list K := map fst l.

Lemma in_afilter : forall {K V} (f : K -> bool) (l : list (K * V)) e,
  In e (afilter f l) <-> In e l /\ f (fst e) = true.
Proof. intros. unfold afilter. apply filter_In. Qed.

Lemma keys_afilter : forall {K V} (f : K -> bool) (l : list (K * V)), keys (afilter f l) = filter f (keys l).
Proof.
  intros K V f l. unfold keys, afilter. induction l as [|[k v] l IH]; [reflexivity|].
  cbn [filter map fst]. destruct (f k); cbn [map fst]; rewrite IH; reflexivity.
Qed.

Lemma in_keys_afilter : forall {K V} (f : K -> bool) (l : list (K * V)) k,
  In k (keys (afilter f l)) -> In k (keys l) /\ f k = true.
Proof. intros K V f l k. rewrite keys_afilter. apply filter_In. Qed.

Lemma nodup_keys_afilter : forall {K V} (f : K -> bool) (l : list (K * V)),
  NoDup (keys l) -> NoDup (keys (afilter f l)).
Proof. intros K V f l. rewrite keys_afilter. apply NoDup_filter. Qed.

Section KeyFacts.
  Context {K V : Type} (eqb : K -> K -> bool).
  Context (eqb_spec : forall a b, eqb a b = true <-> a = b).

  Lemma nodup_keys_aset : forall k v (l : list (K * V)),
    NoDup (keys l) -> NoDup (keys (aset eqb k v l)).
  Proof.
    intros k v l H. unfold aset. unfold keys. cbn [map fst]. constructor.
    - intros Hin. apply (in_keys_afilter (fun k' => negb (eqb k' k))) in Hin.
      destruct Hin as [_ Hf]. rewrite (eqb_refl' eqb eqb_spec) in Hf. discriminate.
    - apply nodup_keys_afilter. exact H.
  Qed.

  Lemma in_aset : forall k v (l : list (K * V)) e,
    In e (aset eqb k v l) -> e = (k, v) \/ In e l.
  Proof.
    intros k v l e [H|H]; [left; symmetry; exact H|right].
    apply in_afilter in H. tauto.
  Qed.

  Lemma in_aget : forall k v (l : list (K * V)), NoDup (keys l) -> In (k, v) l -> aget eqb k l = Some v.
  Proof.
    intros k v l. induction l as [|[k0 v0] l IH]; intros Hnd Hin; [contradiction|].
    unfold keys in *. cbn [map fst] in Hnd. inversion Hnd as [|x xs Hnotin Hnd']; subst.
    cbn [aget]. destruct Hin as [[= -> ->]|Hin].
    - rewrite (eqb_refl' eqb eqb_spec). reflexivity.
    - destruct (eqb k k0) eqn:E.
      + apply eqb_spec in E. subst k0. exfalso. apply Hnotin. apply (in_map fst) in Hin. exact Hin.
      + apply IH; assumption.
  Qed.

  Lemma in_some_aget : forall k v (l : list (K * V)), In (k, v) l -> exists v', aget eqb k l = Some v'.
  Proof. intros k v l Hin. apply (amem_spec eqb). exact (in_amem eqb eqb_spec k v l Hin). Qed.
End KeyFacts.

(* `paths` needs no clause: a look-up takes the first binding and aset deletes the key before it inserts, so a
   second binding of a path key is never seen; `routers` and `dnets` are also traversed (update_source_network,
   delete_router_info(snet, address)) *)
Definition WF (s : cache) : Prop :=
  NoDup (keys (routers s)) /\ (forall k ri, In (k, ri) (routers s) -> NoDup (keys (dnets ri))).

Definition Inv (s : cache) : Prop := Coherent s /\ WF s.

Lemma wf_in_rget : forall s sn a ri, WF s -> In ((sn, a), ri) (routers s) -> rget s sn a = Some ri.
Proof. intros s sn a ri [H _] Hin. apply (in_aget keq keq_spec); assumption. Qed.

Lemma rget_wf_dnets : forall s sn a ri, WF s -> rget s sn a = Some ri -> NoDup (keys (dnets ri)).
Proof.
  intros s sn a ri [_ H] Hr. apply (H _ _ (rget_in s sn a ri Hr)).
Qed.

Lemma wf_set_router : forall s sn a ri n p, WF s -> NoDup (keys (dnets ri)) ->
  WF (mkC n (aset keq (sn, a) ri (routers s)) p).
Proof.
  intros s sn a ri n p [H1 H2] Hri. split; cbn [routers].
  - apply (nodup_keys_aset keq keq_spec). exact H1.
  - intros k r Hin. apply (in_aset keq) in Hin. destruct Hin as [[= _ ->]|Hin]; [exact Hri|apply (H2 _ _ Hin)].
Qed.

Lemma wf_filter_routers : forall s f n p, WF s -> WF (mkC n (afilter f (routers s)) p).
Proof.
  intros s f n p [H1 H2]. split; cbn [routers].
  - apply nodup_keys_afilter. exact H1.
  - intros k r Hin. apply in_afilter in Hin. apply (H2 _ _ (proj1 Hin)).
Qed.

Lemma nodup_set_all : forall ds st l, NoDup (keys l) -> NoDup (keys (set_all ds st l)).
Proof.
  induction ds as [|d ds IH]; intros st l H; [exact H|].
  unfold set_all in *. cbn [fold_left]. apply IH. apply (nodup_keys_aset Z.eqb Z.eqb_eq). exact H.
Qed.

Lemma displace_wf : forall sn ds s a' s', WF s -> displace sn ds s a' = Ok s' -> WF s'.
Proof.
  intros sn ds s a' s' Hwf. unfold displace.
  destruct (rget s sn a') as [ri|] eqn:Hr; [|discriminate].
  destruct (negb _); [discriminate|].
  pose proof (rget_wf_dnets s sn a' ri Hwf Hr) as Hri.
  destruct (afilter (fun d => negb (zmem d ds)) (dnets ri)) as [|x xs] eqn:E; intros [= <-].
  - unfold adel. apply wf_filter_routers. exact Hwf.
  - apply wf_set_router; [exact Hwf|]. cbn [dnets]. rewrite <- E. apply nodup_keys_afilter. exact Hri.
Qed.

Lemma foldM_displace_wf : forall sn ds l s s', WF s -> foldM (displace sn ds) l s = Ok s' -> WF s'.
Proof.
  intros sn ds l. induction l as [|a l IH]; intros s s' Hwf H.
  - cbn in H. injection H as <-. exact Hwf.
  - cbn [foldM] in H. destruct (displace sn ds s a) as [s1|e] eqn:E; [|discriminate].
    cbn [bind] in H. apply (IH s1 s'); [|exact H]. apply (displace_wf sn ds s a s1 Hwf E).
Qed.

Lemma foldM_displace_rget : forall sn ds l s s' a, foldM (displace sn ds) l s = Ok s' -> ~ In a l ->
  rget s' sn a = rget s sn a.
Proof.
  intros sn ds l. induction l as [|x l IH]; intros s s' a H Hnot.
  - cbn in H. injection H as <-. reflexivity.
  - cbn [foldM] in H. destruct (displace sn ds s x) as [s1|e] eqn:E; [|discriminate].
    cbn [bind] in H. rewrite (IH s1 s' a H); [|intros Hin; apply Hnot; right; exact Hin].
    unfold displace in E. destruct (rget s sn x) as [ri|]; [|discriminate].
    destruct (negb _); [discriminate|].
    assert (Hne : keq (sn, a) (sn, x) = false).
    { apply pair_neq_keq. intros [= ->]. apply Hnot. left. reflexivity. }
    destruct (afilter _ (dnets ri)); injection E as <-; unfold rget; cbn [routers].
    + rewrite (aget_adel keq keq_spec), Hne. reflexivity.
    + rewrite (aget_aset keq keq_spec), Hne. reflexivity.
Qed.

Lemma update_wf : forall s sn a ds st s', WF s -> update_router_info s sn a ds st = Ok s' -> WF s'.
Proof.
  intros s sn a ds st s' Hwf. unfold update_router_info.
  destruct (foldM _ _ s) as [s1|e] eqn:E; [|discriminate]. cbn [bind].
  pose proof (foldM_displace_wf _ _ _ _ _ Hwf E) as Hwf1.
  destruct (rget s sn a) as [e|] eqn:Hr; intros [= <-].
  - apply wf_set_router; [exact Hwf1|]. cbn [dnets]. apply nodup_set_all.
    apply (rget_wf_dnets s sn a e Hwf Hr).
  - apply wf_set_router; [exact Hwf1|]. cbn [dnets]. apply nodup_set_all. constructor.
Qed.

Lemma status_wf : forall s sn a st, WF s -> WF (update_router_status s sn a st).
Proof.
  intros s sn a st Hwf. unfold update_router_status.
  destruct (rget s sn a) as [ri|] eqn:Hr; [|exact Hwf].
  apply wf_set_router; [exact Hwf|]. cbn [dnets]. apply (rget_wf_dnets s sn a ri Hwf Hr).
Qed.

Lemma delete_wf : forall s sn ao dso s', WF s -> delete_router_info s sn ao dso = Ok s' -> WF s'.
Proof.
  intros s sn ao dso s' Hwf. unfold delete_router_info. destruct ao as [a|].
  - destruct (rget s sn a) as [ri|]; [|intros [= <-]; exact Hwf].
    apply displace_wf. exact Hwf.
  - destruct dso as [ds|]; [|discriminate]. apply foldM_displace_wf. exact Hwf.
Qed.

(* the lets of update_source_network, under names *)
Definition usn_moved (s : cache) (old : Z) := afilter (fun k : Z * Z => fst k =? old) (routers s).
Definition usn_rest (s : cache) (old : Z) := afilter (fun k : Z * Z => negb (fst k =? old)) (routers s).
Definition usn_pkeys (s : cache) (old new : Z) : list (Z * Z) :=
  flat_map (fun e : (Z * Z) * rinfo => map (fun dv : Z * Z => (new, fst dv)) (dnets (snd e)))
           (afilter (fun k : Z * Z => fst k =? new) (usn_rest s old)).
Definition usn_mds (s : cache) (old : Z) : list Z :=
  flat_map (fun e : (Z * Z) * rinfo => map fst (dnets (snd e))) (usn_moved s old).

Lemma pget_iff_listed : forall s sn a d, Inv s ->
  (pget s sn d = Some a <-> exists ri v, In ((sn, a), ri) (routers s) /\ In (d, v) (dnets ri)).
Proof.
  intros s sn a d [[Hc _] Hwf]. split.
  - intros Hp. apply Hc in Hp. destruct Hp as [ri [Hr Hd]]. apply has_dnet_in in Hd. destruct Hd as [v Hv].
    exists ri, v. split; [apply rget_in; exact Hr|exact Hv].
  - intros [ri [v [He Hdv]]]. apply Hc. exists ri. split; [apply wf_in_rget; assumption|].
    apply has_dnet_in. exists v. exact Hdv.
Qed.

Lemma mds_spec : forall s old d, Inv s -> (In d (usn_mds s old) <-> exists a, pget s old d = Some a).
Proof.
  intros s old d Hinv. unfold usn_mds, usn_moved. rewrite in_flat_map. split.
  - intros [[[sn a] ri] [He Hd]]. apply in_afilter in He. destruct He as [He Hold]. cbn [fst snd] in *.
    apply Z.eqb_eq in Hold. subst sn. apply in_map_iff in Hd. destruct Hd as [[d' v] [<- Hdv]].
    exists a. apply (pget_iff_listed s old a d' Hinv). eauto.
  - intros [a Hp]. apply (pget_iff_listed s old a d Hinv) in Hp. destruct Hp as [ri [v [He Hdv]]].
    exists ((old, a), ri). split.
    + apply in_afilter. split; [exact He|cbn; apply Z.eqb_refl].
    + cbn [snd]. apply in_map_iff. exists (d, v). auto.
Qed.

Lemma pkeys_spec : forall s old new k, Inv s ->
  (In k (usn_pkeys s old new) <-> (old =? new) = false /\ exists d a, k = (new, d) /\ pget s new d = Some a).
Proof.
  intros s old new k Hinv. unfold usn_pkeys, usn_rest. rewrite in_flat_map, (Z.eqb_sym old new). split.
  - intros [[[sn a] ri] [He Hk]]. apply in_afilter in He. destruct He as [He Hnew].
    apply in_afilter in He. destruct He as [He Hold]. cbn [fst snd] in *.
    apply Z.eqb_eq in Hnew. subst sn. apply negb_true_iff in Hold.
    apply in_map_iff in Hk. destruct Hk as [[d v] [<- Hdv]]. split; [exact Hold|].
    exists d, a. split; [reflexivity|]. apply (pget_iff_listed s new a d Hinv). eauto.
  - intros [Hno [d [a [-> Hp]]]]. apply (pget_iff_listed s new a d Hinv) in Hp. destruct Hp as [ri [v [He Hdv]]].
    exists ((new, a), ri). split.
    + apply in_afilter. split; [|cbn; apply Z.eqb_refl]. apply in_afilter. split; [exact He|].
      cbn. rewrite Hno. reflexivity.
    + cbn [snd]. apply in_map_iff. exists (d, v). auto.
Qed.

Lemma mds_nodup : forall s old, Inv s -> NoDup (usn_mds s old).
Proof.
  intros s old Hinv. pose proof Hinv as [Hcoh [Hk Hd]]. unfold usn_mds. apply nodup_flat_map.
  - apply (NoDup_map_inv fst). fold (keys (usn_moved s old)). unfold usn_moved. apply nodup_keys_afilter. exact Hk.
  - intros [k ri] He. unfold usn_moved in He. apply in_afilter in He. cbn [snd]. apply (Hd k ri). tauto.
  - intros [[sn1 a1] ri1] [[sn2 a2] ri2] d H1 H2 Hne Hd1 Hd2. apply Hne. unfold usn_moved in H1, H2.
    apply in_afilter in H1, H2. cbn [fst snd] in *. destruct H1 as [H1 E1], H2 as [H2 E2].
    apply Z.eqb_eq in E1, E2. subst sn1 sn2.
    apply in_map_iff in Hd1, Hd2. destruct Hd1 as [[d1 v1] [<- Hd1]], Hd2 as [[d2 v2] [E Hd2]]. cbn [fst] in E. subst d2.
    assert (P1 : pget s old d1 = Some a1) by (apply (pget_iff_listed s old a1 d1 Hinv); eauto).
    assert (P2 : pget s old d1 = Some a2) by (apply (pget_iff_listed s old a2 d1 Hinv); eauto).
    assert (a1 = a2) by congruence. subst a2.
    pose proof (wf_in_rget s old a1 ri1 (conj Hk Hd) H1). pose proof (wf_in_rget s old a1 ri2 (conj Hk Hd) H2).
    congruence.
Qed.

Lemma list_eqb_refl : forall l, list_eqb Z.eqb l l = true.
Proof. induction l as [|x l IH]; [reflexivity|]. cbn. rewrite Z.eqb_refl. exact IH. Qed.

Lemma aget_rename_fst : forall {V} old new (c : Z * Z -> bool) (l : list ((Z * Z) * V)),
  (forall e, In e l -> fst (fst e) <> new) -> (forall e, In e l -> fst (fst e) = old -> c (fst e) = true) ->
  forall sn d,
    aget keq (sn, d) (map (fun e => if (fst (fst e) =? old) && c (fst e) then ((new, snd (fst e)), snd e) else e) l)
    = if sn =? new then aget keq (old, d) l else if sn =? old then None else aget keq (sn, d) l.
Proof.
  intros V old new c l. induction l as [|[[sn1 d1] v] l IH]; intros Hnew Hold sn d.
  - cbn. destruct (sn =? new); [reflexivity|]. destruct (sn =? old); reflexivity.
  - pose proof (Hnew _ (or_introl eq_refl)) as H1. pose proof (Hold _ (or_introl eq_refl)) as H2. cbn [fst] in H1, H2.
    specialize (IH (fun e He => Hnew e (or_intror He)) (fun e He => Hold e (or_intror He)) sn d).
    cbn [map fst snd]. destruct (sn1 =? old) eqn:E1; cbn [andb].
    + apply Z.eqb_eq in E1. subst sn1. rewrite (H2 eq_refl). cbn [aget]. rewrite IH, !keq_pair, Z.eqb_refl.
      destruct (sn =? new); cbn [andb]; [reflexivity|]. destruct (sn =? old); reflexivity.
    + cbn [aget]. rewrite IH, !keq_pair, (Z.eqb_sym old sn1), E1. cbn [andb].
      destruct (sn =? sn1) eqn:E2; cbn [andb]; [|reflexivity].
      apply Z.eqb_eq in E2. subst sn1. rewrite (proj2 (Z.eqb_neq sn new) H1), E1. reflexivity.
Qed.

Lemma aget_rename_all : forall {V} old new (l : list ((Z * Z) * V)), (forall e, In e l -> fst (fst e) = old) ->
  forall sn d, aget keq (sn, d) (map (fun e => ((new, snd (fst e)), snd e)) l)
               = if sn =? new then aget keq (old, d) l else None.
Proof.
  intros V old new l. induction l as [|[[sn1 d1] v] l IH]; intros Hold sn d.
  - cbn. destruct (sn =? new); reflexivity.
  - cbn [map fst snd aget]. rewrite (IH (fun e He => Hold e (or_intror He))).
    rewrite (Hold _ (or_introl eq_refl) : sn1 = old). rewrite !keq_pair, Z.eqb_refl.
    destruct (sn =? new); reflexivity.
Qed.

Lemma renumber_ok : forall s old new, Inv s -> zmem old (nets s) = true ->
  exists s', update_source_network s old new = Ok s' /\ Inv s' /\
    (forall sn0 d0, pget s' sn0 d0 =
       if sn0 =? new then pget s old d0 else if sn0 =? old then None else pget s sn0 d0) /\
    (forall sn0 a0, rget s' sn0 a0 =
       if sn0 =? new then rget s old a0 else if sn0 =? old then None else rget s sn0 a0).
Proof.
  intros s old new Hinv Hold. pose proof Hinv as [[Hc Hn] [Hk Hd]].
  unfold update_source_network. rewrite Hold. cbn [negb]. cbv zeta.
  (* fold finds them only because the usn_* bodies are the model's lets letter for letter *)
  progress fold (usn_moved s old) (usn_rest s old). progress fold (usn_pkeys s old new) (usn_mds s old).
  assert (Hchk1 : forallb (fun k => amem keq k (paths s)) (usn_pkeys s old new) = true).
  { apply forallb_forall. intros k Hin. apply (pkeys_spec s old new k Hinv) in Hin.
    destruct Hin as [_ [d [a [-> Hp]]]]. unfold amem. unfold pget in Hp. rewrite Hp. reflexivity. }
  rewrite Hchk1. cbn [negb].
  set (p1 := afilter (fun k => negb (kmem k (usn_pkeys s old new))) (paths s)).
  assert (P1 : forall sn0 d0,
    aget keq (sn0, d0) p1 = if (sn0 =? new) && negb (old =? new) then None else pget s sn0 d0).
  { intros sn0 d0. unfold p1. rewrite (aget_afilter keq keq_spec).
    destruct (kmem (sn0, d0) (usn_pkeys s old new)) eqn:E; cbn [negb].
    - apply kmem_spec, (pkeys_spec s old new _ Hinv) in E. destruct E as [Hno [d [a [[= -> ->] _]]]].
      rewrite Z.eqb_refl, Hno. reflexivity.
    - destruct (sn0 =? new) eqn:E1; [|reflexivity]. destruct (old =? new) eqn:Eon; [reflexivity|]. cbn [negb andb].
      apply Z.eqb_eq in E1. subst sn0. fold (pget s new d0). destruct (pget s new d0) as [a|] eqn:Hp; [|reflexivity].
      assert (Hin : In (new, d0) (usn_pkeys s old new)) by (apply (pkeys_spec s old new _ Hinv); eauto).
      apply kmem_spec in Hin. congruence. }
  assert (Hchk2 : forallb (fun d => amem keq (old, d) p1) (usn_mds s old) = true).
  { apply forallb_forall. intros d Hin. apply (mds_spec s old d Hinv) in Hin. destruct Hin as [a Hp].
    unfold amem. rewrite P1, andb_negb_r, Hp. reflexivity. }
  rewrite Hchk2. cbn [negb].
  (* the model's "second pop of a key" test is a duplicate test on the list of moved dnets: the one place where
     WF (through mds_nodup) is needed for the operation to succeed *)
  rewrite (nodup_fixed_point Z.eq_dec (mds_nodup s old Hinv)), list_eqb_refl. cbn [negb].
  set (s' := mkC _ _ _). exists s'. split; [reflexivity|].
  assert (HP : forall sn0 d0,
    pget s' sn0 d0 = if sn0 =? new then pget s old d0 else if sn0 =? old then None else pget s sn0 d0).
  { intros sn0 d0. unfold pget at 1. cbn [s' paths]. destruct (old =? new) eqn:Eon.
    - rewrite P1. cbn [negb]. rewrite andb_false_r. apply Z.eqb_eq in Eon. subst new.
      destruct (sn0 =? old) eqn:E; [apply Z.eqb_eq in E; subst; reflexivity|reflexivity].
    - set (L := afilter _ p1).
      assert (HL : forall sn d, aget keq (sn, d) L = if sn =? new then None else pget s sn d).
      { intros sn d. unfold L. rewrite (aget_afilter keq keq_spec), P1. cbn [fst snd negb].
        rewrite andb_true_r. destruct (sn =? new); [destruct (zmem d _)|]; reflexivity. }
      (* re-keying L from old to new at the moved dnets: nothing is left under new in L (HL), and every key of L
         under old is a moved dnet (mds_spec) *)
      rewrite (aget_rename_fst old new (fun k => zmem (snd k) (usn_mds s old))).
      + rewrite !HL, Eon. destruct (sn0 =? new); [reflexivity|]. destruct (sn0 =? old); reflexivity.
      + intros [[sn d] v] Hin Hsn. cbn [fst] in Hsn. subst sn.
        apply (in_some_aget keq keq_spec) in Hin. destruct Hin as [v' Hv].
        rewrite HL, Z.eqb_refl in Hv. discriminate.
      + intros [[sn d] v] Hin Hsn. cbn [fst snd] in *. subst sn.
        apply (in_some_aget keq keq_spec) in Hin. destruct Hin as [v' Hv]. rewrite HL, Eon in Hv.
        apply zmem_spec, (mds_spec s old d Hinv). exists v'. exact Hv. }
  assert (HR : forall sn0 a0,
    rget s' sn0 a0 = if sn0 =? new then rget s old a0 else if sn0 =? old then None else rget s sn0 a0).
  { intros sn0 a0. unfold rget at 1. cbn [s' routers]. rewrite aget_app, (aget_rename_all old new).
    - unfold usn_moved, usn_rest. rewrite !(aget_afilter keq keq_spec). cbn [fst]. rewrite Z.eqb_refl.
      fold (rget s old a0) (rget s sn0 a0).
      destruct (sn0 =? new); cbn [negb]; [destruct (rget s old a0); reflexivity|]. destruct (sn0 =? old); reflexivity.
    - intros e He. apply in_afilter in He. apply Z.eqb_eq. exact (proj2 He). }
  split; [|split; [exact HP|exact HR]].
  split; [apply coherent_intro|split].
  - intros sn0 a0 d. unfold cred, leads. rewrite HR, HP.
    destruct (sn0 =? new); [exact (cred_path s old a0 d (proj1 Hinv))|].
    destruct (sn0 =? old); [reflexivity|exact (cred_path s sn0 a0 d (proj1 Hinv))].
  - intros sn0 a0 ri. rewrite HR. cbn [s' nets zmem existsb].
    destruct (sn0 =? new) eqn:E1; [intros _; reflexivity|]. cbn [orb].
    destruct (sn0 =? old) eqn:E2; [discriminate|]. intros H. apply Hn in H.
    apply zmem_spec. apply filter_In. split; [apply zmem_spec; exact H|]. rewrite E1, E2. reflexivity.
  - cbn [s' routers]. unfold keys. rewrite map_app. apply nodup_app_intro.
    + rewrite map_map. cbn [fst].
      assert (E : map (fun x : Z * Z * rinfo => (new, snd (fst x))) (usn_moved s old)
                  = map (fun k : Z * Z => (new, snd k)) (keys (usn_moved s old))).
      { unfold keys. rewrite map_map. reflexivity. }
      rewrite E. apply nodup_map_on.
      * unfold usn_moved. apply nodup_keys_afilter. exact Hk.
      * intros [sn1 a1] [sn2 a2] H1 H2. apply in_keys_afilter in H1, H2. cbn [fst snd] in *.
        destruct H1 as [_ H1], H2 as [_ H2]. apply Z.eqb_eq in H1, H2. subst. intros [= ->]. reflexivity.
    + fold (keys (afilter (fun k : Z * Z => negb (fst k =? new)) (usn_rest s old))).
      apply nodup_keys_afilter. unfold usn_rest. apply nodup_keys_afilter. exact Hk.
    + intros x Hx1 Hx2. rewrite map_map in Hx1. cbn [fst] in Hx1. apply in_map_iff in Hx1.
      destruct Hx1 as [e [<- _]].
      fold (keys (afilter (fun k : Z * Z => negb (fst k =? new)) (usn_rest s old))) in Hx2.
      apply in_keys_afilter in Hx2. destruct Hx2 as [_ Hf]. cbn [fst] in Hf. rewrite Z.eqb_refl in Hf. discriminate.
  - cbn [s' routers]. intros k ri Hin. apply in_app_or in Hin. destruct Hin as [Hin|Hin].
    + apply in_map_iff in Hin. destruct Hin as [[k0 r0] [[= _ <-] Hin]]. unfold usn_moved in Hin.
      apply in_afilter in Hin. apply (Hd k0 r0). tauto.
    + apply in_afilter in Hin. destruct Hin as [Hin _]. unfold usn_rest in Hin. apply in_afilter in Hin.
      apply (Hd k ri). tauto.
Qed.

Lemma inv_empty : Inv empty.
Proof. split; [exact coherent_empty|]. split; [constructor|]. intros k ri []. Qed.

Lemma step_wf : forall s o s', WF s -> is_renum o = false -> step s o = Ok s' -> WF s'.
Proof.
  intros s o s' Hwf Ho. destruct o as [sn a ds st|sn a st|sn ao dso|old new]; cbn [step]; [| | |discriminate].
  - apply update_wf. exact Hwf.
  - intros [= <-]. apply status_wf. exact Hwf.
  - apply delete_wf. exact Hwf.
Qed.

Lemma step_inv : forall s o, Inv s ->
  (exists s', step s o = Ok s' /\ Inv s') \/ (refused o /\ step s o = Err RuntimeErr).
Proof.
  intros s o [Hcoh Hwf]. destruct (is_renum o) eqn:Ho.
  - destruct o as [| | |old new]; try discriminate. left. cbn [step].
    destruct (zmem old (nets s)) eqn:Hold.
    + destruct (renumber_ok s old new (conj Hcoh Hwf) Hold) as [s' [H [Hi _]]]. eauto.
    + exists s. split; [apply renumber_unknown; exact Hold|split; assumption].
  - destruct (step_no_renum s o Hcoh Ho) as [[s' [H Hc]]|Hr]; [left|right; exact Hr].
    exists s'. split; [exact H|]. split; [exact Hc|]. apply (step_wf s o s' Hwf Ho H).
Qed.

Lemma run_inv : forall h s, Inv s -> Inv (run s h).
Proof.
  induction h as [|o h IH]; intros s Hinv; [exact Hinv|].
  apply (IH (step_total s o)). unfold step_total.
  destruct (step_inv s o Hinv) as [[s' [H Hi]]|[_ H]]; rewrite H; assumption.
Qed.

Lemma history_inv : forall h, Inv (run empty h).
Proof. intros h. apply run_inv. exact inv_empty. Qed.

Lemma history_newest_wins_all : forall h sn a ds st d, In d ds ->
  pget (run empty (h ++ [Learn sn a ds st])) sn d = Some a.
Proof. intros h sn a ds st d Hin. rewrite run_snoc. apply learn_newest; [apply history_inv|exact Hin]. Qed.

Lemma history_frame_all : forall h sn a ds st sn0 d0, (sn0 <> sn \/ ~ In d0 ds) ->
  pget (run empty (h ++ [Learn sn a ds st])) sn0 d0 = pget (run empty h) sn0 d0.
Proof. intros h sn a ds st sn0 d0 Hnot. rewrite run_snoc. apply learn_frame; [apply history_inv|exact Hnot]. Qed.

Lemma history_renumber : forall h old new sn0 d0,
  pget (run empty (h ++ [Renum old new])) sn0 d0 =
    if zmem old (nets (run empty h))
    then (if sn0 =? new then pget (run empty h) old d0
          else if sn0 =? old then None else pget (run empty h) sn0 d0)
    else pget (run empty h) sn0 d0.
Proof.
  intros h old new sn0 d0. rewrite run_snoc. unfold step_total. cbn [step].
  destruct (zmem old (nets (run empty h))) eqn:Hold.
  - destruct (renumber_ok (run empty h) old new (history_inv h) Hold) as [s' [H [_ [Hp _]]]].
    rewrite H. apply Hp.
  - rewrite (renumber_unknown _ old new Hold). reflexivity.
Qed.

Lemma on_iam_after_history : forall h up sn a ds,
  exists s', fst (on_iam up (run empty h) sn a ds) = Ok s' /\ Inv s' /\
    (forall sn0 d0, pget s' sn0 d0 = if (sn0 =? sn) && zmem d0 ds then Some a else pget (run empty h) sn0 d0).
Proof.
  intros h up sn a ds. destruct (history_inv h) as [Hcoh Hwf].
  destruct (update_ok (run empty h) sn a ds 0 Hcoh) as [s' [H [Hc Hp]]].
  exists s'. cbn [on_iam fst]. split; [exact H|]. split; [|exact Hp].
  split; [exact Hc|]. apply (update_wf _ _ _ _ _ _ Hwf H).
Qed.
