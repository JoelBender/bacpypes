(* ScheduleTzFacts.v — lemmas about ScheduleTz (the wall clock of process_task / datetime_to_time in a
   zone whose UTC offset changes).  The calendar facts come from ScheduleTzDays.v. *)
From Bac Require Import Base PyRt Calendar CalendarFacts ScheduleEval ScheduleSpec ScheduleFacts ScheduleTz ScheduleTzDays.
Open Scope Z_scope.

Lemma wall_of_days : forall z h mi s x,
  wall_of (date_of_days z) (h, mi, s, x) = z * 86400 + h * 3600 + mi * 60 + s.
Proof.
  intros z h mi s x. pose proof (civil_from_days_date z) as R. unfold wall_of, date_of_days.
  destruct (civil_from_days z) as [[y m] d]. destruct R as (_ & _ & R).
  replace (y - 1900 + 1900) with y by lia. now rewrite R.
Qed.

Lemma wall_of_split_wall : forall l, wall_of (fst (split_wall l)) (snd (split_wall l)) = l.
Proof. intro l. unfold split_wall, time_of_secs. cbn [fst snd]. rewrite wall_of_days. Z.div_mod_to_equations. lia. Qed.

Lemma time_of_secs_valid : forall s, 0 <= s < 86400 -> valid_time (time_of_secs s).
Proof. intros s H. unfold time_of_secs, valid_time. Z.div_mod_to_equations. lia. Qed.

Lemma valid_date_no255 : forall d, valid_date d -> has255 d = false.
Proof.
  intros [[[y m] dd] w] (Hy & Hm & Hd & Hw). unfold has255.
  pose proof (days_in_month_bounds (y + 1900) m Hm). lia.
Qed.

Lemma valid_time_no255 : forall t, valid_time t -> has255 t = false.
Proof. intros [[[h m] s] x] H. unfold valid_time in H. unfold has255. lia. Qed.

Lemma mktime_z_reads : forall off o1 o2 w, two_offsets off o1 o2 ->
  (exists e, wall off e = w) -> wall off (mktime_z off o1 o2 w) = w.
Proof.
  intros off o1 o2 w H2 [e He]. unfold mktime_z, wall in *.
  destruct (off (w - o2) =? o2) eqn:E2.
  - lia.
  - destruct (H2 e) as [H | H].
    + replace (w - o1) with e by lia. lia.
    + exfalso. replace (w - o2) with e in E2 by lia. lia.
Qed.

(* in the skipped hour the answer is the standard reading *)
Lemma mktime_z_gap : forall off o1 o2 w, (forall e, wall off e <> w) -> mktime_z off o1 o2 w = w - o1.
Proof.
  intros off o1 o2 w H. unfold mktime_z. destruct (off (w - o2) =? o2) eqn:E; auto.
  exfalso. apply (H (w - o2)). unfold wall. lia.
Qed.

(* the instants whose local date lies in 1900..2154 *)
Definition in_years (off : Z -> Z) (e : Z) : Prop := day_in_range (wall off e / 86400).

Lemma localtime_z_valid : forall off e, in_years off e ->
  valid_date (fst (localtime_z off e)) /\ valid_time (snd (localtime_z off e)).
Proof.
  intros off e Hy. split; [exact (date_of_days_valid _ Hy)|].
  exact (time_of_secs_valid _ (Z.mod_pos_bound (wall off e) 86400 eq_refl)).
Qed.

(* datetime_to_time applied to a local reading gives an instant with that reading (what dtt_requirement
   of ScheduleSpec asks for, on the instants of 1900..2154, in every zone with two offsets) *)
Theorem dtt_reads_back : forall off o1 o2 e, two_offsets off o1 o2 -> in_years off e ->
  exists a, datetime_to_time_z off o1 o2 (fst (localtime_z off e)) (snd (localtime_z off e)) = Ok a /\
            localtime_z off a = localtime_z off e.
Proof.
  intros off o1 o2 e H2 Hy. destruct (localtime_z_valid off e Hy) as [Hd Ht].
  unfold datetime_to_time_z. rewrite (valid_date_no255 _ Hd), (valid_time_no255 _ Ht). cbn [orb].
  eexists. split; [reflexivity|]. unfold localtime_z. rewrite wall_of_split_wall.
  rewrite (mktime_z_reads off o1 o2 _ H2) by (exists e; reflexivity). reflexivity.
Qed.

Lemma wall_of_next_day : forall z, day_in_range z ->
  wall_of (date_of_days z) next_day = wall_of (date_of_days (z + 1)) (0, 0, 0, 0) \/ z = day_hi.
Proof.
  intros z _. left. unfold next_day. rewrite !wall_of_days. lia.
Qed.

Lemma wall_of_ahead : forall d t n, valid_time t -> arm_ok n -> t4_lt t n = true -> wall_of d t < wall_of d n.
Proof.
  intros [[[y m] dd] w] [[[h mi] s] x] [[[h' mi'] s'] x'] Ht Ha Hn. unfold wall_of.
  unfold valid_time in Ht. unfold t4_lt in Hn.
  destruct Ha as [Ha | [Hv Hx]]; [inversion Ha; subst; lia|]. unfold valid_time in Hv. subst x'. lia.
Qed.

(* One firing of process_task at the instant e in any zone with two offsets: never raises,
   shows the prescribed value inside the effective period (for the LOCAL date and time), keeps the
   old value outside, and arms the timer for the instant whose local reading is the reported
   transition (same date, strictly later wall clock, or 24:00 = the next local midnight) whenever some
   instant has that reading; with the same offset at both instants the armed instant is strictly
   later. *)
Theorem step_z_rearms : forall off o1 o2 c e pv, two_offsets off o1 o2 -> in_years off e ->
  wf_sched c (fst (localtime_z off e)) -> good_sched c ->
  exists pv' a n, let d := fst (localtime_z off e) in let t := snd (localtime_z off e) in
    step_z off o1 o2 c e pv = Ok (pv', a) /\
    (in_effect c d -> spec_value c d t pv') /\ (~ in_effect c d -> pv' = pv) /\
    t4_lt t n = true /\ arm_ok n /\ a = mktime_z off o1 o2 (wall_of d n) /\
    ((exists e', wall off e' = wall_of d n) -> wall off a = wall_of d n) /\
    (wall off a = wall_of d n -> off a = off e -> e < a).
Proof.
  intros off o1 o2 c e pv H2 Hy Hwf Hg. destruct (localtime_z_valid off e Hy) as [Hd Ht].
  pose proof (wall_of_split_wall (wall off e)) as Hlt. fold (localtime_z off e) in Hlt.
  unfold step_z. destruct (localtime_z off e) as [d t]. cbn [fst snd] in *.
  destruct (firing_spec c d t pv Hd Ht Hwf Hg) as (r & pv' & n & E & M & Harm & Hah & Hs & Hk).
  rewrite E. cbn [bind]. rewrite M. unfold datetime_to_time_z.
  rewrite (valid_date_no255 d Hd), (proj1 (normalise_arm d n Harm)). cbn [orb bind].
  exists pv', (mktime_z off o1 o2 (wall_of d n)), n. cbn zeta. repeat split; auto.
  - intro Hex. now apply mktime_z_reads.
  - intros Hw Ho. pose proof (wall_of_ahead d t n Ht Harm Hah) as Hlater. unfold wall in *. lia.
Qed.

(* The conversion that uses the standard offset only (calendar.timegm(tuple) + time.timezone)
   does NOT meet the requirement: in the zone EST5EDT of 2024 (daylight time from 2024-03-10 07:00 UTC
   to 2024-11-03 06:00 UTC) the reading 2024-07-01 08:00:00 is converted to an instant that reads 09:00:00 *)
Definition est5edt_2024 : Z -> Z := off_tbl (-18000) [(1710054000, -14400); (1730613600, -18000)].

Lemma off_tbl_two_offsets : forall o1 o2 tbl cur, (cur = o1 \/ cur = o2) ->
  Forall (fun x => snd x = o1 \/ snd x = o2) tbl -> two_offsets (off_tbl cur tbl) o1 o2.
Proof.
  intros o1 o2 tbl. induction tbl as [|[a o] r IH]; intros cur Hc Hf e; cbn [off_tbl]; auto.
  inversion Hf as [|? ? Ho Hr]; subst. destruct (a <=? e); auto. now apply IH.
Qed.

Lemma est5edt_2024_two : two_offsets est5edt_2024 (-18000) (-14400).
Proof.
  apply off_tbl_two_offsets; [now left|].
  constructor; [right; reflexivity | constructor; [left; reflexivity | constructor]].
Qed.

Lemma dtt_std_only_refuted : exists off o1 o2 e, two_offsets off o1 o2 /\ in_years off e /\
  localtime_z off (dtt_std_only o1 (fst (localtime_z off e)) (snd (localtime_z off e))) <> localtime_z off e.
Proof.
  exists est5edt_2024, (-18000), (-14400), 1719835200. split; [exact est5edt_2024_two|].
  split; [unfold in_years, day_in_range, day_lo, day_hi; vm_compute; split; discriminate|].
  vm_compute. discriminate.
Qed.

(* EST5EDT 2024: a summer reading, the skipped hour (02:30 is read as 03:30 EDT), the repeated hour (read as
   daylight time), 24:00 = the next local midnight *)
Lemma localtime_z_example :
  localtime_z est5edt_2024 1719835200 = ((124, 7, 1, 1), (8, 0, 0, 0)) /\
  datetime_to_time_z est5edt_2024 (-18000) (-14400) (124, 7, 1, 1) (17, 0, 0, 0) = Ok 1719867600 /\
  localtime_z est5edt_2024 1719867600 = ((124, 7, 1, 1), (17, 0, 0, 0)) /\
  datetime_to_time_z est5edt_2024 (-18000) (-14400) (124, 3, 10, 7) (2, 30, 0, 0) = Ok 1710055800 /\
  localtime_z est5edt_2024 1710055800 = ((124, 3, 10, 7), (3, 30, 0, 0)) /\
  datetime_to_time_z est5edt_2024 (-18000) (-14400) (124, 11, 3, 7) (1, 30, 0, 0) = Ok 1730611800 /\
  datetime_to_time_z est5edt_2024 (-18000) (-14400) (124, 11, 2, 6) (24, 0, 0, 0) = Ok 1730606400.
Proof. vm_compute. repeat split; reflexivity. Qed.
