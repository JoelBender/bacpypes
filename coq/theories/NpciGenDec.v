(* NpciGenDec.v — the translated NPCI.decode is dec_npci.
   NPCI.decode reads the version and the control octet and then runs one block per optional field (DADR,
   SADR, hop count, message type with vendor id); a block takes octets off the buffer and stores what it
   read in the object.  dec_npci runs one reader per field on the octets left by the one before.  The proof
   walks the two in step (read_bind, opt_read), takes a field's reader apart only inside its own block, and
   compares what the blocks have stored with obj_after once, at the end. *)
From Bac Require Import Base Npci NpciRt NpciGenFacts.
From BacGen Require Import NpciFns.
Open Scope N_scope.

(* py_get, py_get_short, py_get_data k: run a reader f on the octets bs of the buffer, leave the rest in it *)
Lemma read_bind {A B C} (f : list N -> res (A * list N)) blk q bs
    (K : A * pyobj -> res B) (g : A * list N -> res C) G :
  blk = (do (x, r) <- f bs; Ok (x, set_pduData r q)) ->
  (forall x r, K (x, set_pduData r q) = bind (g (x, r)) G) ->
  bind blk K = bind (bind (f bs) g) G.
Proof. intros -> H. destruct (f bs) as [[x r]|]; cbn [bind]; [apply H|reflexivity]. Qed.

(* `if flag: <read x with f; store it with upd>`: the buffer and the object s are passed on unchanged when
   the flag is clear *)
Lemma opt_read {A B C} (flag : bool) (f : list N -> res (A * list N)) (blk : res (pyobj * pyobj))
    (upd : A -> pyobj -> pyobj) q s bs (K : pyobj * pyobj -> res B) (g : option A * list N -> res C) G :
  blk = (do (x, r) <- f bs; Ok (set_pduData r q, upd x s)) ->
  (forall d r, K (set_pduData r q, match d with Some x => upd x | None => fun s => s end s) = bind (g (d, r)) G) ->
  bind (if flag then blk else Ok (set_pduData bs q, s)) K = bind (bind (dec_opt flag f bs) g) G.
Proof.
  intros -> H. unfold dec_opt. destruct flag; [|apply (H None)].
  destruct (f bs) as [[x r]|]; cbn [bind]; [apply (H (Some x))|reflexivity].
Qed.

Lemma NPCI_decode_is_model o p :
  NPCI_decode o p =
  do (ch, r) <- dec_npci (pduData p); Ok (obj_after o (fst ch) (snd ch), set_pduData r p).
Proof.
  unfold NPCI_decode, dec_npci.
  destruct (lenN (pduData p) <? 2); [reflexivity|]. cbn [bind].
  eapply read_bind; [reflexivity|intros v r1]. cbv beta zeta. cbn [npduVersion set_npduVersion].
  destruct (negb (v =? 1)); [reflexivity|]. cbn [bind].
  eapply read_bind; [reflexivity|intros c r2]. cbv beta zeta.
  apply opt_read with (upd := fun a => set_npduDADR (Some a)); [|intros d r3; cbv beta iota].
  { unfold dec_dadr, py_get_short, py_get, py_get_data. cbn [pduData set_pduData].
    destruct (get_short r2) as [[dnet q1]|]; [|reflexivity]. cbn [bind pduData set_pduData].
    destruct (get q1) as [[dlen q2]|]; [|reflexivity]. cbn [bind pduData set_pduData].
    destruct (get_data dlen q2) as [[mac q3]|]; [|reflexivity]. cbn [bind].
    destruct (dnet =? 65535), (dlen =? 0); reflexivity. }
  apply opt_read with (upd := fun a => set_npduSADR (Some a)); [|intros s r4; cbv beta iota].
  { unfold dec_sadr, py_get_short, py_get, py_get_data. cbn [pduData set_pduData].
    destruct (get_short r3) as [[snet q1]|]; [|reflexivity]. cbn [bind pduData set_pduData].
    destruct (get q1) as [[slen q2]|]; [|reflexivity]. cbn [bind pduData set_pduData].
    destruct (get_data slen q2) as [[mac q3]|]; [|reflexivity]. cbn [bind].
    destruct (snet =? 65535), (slen =? 0); reflexivity. }
  apply opt_read with (upd := fun x => set_npduHopCount (Some x)); [|intros hp r5; cbv beta iota].
  { unfold py_get. cbn [pduData set_pduData]. destruct (get r4) as [[x q1]|]; reflexivity. }
  apply opt_read with (upd := fun '(t, vd) s => let s' := set_npduNetMessage (Some t) s in
                               match vd with Some x => set_npduVendorID (Some x) s' | None => s' end);
    [|intros mv r6; cbv beta iota].
  { unfold dec_mt, is_vendor_type, py_get, py_get_short. cbn [pduData set_pduData].
    destruct (get r5) as [[t q1]|]; [|reflexivity]. cbn [bind pduData set_pduData npduNetMessage set_npduNetMessage req].
    destruct (128 <=? t); cbn [bind andb]; [|reflexivity].
    destruct (t <=? 255); cbn [bind]; [|reflexivity].
    destruct (get_short q1) as [[vd q2]|]; reflexivity. }
  cbn [bind fst snd]. destruct o, d, s, hp, mv as [[t [vd|]]|]; reflexivity.
Qed.
