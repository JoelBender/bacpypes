(* BipLifeFacts.v — lemmas about BipLife.v (one registration, device and BBMD together), and about
   the 1 s tick and the foreign device's side of Bip.v:
   * a renewing device never lets its own expiry timer fire and stays listed, for ANY number of
     renewal rounds (pair_alive, no_expiry_while_renewing);
   * once the renewals stop the device itself gives up at last-ack + (T+30) s (expiry_fires) and
     the BBMD after T+5 ticks (BipFacts.fdt_served_window);
   * one 1 s tick ages EVERY entry exactly once, whatever its position and whatever happens to
     its neighbours (BipFacts.tick_ages_every_entry; here tick_listed, same_tick_expiry, group_expiry);
   * a foreign device hands no Original-Broadcast-NPDU to its network layer
     (foreign_drops_original_broadcast). *)
From Coq Require Import ZifyBool.
From Bac Require Import Base Bip BipFacts BipLife.
Open Scope Z_scope.

Lemma fire_expiry_none : forall t f, f_expire f = None -> fire_expiry t f = f.
Proof. intros t f H. unfold fire_expiry. rewrite H. reflexivity. Qed.

Lemma fire_expiry_ahead : forall t f e, f_expire f = Some e -> t < e -> fire_expiry t f = f.
Proof. intros t f e H L. unfold fire_expiry. rewrite H. assert ((e <=? t) = false) as -> by lia. reflexivity. Qed.

Theorem expiry_fires : forall t f e, f_expire f = Some e -> e <= t ->
  f_status (fire_expiry t f) = -1 /\ f_expire (fire_expiry t f) = None /\
  (forall now s d a p, f_bbmd f <> None -> exists b, f_bbmd f = Some b /\
      foreign_confirmation now (fire_expiry t f) s d (Forwarded a p) = Ok (fire_expiry t f, [])) /\
  (forall p, foreign_indication (fire_expiry t f) DBcast p = Ok []).
Proof.
  intros t f e H L. unfold fire_expiry. rewrite H. assert ((e <=? t) = true) as -> by lia.
  unfold foreign_expired. cbn [f_status f_expire]. split; [reflexivity|]. split; [reflexivity|]. split.
  - intros now s d a p Hb. destruct (f_bbmd f) as [b|] eqn:E; [|congruence]. exists b. split; [reflexivity|].
    reflexivity.
  - intros p. reflexivity.
Qed.

(* what a round needs and re-establishes.  `ahead`: the device's own expiry, if armed, lies at
   least 30 s beyond the next renewal instant.  The 30000 ms are the `+ 30` of the expiry that
   foreign_confirmation arms, (t + 30) * 1000 after the acknowledgement, against the t * 1000 of
   foreign_renew; an answer may therefore be up to 30 s late (round_ok's d < 30000). *)
Definition ahead (f : foreign) : Prop :=
  exists r, f_renew f = Some r /\
            (f_expire f = None \/ exists e, f_expire f = Some e /\ r + 30000 <= e).

Record inv (me : addr) (T : Z) (s : pair) : Prop := mkInv {
  i_bbmd : f_bbmd (p_dev s) = Some (b_addr (p_bbmd s));
  i_ttl : f_ttl (p_dev s) = Some T;
  i_status : f_status (p_dev s) <> -2;
  i_nodup : NoDup (addrs (b_fdt (p_bbmd s)));
  i_ahead : ahead (p_dev s) }.

(* registered and acknowledged: the state after at least one round *)
Record alive (me : addr) (T : Z) (last : list bev) (s : pair) : Prop := mkAlive {
  a_inv : inv me T s;
  a_status : f_status (p_dev s) = 0;
  a_armed : exists r e, f_renew (p_dev s) = Some r /\ f_expire (p_dev s) = Some e /\ r + 30000 <= e;
  a_entry : find (b_fdt (p_bbmd s)) me = Some (mkFdte me (Z.to_N T) (Z.to_N T + 5 - ticks last)) }.

Lemma find_addr : forall t a x, find t a = Some x -> fd_addr x = a.
Proof.
  induction t as [|e r IH]; intros a x H; cbn [find] in H; [discriminate|].
  destruct (addr_eqb a (fd_addr e)) eqn:E.
  - inversion H; subst. apply addr_eqb_eq in E. congruence.
  - apply IH. exact H.
Qed.

Lemma round_ok : forall me T d es s,
  0 < T < 65536 -> 0 <= d < 30000 -> Forall (quiet me) es -> (ticks es < Z.to_N T + 5)%N ->
  inv me T s ->
  exists s', pair_round me d es s = Ok s' /\ alive me T es s' /\
    (* no expiry fired in this round: the device is the one the round started with, apart from
       the two timers and the status set by the acknowledgement *)
    (exists r, f_renew (p_dev s) = Some r /\ fire_expiry r (p_dev s) = p_dev s /\
               f_renew (p_dev s') = Some (r + T * 1000) /\
               f_expire (p_dev s') = Some (r + d + (T + 30) * 1000)).
Proof.
  intros me T d es [f b] HT Hd Q K [Hb Ht Hs Hn [r [Hr He]]]. cbn [p_dev p_bbmd] in *.
  unfold pair_round. cbn [p_dev p_bbmd]. rewrite Hr.
  assert (fire_expiry r f = f) as F1.
  { destruct He as [He|[e [He L]]]; [apply fire_expiry_none; exact He | apply (fire_expiry_ahead _ _ e He); lia]. }
  rewrite F1. unfold foreign_renew. rewrite Hb, Ht. cbn [bind fst snd].
  assert ((Z.to_N T mod 65536)%N = Z.to_N T) as -> by (apply N.mod_small; lia).
  cbn [to_station flat_map app]. rewrite addr_eqb_refl. cbn [app feed_bbmd bbmd_confirmation].
  cbn [to_station flat_map app]. rewrite addr_eqb_refl. cbn [app feed_dev].
  set (f1 := mkForeign (f_status f) (Some (b_addr b)) (Some T) (Some (r + T * 1000)) (f_expire f)).
  assert (fire_expiry (r + d) f1 = f1) as F2.
  { destruct He as [He|[e [He L]]]; [apply (fire_expiry_none (r + d) f1 He) | apply (fire_expiry_ahead (r + d) f1 e He); lia]. }
  rewrite F2. unfold foreign_confirmation, f1. cbn [f_status f_bbmd f_ttl f_renew f_expire].
  assert ((f_status f =? -2) = false) as -> by lia. rewrite addr_eqb_refl. cbn [negb N.eqb bind fst snd].
  eexists. split; [reflexivity|].
  set (b1 := mkBbmd (b_addr b) (b_bdt b) (fdt_register (b_fdt b) me (Z.to_N T)) (b_upper b)).
  assert (NoDup (addrs (b_fdt b1))) as N1 by (apply register_nodup; exact Hn).
  pose proof (registered_entry b me (DStation (b_addr b)) (Z.to_N T) es Hn Q) as Fd.
  cbn [bbmd_step bbmd_confirmation fst] in Fd. fold b1 in Fd.
  assert ((ticks es <? Z.to_N T + 5)%N = true) as E by lia. rewrite E in Fd.
  split; [|exists r; cbn [p_dev f_renew f_expire]; split; [reflexivity|]; split; [exact F1|]; split; [reflexivity|]; f_equal; lia].
  constructor; cbn [p_dev p_bbmd f_status f_renew f_expire f_bbmd f_ttl].
  - constructor; cbn [p_dev p_bbmd f_status f_renew f_expire f_bbmd f_ttl].
    + rewrite run_addr. reflexivity.
    + reflexivity.
    + lia.
    + apply run_nodup. exact N1.
    + exists (r + T * 1000). split; [reflexivity|]. right. eexists. split; [reflexivity|]. lia.
  - reflexivity.
  - do 2 eexists. split; [reflexivity|]. split; [reflexivity|]. lia.
  - exact Fd.
Qed.

Definition round_fine (me : addr) (T : Z) (x : Z * list bev) : Prop :=
  0 <= fst x < 30000 /\ Forall (quiet me) (snd x) /\ (ticks (snd x) < Z.to_N T + 5)%N.

Theorem pair_alive : forall me T rounds s d es,
  0 < T < 65536 -> inv me T s -> Forall (round_fine me T) (rounds ++ [(d, es)]) ->
  exists s', pair_run me (rounds ++ [(d, es)]) s = Ok s' /\ alive me T es s'.
Proof.
  intros me T rounds. induction rounds as [|[d0 es0] r IH]; intros s d es HT I F.
  - cbn [app] in *. inversion F as [|? ? [Hd [Q K]] _]; subst. cbn [fst snd] in *.
    destruct (round_ok me T d es s HT Hd Q K I) as [s' [E [A _]]].
    exists s'. cbn [pair_run]. rewrite E. cbn [bind]. split; [reflexivity|exact A].
  - cbn [app] in F. inversion F as [|? ? [Hd [Q K]] F']; subst. cbn [fst snd] in *.
    destruct (round_ok me T d0 es0 s HT Hd Q K I) as [s1 [E [A _]]].
    destruct (IH s1 d es HT (a_inv _ _ _ _ A) F') as [s' [E' A']].
    exists s'. cbn [app pair_run]. rewrite E. cbn [bind]. split; [exact E'|exact A'].
Qed.

Theorem no_expiry_while_renewing : forall me T last s, alive me T last s ->
  exists r, f_renew (p_dev s) = Some r /\
    forall t, t < r + 30000 -> fire_expiry t (p_dev s) = p_dev s /\ f_status (fire_expiry t (p_dev s)) = 0.
Proof.
  intros me T last s A. destruct (a_armed _ _ _ _ A) as [r [e [Hr [He L]]]]. exists r. split; [exact Hr|].
  intros t Lt. rewrite (fire_expiry_ahead t _ e He) by lia. split; [reflexivity|apply (a_status _ _ _ _ A)].
Qed.

Theorem alive_is_served : forall me T last s o p now d, alive me T last s ->
  In (Down (DStation me) (Forwarded o p)) (snd (bbmd_confirmation (p_bbmd s) o DBcast (OrigBroadcast p))) /\
  foreign_confirmation now (p_dev s) (b_addr (p_bbmd s)) d (Forwarded o p) = Ok (p_dev s, [Up o DBcast p]) /\
  foreign_indication (p_dev s) DBcast p = Ok [Down (DStation (b_addr (p_bbmd s))) (Distribute p)].
Proof.
  intros me T last s o p now d A. pose proof (a_inv _ _ _ _ A) as I.
  split; [|split].
  - apply served_iff_listed. rewrite find_listed, (a_entry _ _ _ _ A). reflexivity.
  - rewrite (foreign_accepts_from_bbmd now _ _ d o p _ (i_bbmd _ _ _ I)).
    rewrite (a_status _ _ _ _ A), addr_eqb_refl. reflexivity.
  - unfold foreign_indication. rewrite (a_status _ _ _ _ A), (i_bbmd _ _ _ I). reflexivity.
Qed.

Theorem register_gives_inv : forall me T f f' b,
  foreign_register f (b_addr b) T = Ok f' -> NoDup (addrs (b_fdt b)) -> inv me T (mkPair f' b) /\ 0 < T.
Proof.
  intros me T f f' b H N. unfold foreign_register in H. destruct (T <=? 0) eqn:E; [discriminate|].
  inversion H; subst. split; [|lia]. constructor; cbn [p_dev p_bbmd f_bbmd f_ttl f_status f_renew f_expire].
  - reflexivity.
  - reflexivity.
  - destruct (f_status f =? -2) eqn:S; lia.
  - exact N.
  - exists 0. split; [reflexivity|]. left. reflexivity.
Qed.

Open Scope N_scope.

Theorem tick_listed : forall t a,
  listed (fdt_tick t) a = true <-> exists e, In e t /\ fd_addr e = a /\ 1 < fd_remain e.
Proof.
  intros t a. rewrite tick_ages_every_entry, listed_In. unfold addrs. rewrite map_map. cbn [dec fd_addr].
  rewrite in_map_iff. split.
  - intros [e [E I]]. apply filter_In in I. destruct I as [I R]. exists e. repeat split; [exact I|exact E|lia].
  - intros [e [I [E R]]]. exists e. split; [exact E|]. apply filter_In. split; [exact I|lia].
Qed.

(* entries whose time runs out in the same tick all go in that tick *)
Theorem same_tick_expiry : forall t a,
  (forall e, In e t -> fd_addr e = a -> fd_remain e <= 1) -> listed (fdt_tick t) a = false.
Proof.
  intros t a H. destruct (listed (fdt_tick t) a) eqn:L; [|reflexivity].
  apply tick_listed in L. destruct L as [e [I [E R]]]. specialize (H e I E). lia.
Qed.

Fixpoint register_all (b : bbmd) (d : dest) (T : N) (srcs : list addr) : bbmd :=
  match srcs with
  | [] => b
  | s :: r => register_all (fst (bbmd_step b (BConf s d (RegisterFD T)))) d T r
  end.

Lemma register_all_spec : forall srcs b d T,
  register_all b d T srcs = bbmd_run b (map (fun s => BConf s d (RegisterFD T)) srcs).
Proof. induction srcs as [|s r IH]; intros; [reflexivity|]. cbn [register_all map]. rewrite IH. reflexivity. Qed.

Lemma registers_no_tick : forall (d : dest) (T : N) l,
  filter is_tick (map (fun s0 => BConf s0 d (RegisterFD T)) l) = [].
Proof. induction l as [|x l IH]; [reflexivity|]. cbn [map filter is_tick]. exact IH. Qed.

Theorem group_expiry : forall srcs b d T es,
  NoDup (addrs (b_fdt b)) -> NoDup srcs ->
  (forall s, In s srcs -> Forall (quiet s) es) ->
  forall s, In s srcs ->
  listed (b_fdt (bbmd_run (register_all b d T srcs) es)) s = (ticks es <? T + 5).
Proof.
  intros srcs b d T es N ND Q s I.
  apply in_split in I. destruct I as [l1 [l2 ->]].
  rewrite register_all_spec, map_app. cbn [map]. rewrite run_app, run_cons, <- run_app.
  set (b0 := bbmd_run b (map (fun s0 => BConf s0 d (RegisterFD T)) l1)).
  assert (NoDup (addrs (b_fdt b0))) as N0 by (apply run_nodup; exact N).
  assert (Forall (quiet s) (map (fun s0 => BConf s0 d (RegisterFD T)) l2 ++ es)) as Q2.
  { apply Forall_app. split; [|apply Q; apply in_or_app; right; left; reflexivity].
    apply Forall_forall. intros e Ie. apply in_map_iff in Ie. destruct Ie as [x [<- Ix]]. cbn [quiet].
    apply NoDup_remove_2 in ND. intros ->. apply ND. apply in_or_app. right. exact Ix. }
  assert (ticks (map (fun s0 => BConf s0 d (RegisterFD T)) l2 ++ es) = ticks es) as Tk.
  { unfold ticks. rewrite filter_app, registers_no_tick. reflexivity. }
  rewrite find_listed, (registered_entry b0 s d T _ N0 Q2), Tk.
  destruct (ticks es <? T + 5); reflexivity.
Qed.

Lemma ttl_over_16_bits_witness :
  exists me T f' b d es s',
    foreign_register (mkForeign (-1) None None None None) (b_addr b) T = Ok f' /\
    inv me T (mkPair f' b) /\ round_fine me T (d, es) /\ (65536 <= T)%Z /\
    pair_run me [(d, es)] (mkPair f' b) = Ok s' /\
    f_status (p_dev s') = 0%Z /\ listed (b_fdt (p_bbmd s')) me = false.
Proof.
  exists (mkA 180879400 47808), 65537%Z. eexists.
  exists (mkBbmd (mkA 167837954 47808) [] [] true), 0%Z, [BTick; BTick; BTick; BTick; BTick; BTick]. eexists.
  split; [reflexivity|]. split.
  - apply (register_gives_inv _ 65537%Z (mkForeign (-1) None None None None)); [reflexivity|constructor].
  - split; [split; [cbn; lia|split; [repeat constructor|vm_compute; reflexivity]]|].
    split; [lia|]. split; [vm_compute; reflexivity|]. split; vm_compute; reflexivity.
Qed.

Theorem foreign_drops_original_broadcast : forall now f s d p,
  foreign_confirmation now f s d (OrigBroadcast p) = Ok (f, []).
Proof. reflexivity. Qed.

Theorem foreign_up_only_from_bbmd : forall now f s d m f' acts src p,
  foreign_confirmation now f s d m = Ok (f', acts) -> In (Up src DBcast p) acts ->
  (exists a, m = Forwarded a p /\ src = a /\ f_bbmd f = Some s /\ f_status f = 0%Z) \/
  (m = OrigUnicast p /\ d = DBcast /\ src = s).
Proof.
  intros now f s d m f' acts src p H I. destruct m; cbn [foreign_confirmation] in H;
    (* answered by a NAK, or passed to the service element: nothing goes up *)
    try (inversion H; subst; cbn [nak In] in I; destruct I as [I|[]]; discriminate).
  - destruct (f_status f =? -2)%Z; [inversion H; subst; destruct I|].
    destruct (f_bbmd f); [|discriminate]. destruct (negb (addr_eqb s a)); [inversion H; subst; destruct I|].
    destruct (code =? 0); [destruct (f_ttl f); [|discriminate]|]; inversion H; subst; destruct I.
  - destruct (negb (f_status f =? 0)%Z) eqn:S; [inversion H; subst; destruct I|].
    destruct (f_bbmd f) as [b|] eqn:B; [|discriminate].
    destruct (negb (addr_eqb s b)) eqn:E; inversion H; subst; [destruct I|].
    cbn [In] in I. destruct I as [I|[]]. inversion I; subst. left. exists src. repeat split.
    + apply negb_false_iff in E. apply addr_eqb_eq in E. congruence.
    + lia.
  - inversion H; subst. cbn [In] in I. destruct I as [I|[]]. inversion I; subst. right. auto.
  - inversion H; subst. destruct I.
Qed.
