(* NpciFacts.v — lemmas about the header codec of Npci.v: layout, round trip, refusals. *)
From Bac Require Import Base BytesFacts Npci.
Open Scope N_scope.

Definition ctl (bn bd bs be : bool) (p : N) : N :=
  let c0 := N.lor (N.lor (if bn then 0x80 else 0) (if bd then 0x20 else 0)) (if bs then 0x08 else 0) in
  let c1 := if be then N.lor c0 0x04 else c0 in
  N.lor c1 (N.land p 0x03).

Lemma control_of_ctl h :
  control_of h = ctl (is_some (nmsg h)) (is_some (dadr h)) (is_some (sadr h)) (er h) (prio h).
Proof.
  unfold control_of, ctl. destruct (nmsg h), (dadr h), (sadr h); reflexivity.
Qed.

Lemma small4 p : p < 4 -> p = 0 \/ p = 1 \/ p = 2 \/ p = 3.
Proof. lia. Qed.

Lemma ctl_spec bn bd bs be p : p < 4 ->
  let c := ctl bn bd bs be p in
  c = 128 * b2n bn + 32 * b2n bd + 8 * b2n bs + 4 * b2n be + p
  /\ c < 256
  /\ negb (N.land c 0x80 =? 0) = bn
  /\ negb (N.land c 0x20 =? 0) = bd
  /\ negb (N.land c 0x08 =? 0) = bs
  /\ negb (N.land c 0x04 =? 0) = be
  /\ N.land c 0x03 = p
  /\ N.land c 0x50 = 0.
Proof.
  intros Hp. destruct (small4 p Hp) as [-> | [-> | [-> | ->]]];
    destruct bn, bd, bs, be; vm_compute; repeat split; reflexivity.
Qed.

Lemma ctl_any bn bd bs be p :
  ctl bn bd bs be p = ctl bn bd bs be (p mod 4).
Proof.
  unfold ctl. f_equal. change 3 with (N.ones 2). rewrite !N.land_ones.
  change (2 ^ 2) with 4. rewrite N.mod_mod by lia. reflexivity.
Qed.

Lemma get_short_two a b r : get_short (a :: b :: r) = Ok (a * 256 + b, r).
Proof. reflexivity. Qed.

Lemma enc_dadr_spec a : wf_dadr a = true -> enc_dadr a = Ok (spec_addr a).
Proof.
  destruct a as [net mac | net | ]; cbn [wf_dadr enc_dadr spec_addr]; intros H.
  - unfold wf_station in H. rewrite put_ok by lia. cbn [bind].
    rewrite put_short_small by lia. reflexivity.
  - rewrite put_short_small by lia. reflexivity.
  - reflexivity.
Qed.

(* what the encoder needs of a source: a station whose fields fit (the decoder asks for more: wf_sadr) *)
Definition sadr_fits (a : addr) : bool :=
  match a with RStation net mac => (net <? 65536) && (lenN mac <? 256) | _ => false end.

Lemma wf_sadr_fits a : wf_sadr a = true -> sadr_fits a = true.
Proof. destruct a as [net mac | net | ]; cbn [wf_sadr sadr_fits]; [unfold wf_station; lia|discriminate..]. Qed.

Lemma enc_sadr_spec a : sadr_fits a = true -> enc_sadr a = Ok (spec_addr a).
Proof.
  destruct a as [net mac | net | ]; cbn [sadr_fits enc_sadr spec_addr]; intros H; try discriminate.
  rewrite put_ok by lia. cbn [bind]. rewrite put_short_small by lia. reflexivity.
Qed.

Lemma dec_dadr_spec a r : wf_dadr a = true -> dec_dadr (spec_addr a ++ r) = Ok (a, r).
Proof.
  destruct a as [net mac | net | ]; cbn [wf_dadr spec_addr]; intros H.
  - unfold wf_station in H. unfold dec_dadr.
    cbn [app]. rewrite get_short_net. cbn [bind get].
    rewrite get_data_app. cbn [bind].
    destruct (net =? 65535) eqn:E1; [lia|].
    destruct (lenN mac =? 0) eqn:E2; [lia|]. reflexivity.
  - unfold dec_dadr. cbn [app]. rewrite get_short_net. cbn [bind get].
    unfold get_data. destruct (lenN r <? 0) eqn:E0; [lia|]. cbn [N.to_nat firstn skipn bind].
    destruct (net =? 65535) eqn:E1; [lia|]. reflexivity.
  - unfold dec_dadr. cbn [app get_short bind get].
    unfold get_data. destruct (lenN r <? 0) eqn:E0; [lia|]. cbn [N.to_nat firstn skipn bind].
    reflexivity.
Qed.

Lemma dec_sadr_spec a r : wf_sadr a = true -> dec_sadr (spec_addr a ++ r) = Ok (a, r).
Proof.
  destruct a as [net mac | net | ]; cbn [wf_sadr spec_addr]; intros H; try discriminate.
  unfold wf_station in H. unfold dec_sadr.
  cbn [app]. rewrite get_short_net. cbn [bind get].
  rewrite get_data_app. cbn [bind].
  destruct (net =? 65535) eqn:E1; [lia|].
  destruct (lenN mac =? 0) eqn:E2; [lia|]. reflexivity.
Qed.

Lemma dec_sadr_bad net mac r :
  net < 65536 -> lenN mac < 256 -> (net = 65535 \/ mac = []) ->
  dec_sadr (spec_addr (RStation net mac) ++ r) = Err DecodingError.
Proof.
  intros Hn Hl Hbad. unfold dec_sadr. cbn [spec_addr app].
  rewrite get_short_net. cbn [bind get].
  rewrite get_data_app. cbn [bind].
  destruct (net =? 65535) eqn:E1; [reflexivity|].
  destruct Hbad as [->| ->]; [lia|]. reflexivity.
Qed.

Lemma spec_control_ctl h : prio h < 4 -> control_of h = spec_control h /\ control_of h < 256.
Proof.
  intros Hp. rewrite control_of_ctl.
  destruct (ctl_spec (is_some (nmsg h)) (is_some (dadr h)) (is_some (sadr h)) (er h) (prio h) Hp)
    as (E & L & _). split; [exact E | exact L].
Qed.

Ltac split_wf H :=
  unfold wf_npci in H;
  repeat match type of H with (_ && _) = true => let H' := fresh "W" in apply andb_true_iff in H as [H H'] end.

Definition with_sadr (h : npci) (s : option addr) : npci :=
  mkNpci (ver h) (er h) (prio h) (dadr h) s (hop h) (nmsg h) (vendor h).

Lemma wf_npci_sadr h : wf_npci h = true -> wf_npci (with_sadr h None) = true /\ wf_opt wf_sadr (sadr h) = true.
Proof.
  unfold wf_npci, with_sadr. cbn [Npci.ver Npci.prio Npci.dadr Npci.sadr Npci.hop Npci.nmsg Npci.vendor wf_opt].
  destruct (wf_opt wf_sadr (sadr h)); intros H; [split; [exact H|reflexivity]|].
  rewrite andb_false_r in H. discriminate.
Qed.

Lemma enc_npci_layout h : wf_npci (with_sadr h None) = true -> wf_opt sadr_fits (sadr h) = true ->
  enc_npci h = Ok (spec6_2 h).
Proof.
  intros H Ws. split_wf H. unfold with_sadr in *.
  cbn [Npci.ver Npci.er Npci.prio Npci.dadr Npci.sadr Npci.hop Npci.nmsg Npci.vendor] in *.
  destruct (spec_control_ctl h ltac:(lia)) as [Ec Lc].
  unfold enc_npci, spec6_2.
  rewrite (put_ok (ver h)) by lia. cbn [bind].
  rewrite put_ok by exact Lc. cbn [bind]. rewrite Ec.
  replace (ver h) with 1 by lia.
  destruct h as [v e p d s hp m vd]; cbn [Npci.ver Npci.er Npci.prio Npci.dadr Npci.sadr Npci.hop Npci.nmsg Npci.vendor] in *.
  assert (Hd : match d with Some a => enc_dadr a | None => Ok [] end = Ok (opt_list d spec_addr)).
  { destruct d as [a|]; cbn [wf_opt opt_list] in *; [apply enc_dadr_spec; assumption | reflexivity]. }
  assert (Hs : match s with Some a => enc_sadr a | None => Ok [] end = Ok (opt_list s spec_addr)).
  { destruct s as [a|]; cbn [wf_opt opt_list] in *; [apply enc_sadr_spec; assumption | reflexivity]. }
  rewrite Hd, Hs. cbn [bind].
  assert (Hh : match d with Some _ => put_opt hp | None => Ok [] end = Ok (opt_list hp (fun x => [x]))).
  { destruct d, hp; try discriminate; cbn [put_opt opt_list]; [apply put_ok; lia | reflexivity]. }
  rewrite Hh. cbn [bind].
  destruct m as [t|], vd as [vv|]; try discriminate; cbn [opt_list bind].
  - apply andb_true_iff in W as [Wt Wv].
    assert (t < 256) by (unfold is_vendor_type in Wt; lia).
    rewrite put_ok by assumption. cbn [bind]. rewrite Wt.
    rewrite put_short_small by lia. rewrite ?app_nil_r; reflexivity.
  - assert (Ht : t < 128) by lia.
    rewrite put_ok by lia. cbn [bind].
    assert (is_vendor_type t = false) as -> by (unfold is_vendor_type; lia).
    rewrite ?app_nil_r; reflexivity.
  - rewrite ?app_nil_r; reflexivity.
Qed.

Lemma enc_npci_spec h : wf_npci h = true -> enc_npci h = Ok (spec6_2 h).
Proof.
  intros H. destruct (wf_npci_sadr h H) as [W Ws]. apply enc_npci_layout; [exact W|].
  destruct (sadr h); [apply wf_sadr_fits; exact Ws|reflexivity].
Qed.

Lemma dec_opt_spec {A} (wf : A -> bool) (lay : A -> list N) f :
  (forall a r, wf a = true -> f (lay a ++ r) = Ok (a, r)) ->
  forall o r, wf_opt wf o = true -> dec_opt (is_some o) f (opt_list o lay ++ r) = Ok (o, r).
Proof.
  intros F [a|] r H; cbn [wf_opt is_some opt_list dec_opt app] in *; [|reflexivity].
  rewrite F by exact H. reflexivity.
Qed.

Lemma dec_opt_hop hp r :
  dec_opt (is_some hp) get (opt_list hp (fun x => [x]) ++ r) = Ok (hp, r).
Proof. destruct hp; reflexivity. Qed.

Definition wf_mv (m vd : option N) : bool :=
  match m, vd with
  | Some t, Some v => is_vendor_type t && (v <? 65536)
  | Some t, None => t <? 128
  | None, None => true
  | None, Some _ => false
  end.

Lemma dec_opt_mt m vd r : wf_mv m vd = true ->
  dec_opt (is_some m) dec_mt
    (opt_list m (fun t => [t]) ++ opt_list vd (fun v => [v / 256; v mod 256]) ++ r)
  = Ok (match m with Some t => Some (t, vd) | None => None end, r).
Proof.
  destruct m as [t|], vd as [v|]; cbn [wf_mv is_some opt_list dec_opt app]; intros H; try discriminate.
  - apply andb_true_iff in H as [Ht Hv]. unfold dec_mt. cbn [get bind]. rewrite Ht.
    rewrite get_short_net. reflexivity.
  - unfold dec_mt. cbn [get bind].
    assert (is_vendor_type t = false) as -> by (unfold is_vendor_type; lia). reflexivity.
  - reflexivity.
Qed.

Lemma dec_npci_fields h rest : prio h < 4 ->
  dec_npci (1 :: spec_control h :: rest) =
  do (d, r3) <- dec_opt (is_some (dadr h)) dec_dadr rest;
  do (s, r4) <- dec_opt (is_some (sadr h)) dec_sadr r3;
  do (hp, r5) <- dec_opt (is_some (dadr h)) get r4;
  do (mv, r6) <- dec_opt (is_some (nmsg h)) dec_mt r5;
  Ok (spec_control h, mkNpci 1 (er h) (prio h) d s hp (option_map fst mv)
                        (match mv with Some (_, vd) => vd | None => None end), r6).
Proof.
  intros Hp. destruct (spec_control_ctl h Hp) as [Ec Lc].
  destruct (ctl_spec (is_some (nmsg h)) (is_some (dadr h)) (is_some (sadr h)) (er h) (prio h) Hp)
    as (_ & _ & Bn & Bd & Bs & Be & Bp & _).
  rewrite <- control_of_ctl in Bn, Bd, Bs, Be, Bp. rewrite Ec in Bn, Bd, Bs, Be, Bp.
  unfold dec_npci. rewrite !lenN_cons.
  destruct (1 + (1 + lenN _) <? 2) eqn:EL; [lia|]. clear EL.
  cbn [get bind N.eqb Pos.eqb negb]. cbv zeta.
  rewrite Bn, Bd, Bs, Be, Bp. reflexivity.
Qed.

Lemma dec_npci_spec h payload : wf_npci h = true ->
  dec_npci (spec6_2 h ++ payload) = Ok (spec_control h, h, payload).
Proof.
  intros H. split_wf H.
  unfold spec6_2. cbn [app]. rewrite dec_npci_fields by lia. rewrite <- !app_assoc.
  destruct h as [v e p d s hp m vd];
    cbn [Npci.ver Npci.er Npci.prio Npci.dadr Npci.sadr Npci.hop Npci.nmsg Npci.vendor] in *.
  rewrite (dec_opt_spec _ _ _ dec_dadr_spec) by assumption. cbn [bind].
  rewrite (dec_opt_spec _ _ _ dec_sadr_spec) by assumption. cbn [bind].
  assert (Eh : is_some d = is_some hp) by (destruct d, hp; try discriminate; reflexivity).
  rewrite Eh, dec_opt_hop. cbn [bind].
  rewrite dec_opt_mt by exact W. cbn [bind].
  assert (v = 1) as -> by lia.
  destruct m as [t|]; cbn [option_map fst]; [reflexivity|].
  destruct vd; [discriminate | reflexivity].
Qed.

Lemma npci_roundtrip h payload : wf_npci h = true ->
  exists bs, enc_npci h = Ok bs /\ dec_npci (bs ++ payload) = Ok (control_of h, h, payload).
Proof.
  intros H. exists (spec6_2 h). split; [apply enc_npci_spec; assumption|].
  rewrite dec_npci_spec by assumption.
  assert (Hp : prio h < 4) by (split_wf H; lia).
  destruct (spec_control_ctl h Hp) as [-> _]. reflexivity.
Qed.

Lemma dec_npci_version bs : (forall r, bs <> 1 :: r) -> dec_npci bs = Err DecodingError.
Proof.
  intros H. unfold dec_npci. destruct (lenN bs <? 2); [reflexivity|].
  destruct bs as [|v r]; [reflexivity|]. cbn [get bind].
  destruct (v =? 1) eqn:E; [|reflexivity].
  exfalso. apply (H r). f_equal. lia.
Qed.

Lemma dec_npci_bad_sadr h net mac payload :
  wf_npci (with_sadr h None) = true -> net < 65536 -> lenN mac < 256 -> (net = 65535 \/ mac = []) ->
  dec_npci (spec6_2 (with_sadr h (Some (RStation net mac))) ++ payload) = Err DecodingError.
Proof.
  intros H Hn Hl Hbad. split_wf H. unfold with_sadr in *.
  cbn [Npci.ver Npci.er Npci.prio Npci.dadr Npci.sadr Npci.hop Npci.nmsg Npci.vendor] in *.
  unfold spec6_2. cbn [app]. rewrite dec_npci_fields by (cbn [prio]; lia). rewrite <- !app_assoc.
  cbn [Npci.dadr Npci.sadr is_some].
  rewrite (dec_opt_spec _ _ _ dec_dadr_spec) by assumption. cbn [bind].
  cbn [opt_list dec_opt]. rewrite dec_sadr_bad by assumption. reflexivity.
Qed.

Lemma enc_npci_bad_sadr h net mac :
  wf_npci (with_sadr h None) = true -> net < 65536 -> lenN mac < 256 ->
  enc_npci (with_sadr h (Some (RStation net mac))) = Ok (spec6_2 (with_sadr h (Some (RStation net mac)))).
Proof. intros H Hn Hl. apply enc_npci_layout; [exact H|]. cbn [with_sadr sadr wf_opt sadr_fits]. lia. Qed.

Lemma dec_dadr_reader : reader dec_dadr.
Proof.
  unfold dec_dadr. apply reader_bind; [exact get_short_reader|intros dnet].
  apply reader_bind; [exact get_reader|intros dlen].
  apply reader_bind; [apply get_data_reader|intros mac]. apply reader_ret.
Qed.

Lemma dec_sadr_reader : reader dec_sadr.
Proof.
  unfold dec_sadr. apply reader_bind; [exact get_short_reader|intros snet].
  apply reader_bind; [exact get_reader|intros slen].
  apply reader_bind; [apply get_data_reader|intros mac].
  apply reader_if; [apply reader_err|]. apply reader_if; [apply reader_err|apply reader_ret].
Qed.

Lemma dec_mt_reader : reader dec_mt.
Proof.
  unfold dec_mt. apply reader_bind; [exact get_reader|intros t]. apply reader_if; [|apply reader_ret].
  apply reader_bind; [exact get_short_reader|intros vd]. apply reader_ret.
Qed.

Lemma dec_opt_reader {A} b (f : list N -> res (A * list N)) : reader f -> reader (dec_opt b f).
Proof.
  intros F. unfold dec_opt. apply reader_if; [|apply reader_ret].
  apply reader_bind; [exact F|intros x]. apply reader_ret.
Qed.

Lemma dec_npci_reader : reader dec_npci.
Proof.
  unfold dec_npci. apply reader_min_len. apply reader_bind; [exact get_reader|intros v].
  apply reader_if; [apply reader_err|]. apply reader_bind; [exact get_reader|intros c]. cbv zeta.
  apply reader_bind; [apply dec_opt_reader, dec_dadr_reader|intros d].
  apply reader_bind; [apply dec_opt_reader, dec_sadr_reader|intros s].
  apply reader_bind; [apply dec_opt_reader, get_reader|intros hp].
  apply reader_bind; [apply dec_opt_reader, dec_mt_reader|intros mv]. apply reader_ret.
Qed.

Lemma npci_truncated h k : wf_npci h = true -> (k < length (spec6_2 h))%nat ->
  dec_npci (firstn k (spec6_2 h)) = Err DecodingError.
Proof.
  intros H Hk. pose proof (dec_npci_spec h [] H) as S. rewrite app_nil_r in S.
  exact (truncated_refused _ _ _ _ dec_npci_reader S Hk).
Qed.

Definition src_ok (s : option addr) : Prop :=
  match s with
  | None => True
  | Some (RStation net mac) => net <> 65535 /\ mac <> []
  | Some _ => False
  end.

Lemma dec_sadr_ok bs a r : dec_sadr bs = Ok (a, r) -> src_ok (Some a).
Proof.
  unfold dec_sadr. intros H.
  destruct (get_short bs) as [[snet q1]|] eqn:E1; cbn [bind] in H; [|discriminate].
  destruct (get q1) as [[slen q2]|] eqn:E2; cbn [bind] in H; [|discriminate].
  destruct (get_data slen q2) as [[mac q3]|] eqn:E3; cbn [bind] in H; [|discriminate].
  destruct (snet =? 65535) eqn:F1; [discriminate|]. destruct (slen =? 0) eqn:F2; [discriminate|].
  injection H as <- <-. cbn [src_ok]. split; [lia|].
  apply get_data_ok in E3 as [_ L]. intros ->. unfold lenN in L. cbn [length] in L. lia.
Qed.

Lemma dec_opt_inv {A} b (f : list N -> res (A * list N)) bs o r : dec_opt b f bs = Ok (o, r) ->
  (b = true /\ exists x, o = Some x /\ f bs = Ok (x, r)) \/ (b = false /\ o = None /\ r = bs).
Proof.
  unfold dec_opt. destruct b; [|intros H; injection H as <- <-; right; repeat split].
  destruct (f bs) as [[x q]|]; cbn [bind]; intros H; [|discriminate].
  injection H as <- <-. left. split; [reflexivity|]. exists x. split; reflexivity.
Qed.

Lemma dec_npci_ok_inv bs c h r : dec_npci bs = Ok (c, h, r) -> exists r2 d r3 s r4 hp r5 mv,
  bs = 1 :: c :: r2
  /\ dec_opt (negb (N.land c 32 =? 0)) dec_dadr r2 = Ok (d, r3)
  /\ dec_opt (negb (N.land c 8 =? 0)) dec_sadr r3 = Ok (s, r4)
  /\ dec_opt (negb (N.land c 32 =? 0)) get r4 = Ok (hp, r5)
  /\ dec_opt (negb (N.land c 128 =? 0)) dec_mt r5 = Ok (mv, r)
  /\ h = mkNpci 1 (negb (N.land c 4 =? 0)) (N.land c 3) d s hp (option_map fst mv)
                (match mv with Some (_, vd) => vd | None => None end).
Proof.
  unfold dec_npci. intros H.
  destruct (lenN bs <? 2); [discriminate|].
  destruct (get bs) as [[v r1]|] eqn:E1; cbn [bind] in H; [|discriminate].
  destruct (negb (v =? 1)) eqn:Ev; [discriminate|].
  destruct (get r1) as [[c' r2]|] eqn:E2; cbn [bind] in H; [|discriminate].
  cbv zeta in H. apply get_inv in E1 as ->. apply get_inv in E2 as ->.
  destruct (dec_opt _ dec_dadr r2) as [[d r3]|] eqn:E3; cbn [bind] in H; [|discriminate].
  destruct (dec_opt _ dec_sadr r3) as [[s r4]|] eqn:E4; cbn [bind] in H; [|discriminate].
  destruct (dec_opt _ get r4) as [[hp r5]|] eqn:E5; cbn [bind] in H; [|discriminate].
  destruct (dec_opt _ dec_mt r5) as [[mv r6]|] eqn:E6; cbn [bind] in H; [|discriminate].
  injection H as <- <- <-. assert (v = 1) as -> by lia.
  exists r2, d, r3, s, r4, hp, r5, mv. repeat split; assumption.
Qed.

Lemma npci_truncated_enc h bs k : wf_npci h = true -> enc_npci h = Ok bs -> (k < length bs)%nat ->
  dec_npci (firstn k bs) = Err DecodingError.
Proof.
  intros H E Hk. rewrite enc_npci_spec in E by assumption. injection E as <-.
  apply npci_truncated; assumption.
Qed.

Lemma npci_bad_sadr h net mac payload :
  wf_npci (with_sadr h None) = true -> net < 65536 -> lenN mac < 256 -> (net = 65535 \/ mac = []) ->
  exists bs, enc_npci (with_sadr h (Some (RStation net mac))) = Ok bs
    /\ bs = spec6_2 (with_sadr h (Some (RStation net mac)))
    /\ dec_npci (bs ++ payload) = Err DecodingError.
Proof.
  intros H Hn Hl Hb. eexists. split; [apply enc_npci_bad_sadr; assumption|].
  split; [reflexivity|]. apply dec_npci_bad_sadr; assumption.
Qed.

Lemma npci_version_enc h bs v payload : wf_npci h = true -> enc_npci h = Ok bs -> v <> 1 ->
  dec_npci ((v :: tl bs) ++ payload) = Err DecodingError.
Proof.
  intros _ _ Hv. apply dec_npci_version. intros r E. cbn [app] in E. congruence.
Qed.

Lemma spec_addr_bytes a : wf_dadr a = true -> bytes_ok (spec_addr a) = true.
Proof.
  destruct a as [net mac|net|]; cbn [wf_dadr spec_addr app]; intros H;
    [|rewrite bytes_ok_short by lia; reflexivity|reflexivity].
  unfold wf_station in H. apply andb_true_iff in H as [H Hm]. rewrite bytes_ok_short by lia.
  apply bytes_ok_cons. split; [lia|exact Hm].
Qed.

Lemma enc_npci_bytes_ok h bs : wf_npci h = true -> enc_npci h = Ok bs -> bytes_ok bs = true.
Proof.
  intros H E. rewrite enc_npci_spec in E by assumption. injection E as <-. split_wf H.
  destruct (spec_control_ctl h ltac:(lia)) as [Ec Lc]. rewrite Ec in Lc.
  unfold spec6_2. rewrite !bytes_ok_app.
  destruct h as [v e p d s hp m vd];
    cbn [Npci.ver Npci.er Npci.prio Npci.dadr Npci.sadr Npci.hop Npci.nmsg Npci.vendor] in *.
  rewrite !andb_true_iff. repeat split.
  - apply bytes_ok_cons. split; [lia|]. apply bytes_ok_cons. split; [exact Lc|reflexivity].
  - destruct d as [a|]; cbn [opt_list wf_opt] in *; [apply spec_addr_bytes; assumption | reflexivity].
  - destruct s as [[net mac|net|]|]; cbn [opt_list wf_opt wf_sadr] in *; try discriminate; try reflexivity.
    apply spec_addr_bytes; assumption.
  - destruct d, hp; try discriminate; cbn [opt_list]; [apply bytes_ok_cons; split; [lia|reflexivity] | reflexivity].
  - destruct m as [t|], vd; try discriminate; cbn [opt_list]; try reflexivity;
      apply bytes_ok_cons; unfold is_vendor_type in *; (split; [lia|reflexivity]).
  - destruct m as [t|], vd; try discriminate; cbn [opt_list]; try reflexivity.
    rewrite bytes_ok_short by lia. reflexivity.
Qed.
