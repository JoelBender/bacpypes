(* NetRound.v — unicasts on a loop-free internetwork, there and back: a frame that follows a consistent route
   arrives (route_arrives_f), hence a unicast along the tree is delivered exactly once (tree_unicast_once), and the
   caches learned from its SADR route the reply back to the originator (tree_reply_routable).  Lemmas about Net.v,
   property C06. *)
From Bac Require Import Base Net NetFacts NetOnce NetRoute NetArrive NetLocal NetBcast NetTree.
Open Scope N_scope.

(* `arrives` with the node states at the end of the route *)
Inductive arrives_f (lns : list (N * list (nat * nat))) :
  list wnode -> frame -> nat -> addr -> addr -> list N -> list wnode -> mac -> Prop :=
| arrf_station : forall ns f who w m a sn sm,
    acceptor lns ns f who 0 w m ->
    adapters (w_node w) = [a] -> has_app (w_node w) = true ->
    n_msg (f_npdu f) = None -> n_dadr (f_npdu f) = None -> apdu_ok (n_data (f_npdu f)) = true ->
    n_sadr (f_npdu f) = Some (sn, sm) -> optN_eqb (a_net a) (Some sn) = false ->
    arrives_f lns ns f who (ARS sn sm) (ALS m) (n_data (f_npdu f))
              (set_nth ns who (mkW (learned (w_node w) a (f_src f) (f_npdu f)) (w_ports w))) (f_src f)
| arrf_last_router : forall ns f who i w m ai inet d dm j la lan' mj tgt s dd x nsf rt,
    acceptor lns ns f who i w m ->
    nth_adapter (w_node w) i = Some ai -> nth_adapter (w_node w) (local_idx (w_node w)) = Some la ->
    modelled_config (w_node w) = true -> is_router (w_node w) = true -> a_net ai = Some inet ->
    n_msg (f_npdu f) = None -> n_dadr (f_npdu f) = Some (DStation d dm) -> n_hop (f_npdu f) <> 0 ->
    (forall snet sm, n_sadr (f_npdu f) = Some (snet, sm) -> find_net (w_node w) (Some snet) = None) ->
    find_net (w_node w) (Some d) = Some j -> j <> i ->
    optN_eqb (Some d) (a_net ai) = false -> not_for_me la d dm = true ->
    nth_error (w_ports w) j = Some (lan', mj) ->
    arrives_f lns (set_nth ns who (mkW (learned (w_node w) ai (f_src f) (f_npdu f)) (w_ports w)))
            (mkFrame lan' mj (LStation dm)
               (mkNpdu None (Some (fwd_sadr inet (f_src f) (f_npdu f))) (n_hop (f_npdu f) - 1) None (n_data (f_npdu f))))
            tgt s dd x nsf rt ->
    arrives_f lns ns f tgt s dd x nsf rt
| arrf_router : forall ns f who i w m ai inet d dm j m' lan' mj tgt s dd x nsf rt,
    acceptor lns ns f who i w m ->
    nth_adapter (w_node w) i = Some ai ->
    modelled_config (w_node w) = true -> is_router (w_node w) = true -> a_net ai = Some inet ->
    n_msg (f_npdu f) = None -> n_dadr (f_npdu f) = Some (DStation d dm) -> n_hop (f_npdu f) <> 0 ->
    (forall snet sm, n_sadr (f_npdu f) = Some (snet, sm) -> find_net (w_node w) (Some snet) = None /\ snet <> d) ->
    find_net (w_node w) (Some d) = None -> find_path (w_node w) d = Some (j, m') ->
    nth_error (w_ports w) j = Some (lan', mj) ->
    arrives_f lns (set_nth ns who (mkW (learned (w_node w) ai (f_src f) (f_npdu f)) (w_ports w)))
            (mkFrame lan' mj (LStation m')
               (mkNpdu (n_dadr (f_npdu f)) (Some (fwd_sadr inet (f_src f) (f_npdu f))) (n_hop (f_npdu f) - 1) None
                       (n_data (f_npdu f))))
            tgt s dd x nsf rt ->
    arrives_f lns ns f tgt s dd x nsf rt.

Lemma arrives_f_arrives : forall lns ns f tgt s dd x nsf rt,
  arrives_f lns ns f tgt s dd x nsf rt -> arrives lns ns f tgt s dd x.
Proof.
  intros lns ns f tgt s dd x nsf rt H. induction H.
  - eapply arr_station; eauto.
  - eapply arr_last_router; eauto.
  - eapply arr_router; eauto.
Qed.

Definition delivered_last (tgt : nat) (s dd : addr) (x : list N) (rt : mac) (osn : list obs) : Prop :=
  oups osn = [OUp tgt s dd x] /\
  exists lf rest, osn = OUp tgt s dd x :: OFrame lf :: rest /\ f_src lf = rt /\ n_sadr (f_npdu lf) <> None.

Lemma delivered_last_frame : forall tgt s dd x rt osn g,
  delivered_last tgt s dd x rt osn -> delivered_last tgt s dd x rt (osn ++ [OFrame g]).
Proof.
  intros tgt s dd x rt osn g (A & lf & rest & B & C). split; [rewrite oups_frame; exact A|].
  exists lf, (rest ++ [OFrame g]). rewrite B. auto.
Qed.

Theorem route_arrives_f : forall lns ns f tgt s dd x nsf rt,
  arrives_f lns ns f tgt s dd x nsf rt ->
  forall w, lans w = lns -> nodes w = ns -> queue w = [f] ->
  exists k osn, queue (run k w) = [] /\ trace (run k w) = osn ++ trace w /\
                nodes (run k w) = nsf /\ delivered_last tgt s dd x rt osn.
Proof.
  intros lns ns f tgt s dd x nsf rt H. induction H; intros w0 Hl Hn Hq; subst lns ns.
  - pose proof (station_hands_up (w_node w) a (f_src f) (f_dst f) (f_npdu f) sn sm) as Hpr. feed Hpr.
    assert (He : emit (mkW (learned (w_node w) a (f_src f) (f_npdu f)) (w_ports w)) who
                      [Up (ARS sn sm) (ldest_to_addr (f_dst f)) (n_data (f_npdu f))]
                 = ([], [OUp who (ARS sn sm) (ldest_to_addr (f_dst f)) (n_data (f_npdu f))])) by reflexivity.
    pose proof (step_exact w0 f who 0 w m _ _ _ _ Hq H Hpr He) as Hs.
    assert (Hd : f_dst f = LStation m) by (destruct H as (Hd & _); exact Hd).
    exists 1%nat, [OUp who (ARS sn sm) (ALS m) (n_data (f_npdu f)); OFrame f]. cbn [run]. rewrite Hs. cbn [queue trace nodes].
    rewrite Hd. repeat split. exists f, []. split; [reflexivity|]. split; [reflexivity|congruence].
  - pose proof (last_router_forwards_unicast (w_node w) i ai inet (f_src f) (f_dst f) (f_npdu f) d dm j la) as Hpr. feed Hpr.
    pose proof (step_single_fwd w0 f who i w m _ _ _ _ lan' mj Hq H Hpr ltac:(assumption)) as Hs.
    apply (run_after_step (fun osn wf => nodes wf = nsf /\ delivered_last tgt s dd x rt osn) _ _ f Hs eq_refl);
      [|apply IHarrives_f; reflexivity].
    intros osn wf [A B]. split; [exact A|apply delivered_last_frame; exact B].
  - pose proof (router_forwards_unicast (w_node w) i ai inet (f_src f) (f_dst f) (f_npdu f) d dm j m') as Hpr. feed Hpr.
    pose proof (step_single_fwd w0 f who i w m _ _ _ _ lan' mj Hq H Hpr ltac:(assumption)) as Hs.
    apply (run_after_step (fun osn wf => nodes wf = nsf /\ delivered_last tgt s dd x rt osn) _ _ f Hs eq_refl);
      [|apply IHarrives_f; reflexivity].
    intros osn wf [A B]. split; [exact A|apply delivered_last_frame; exact B].
Qed.

Lemma arrives_arrives_f : forall lns ns f tgt s dd x,
  arrives lns ns f tgt s dd x -> exists nsf rt, arrives_f lns ns f tgt s dd x nsf rt.
Proof.
  intros lns ns f tgt s dd x H. induction H; [|destruct IHarrives as (nsf & rt & IH)..]; do 2 eexists;
    [eapply arrf_station|eapply arrf_last_router|eapply arrf_router]; eauto.
Qed.

Theorem route_arrives : forall lns ns f tgt s dd x,
  arrives lns ns f tgt s dd x ->
  forall w, lans w = lns -> nodes w = ns -> queue w = [f] ->
  exists k osn, queue (run k w) = [] /\ trace (run k w) = osn ++ trace w /\ oups osn = [OUp tgt s dd x].
Proof.
  intros lns ns f tgt s dd x H w Hl Hn Hq. destruct (arrives_arrives_f _ _ _ _ _ _ _ H) as (nsf & rt & Hf).
  destruct (route_arrives_f _ _ _ _ _ _ _ _ _ Hf w Hl Hn Hq) as (k & osn & A1 & A2 & _ & A3 & _). eauto.
Qed.

(* exactly once: after the delivery the run does not change any more *)
Corollary route_arrives_exactly_once : forall w f tgt s dd x,
  queue w = [f] -> arrives (lans w) (nodes w) f tgt s dd x ->
  exists k osn, queue (run k w) = [] /\ (forall k', (k <= k')%nat -> run k' w = run k w) /\
                trace (run k w) = osn ++ trace w /\ oups osn = [OUp tgt s dd x].
Proof.
  intros w f tgt s dd x Hq H.
  destruct (route_arrives _ _ _ _ _ _ _ H w eq_refl eq_refl Hq) as (k & osn & A1 & A2 & A3).
  exists k, osn. repeat split; auto. apply quiet_forever. assumption.
Qed.

(* C06_tree_unicast_once: loop-free towards d (tree_to), warm caches (in tree_to for the routers, explicit for the
   source station), any states otherwise *)
Theorem tree_unicast_once : forall w d lv up par src ws s smac a_s tgt wt dm a_t data mR,
  internet_ok (lans w) (nodes w) -> tree_to (lans w) (nodes w) d lv up par ->
  queue w = [] ->
  In (tgt, 0%nat) (lan_members (lans w) d) -> nth_error (nodes w) tgt = Some wt ->
  w_ports wt = [(d, dm)] -> adapters (w_node wt) = [a_t] -> (a_net a_t = None \/ a_net a_t = Some d) ->
  has_app (w_node wt) = true ->
  nth_error (nodes w) src = Some ws -> w_ports ws = [(s, smac)] -> adapters (w_node ws) = [a_s] ->
  (a_net a_s = None \/ a_net a_s = Some s) ->
  (0 < lv s <= 255)%nat ->
  pending_get (pending (w_node ws)) d = None ->
  port_mac (nodes w) (par s) = Some mR -> cache_get (rcache (w_node ws)) (a_net a_s) d = Some mR ->
  apdu_ok data = true ->
  let w0 := submit w src (ARS d dm) data in
  exists k osn, queue (run k w0) = [] /\ (forall k', (k <= k')%nat -> run k' w0 = run k w0) /\
                trace (run k w0) = osn ++ trace w /\ oups osn = [OUp tgt (ARS s smac) (ALS dm) data].
Proof.
  intros w d lv up par src ws s smac a_s tgt wt dm a_t data mR Hio Htt Hq Htgt Hwt Hwtp Hwta Hwtn Hwth
         Hws Hwsp Hwsa Hwsn Hlv Hpend HmR Hcache Hok w0.
  assert (Hsd : s <> d) by (intro E; subst s; rewrite (tt_root Htt) in Hlv; lia).
  set (f0 := mkFrame s smac (LStation mR) (mkNpdu (Some (DStation d dm)) None 255 None data)).
  assert (Hw0 : w0 = mkWorld (set_nth (nodes w) src (mkW (w_node ws) (w_ports ws))) (lans w) [f0] (trace w))
    by exact (station_submits_remote w src ws s smac a_s d _ _ dm mR data Hq Hws Hwsp Hwsa Hwsn Hsd Hpend Hcache
                (or_introl (conj eq_refl eq_refl))).
  assert (Harr : arrives (lans w0) (nodes w0) f0 tgt (ARS s smac) (ALS dm) data).
  { rewrite Hw0. cbn [lans nodes].
    destruct (lv s) as [|k] eqn:Ek; [lia|].
    pose proof (climb (lans w) (nodes w) d lv up par tgt wt dm a_t Hio Htt Htgt
                      (Build_station_at _ _ _ _ _ _ Hwt Hwtp Hwta Hwtn Hwth)
                      k (set_nth (nodes w) src (mkW (w_node ws) (w_ports ws))) f0 mR) as Hc.
    cbn [f0 f_lan f_src f_dst f_npdu n_msg n_dadr n_sadr n_hop n_data fwd_sadr fst snd] in Hc.
    apply Hc; try reflexivity; try assumption.
    - apply sim_set_same. assumption.
    - exists (src, 0%nat), smac. exact (port_of_station Hws Hwsp).
    - change (N.to_nat 255) with 255%nat. lia.
    - intros sn sm E. discriminate E. }
  assert (Hq0 : queue w0 = [f0]) by (rewrite Hw0; reflexivity).
  destruct (route_arrives_exactly_once w0 f0 tgt _ _ _ Hq0 Harr) as (k & osn & A1 & A2 & A3 & A4).
  exists k, osn. repeat split; auto. rewrite A3, Hw0. reflexivity.
Qed.

Lemma find_path_from_unique : forall ports k c dd pp L ml m,
  NoDup (map fst ports) -> nth_error ports pp = Some (L, ml) ->
  cache_get c (Some L) dd = Some m -> (forall L2, L2 <> L -> cache_get c (Some L2) dd = None) ->
  find_path_from (map ad_of ports) k c dd = Some ((k + pp)%nat, m).
Proof.
  induction ports as [|[l m0] r IH]; intros k c dd pp L ml m Hnd Hp Hc Hoth; [destruct pp; discriminate|].
  cbn [map fst] in Hnd. inversion Hnd; subst. cbn [map find_path_from ad_of fst snd a_net].
  destruct pp as [|pp]; cbn in Hp.
  - inversion Hp; subst. rewrite Hc. f_equal. f_equal. lia.
  - assert (l <> L).
    { intro E. subst l. apply H1. apply nth_error_In in Hp. apply (in_map fst) in Hp. exact Hp. }
    rewrite (Hoth l H). rewrite (IH (S k) c dd pp L ml m H2 Hp Hc Hoth). f_equal. f_equal. lia.
Qed.

Lemma learned_path_back : forall n ports pp L ml src p s sm,
  adapters n = map ad_of ports -> NoDup (map fst ports) -> nth_error ports pp = Some (L, ml) ->
  (forall x, cache_get (rcache n) x s = None) -> n_sadr p = Some (s, sm) ->
  find_path (learned n (mkAd (Some L) (Some ml)) src p) s = Some (pp, src).
Proof.
  intros n ports pp L ml src p s sm Ha Hnd Hp Hcold Hs.
  unfold find_path. rewrite learned_adapters, Ha. unfold learned. rewrite Hs. cbn [rcache set_cache a_net].
  rewrite (find_path_from_unique ports 0 _ s pp L ml src Hnd Hp); [reflexivity| |].
  - apply cache_learn_one.
  - intros L2 Hne. rewrite cache_get_update. cbn [optN_eqb]. destruct (N.eqb_spec L L2); [congruence|apply Hcold].
Qed.

(* The reply.  The request climbs towards d while every router on its way learns, from the SADR, the way back to
   s; the induction on that climb (fwd_back) therefore carries a promise about the reply, BackOK, which each router
   extends by one hop (back_step) with what it has just learned.
   `rframe ... g L m`: g is the reply (to (s, smac), payload rdata, source (d, dm) in its SADR or, on the first leg,
   in its link source) on LAN L, link-addressed to m, with hops left for the `K - lv L` routers still ahead (K = lv s) *)
Definition rframe (s : N) (smac : mac) (d : N) (dm : mac) (rdata : list N) (K : nat) (lv : N -> nat)
                  (g : frame) (L : N) (m : mac) : Prop :=
  f_lan g = L /\ f_dst g = LStation m /\ n_msg (f_npdu g) = None /\ n_dadr (f_npdu g) = Some (DStation s smac) /\
  n_data (f_npdu g) = rdata /\ (K - lv L <= N.to_nat (n_hop (f_npdu g)))%nat /\
  fwd_sadr L (f_src g) (f_npdu g) = (d, dm) /\
  (forall sn sm, n_sadr (f_npdu g) = Some (sn, sm) -> sn = d /\ lv L <> 0%nat).

(* `BackOK ... bh nsref L m`: a reply frame on L addressed to m arrives at the originator, whatever the other nodes
   are by then, as long as the routers bh the request has been through are still as in nsref *)
Definition BackOK lns ns0 srcn s smac d dm rdata K lv (bh : list nat) (nsref : list wnode) (L : N) (m : mac) : Prop :=
  forall ns2 g, (forall who, In who bh -> nth_error ns2 who = nth_error nsref who) -> shape_sim ns0 ns2 ->
    rframe s smac d dm rdata K lv g L m -> arrives lns ns2 g srcn (ARS d dm) (ALS smac) rdata.

(* router pw (request in on port pp from LAN L, out on its up-port to lu) turns the promise for L into one for lu: the
   reply reaching it on lu goes out on pp, to the link source mprev of the request, or to the originator when L = s *)
Lemma back_step : forall lns ns0 d lv up par srcn ws s smac a_s dm rdata bh ns' L pw pp w0 mL lu mu mprev,
  internet_ok lns ns0 -> tree_to lns ns0 d lv up par -> station_at ns0 srcn ws s smac a_s ->
  apdu_ok rdata = true -> s <> d ->
  nth_error ns0 pw = Some w0 -> router_shape w0 ->
  nth_error (w_ports w0) pp = Some (L, mL) -> pp <> up pw -> port_of ns0 (pw, up pw) = Some (lu, mu) ->
  lv L = S (lv lu) ->
  (forall Lx, In Lx (map fst (w_ports w0)) -> lv Lx = lv lu \/ lv Lx = S (lv lu)) ->
  (L = s \/ (lv L < lv s)%nat) ->
  (* its state when the reply comes by *)
  (exists PW, nth_error ns' pw = Some PW /\ (L <> s -> find_path (w_node PW) s = Some (pp, mprev))) ->
  ~ In pw bh ->
  ((L = s /\ mprev = smac) \/ (L <> s /\ BackOK lns ns0 srcn s smac d dm rdata (lv s) lv bh ns' L mprev)) ->
  BackOK lns ns0 srcn s smac d dm rdata (lv s) lv (pw :: bh) ns' lu mu.
Proof.
  intros lns ns0 d lv up par srcn ws s smac a_s dm rdata bh ns' L pw pp w0 mL lu mu mprev
         Hio Htt [Hws Hwsp Hwsa Hwsn Hwsh] Hok Hsd Hw0 Hr0 Hpp Hppu Hupport HlvL Hlevels0 HLs
         (PW & HPW & Hpath) Hnbh Hback.
  pose proof (tt_root Htt) as Hroot0.
  unfold BackOK. intros ns2 g Hag Hsim2 (G1 & G2 & G3 & G4 & G5 & G6 & G7 & G8).
  assert (HPW2 : nth_error ns2 pw = Some PW) by (rewrite (Hag pw (or_introl eq_refl)); exact HPW).
  destruct (shape_nth _ _ _ _ Hsim2 Hw0) as (PW2 & HPW2' & Hns). rewrite HPW2 in HPW2'. inversion HPW2'; subst PW2.
  pose proof (router_shape_node_shape _ _ Hns Hr0) as HrP. pose proof Hns as (Hp1 & Hp2 & Hp3).
  assert (Hup : nth_error (w_ports w0) (up pw) = Some (lu, mu))
    by (unfold port_of in Hupport; cbn [fst snd] in Hupport; rewrite Hw0 in Hupport; exact Hupport).
  assert (Hupp : nth_error (w_ports PW) (up pw) = Some (lu, mu)) by (rewrite Hp1; exact Hup).
  assert (Hppp : nth_error (w_ports PW) pp = Some (L, mL)) by (rewrite Hp1; exact Hpp).
  assert (Hacc : acceptor lns ns2 g pw (up pw) PW mu).
  { apply (acceptor_of_sim _ _ _ _ _ _ _ _ lu Hio Hsim2); try assumption. rewrite G1. eapply io_listed; eauto. }
  assert (Hlevels : forall Lx, In Lx (map fst (w_ports PW)) -> lv Lx = lv lu \/ lv Lx = S (lv lu))
    by (rewrite Hp1; exact Hlevels0).
  assert (Hlvs : (lv lu < lv s)%nat) by (destruct HLs as [E|E]; [subst L; lia|lia]).
  assert (Hhop : n_hop (f_npdu g) <> 0) by lia.
  assert (Hsimstep : forall ai, shape_sim ns0 (set_nth ns2 pw (mkW (learned (w_node PW) ai (f_src g) (f_npdu g)) (w_ports PW))))
    by (intro ai; exact (shape_set _ _ _ _ _ Hsim2 HPW2 (learned_shape PW _ _ _))).
  assert (Hsrc : forall snet sm, n_sadr (f_npdu g) = Some (snet, sm) ->
                   find_net (w_node PW) (Some snet) = None /\ snet <> s).
  { intros snet sm E. destruct (G8 snet sm E) as [E1 E2]. subst snet. split; [|congruence].
    apply (router_find_net_none_lv PW lv (lv lu)); auto; lia. }
  set (X := fwd_sadr lu (f_src g) (f_npdu g)).
  assert (HX : X = (d, dm)) by (unfold X; rewrite <- G1; rewrite G1; exact G7).
  pose proof (router_nth_adapter _ _ _ _ HrP Hupp) as Hai.
  destruct Hback as [[HLs' Hmp]|[HLs' Hb]].
  - (* the router attached to the source network: last leg to the originator *)
    subst L mprev.
    destruct (router_local_adapter _ HrP) as (x & lanx & mx & Hx & Hla).
    eapply arr_last_router with (who := pw) (i := up pw) (w := PW) (m := mu) (inet := lu) (d := s) (dm := smac)
                                (j := pp) (lan' := s) (mj := mL); try eassumption; try reflexivity.
    + apply router_modelled; assumption.
    + apply router_is_router; assumption.
    + intros snet sm E. apply (Hsrc snet sm E).
    + eapply router_find_net_some; eauto.
    + cbn. destruct (N.eqb_spec s lu) as [E|E]; [|reflexivity]. exfalso. rewrite <- E in Hlvs. lia.
    + rewrite Hp1 in Hx. exact (router_not_for_station _ _ _ _ _ _ _ _ _ _ _ Hio Hw0 Hr0 Hx Hws Hwsp).
    + fold X. rewrite HX.
      pose proof (Hsimstep (mkAd (Some lu) (Some mu))) as Hsim3.
      destruct (shape_nth _ _ _ _ Hsim3 Hws) as (A3 & HA3 & (Hq1 & Hq2 & Hq3)).
      rewrite <- G5.
      match goal with |- arrives _ ?NS ?G _ _ _ _ => eapply (arr_station lns NS G srcn A3 smac a_s d dm) end; try reflexivity.
      * apply (acceptor_of_sim _ _ _ _ _ _ _ _ s Hio Hsim3); [reflexivity| |assumption|rewrite Hq1, Hwsp; reflexivity].
        eapply io_listed; eauto. exact (port_of_station Hws Hwsp).
      * rewrite Hq2. assumption.
      * rewrite Hq3. assumption.
      * cbn [f_npdu n_data]. rewrite G5. assumption.
      * exact (own_net_other a_s s d Hwsn Hsd).
  - (* a router further from the source: back along what it learned *)
    assert (HlvLs : (lv L < lv s)%nat) by (destruct HLs as [E|E]; [contradiction|assumption]).
    eapply arr_router with (who := pw) (i := up pw) (w := PW) (m := mu) (inet := lu) (d := s) (dm := smac)
                           (j := pp) (m' := mprev) (lan' := L) (mj := mL); try eassumption; try reflexivity.
    + apply router_modelled; assumption.
    + apply router_is_router; assumption.
    + apply (router_find_net_none_lv PW lv (lv lu)); auto; lia.
    + apply Hpath. assumption.
    + fold X. rewrite HX. apply Hb.
      * intros who Hwho. rewrite set_nth_nth_other by (intro E; subst who; contradiction).
        apply Hag. right. assumption.
      * apply Hsimstep.
      * unfold rframe. cbn [f_lan f_dst f_src f_npdu n_msg n_dadr n_data n_hop n_sadr fwd_sadr].
        split; [reflexivity|]. split; [reflexivity|]. split; [reflexivity|]. split; [assumption|]. split; [assumption|].
        split; [lia|]. split; [reflexivity|]. intros sn sm E. inversion E; subst. split; [reflexivity|lia].
Qed.

(* the request from A = (s, smac) climbs to B = (d, dm) (arrives_f, with the node states nsf it leaves behind), and
   a reply B hands to the router that delivered the request arrives at A *)
Lemma fwd_back : forall lns ns0 d lv up par srcn ws s smac a_s tgt wt dm a_t data rdata,
  internet_ok lns ns0 -> tree_to lns ns0 d lv up par ->
  station_at ns0 srcn ws s smac a_s -> In (tgt, 0%nat) (lan_members lns d) -> station_at ns0 tgt wt d dm a_t ->
  apdu_ok data = true -> apdu_ok rdata = true -> s <> d -> (lv s <= 255)%nat ->
  (forall who w, nth_error ns0 who = Some w -> forall x, cache_get (rcache (w_node w)) x s = None) ->
  forall k ns f mL bh,
    shape_sim ns0 ns ->
    (forall who, ~ In who bh -> nth_error ns who = nth_error ns0 who) ->
    (forall who, In who bh -> who = srcn \/
        exists w lu mu, nth_error ns0 who = Some w /\ router_shape w /\
                        nth_error (w_ports w) (up who) = Some (lu, mu) /\ (S k <= lv lu)%nat) ->
    lv (f_lan f) = S k ->
    inhabited ns0 (f_lan f) ->
    port_mac ns0 (par (f_lan f)) = Some mL -> f_dst f = LStation mL ->
    n_msg (f_npdu f) = None -> n_dadr (f_npdu f) = Some (DStation d dm) -> n_data (f_npdu f) = data ->
    (S k <= N.to_nat (n_hop (f_npdu f)))%nat ->
    fwd_sadr (f_lan f) (f_src f) (f_npdu f) = (s, smac) ->
    (forall sn sm, n_sadr (f_npdu f) = Some (sn, sm) -> sn = s /\ (S k < lv s)%nat) ->
    (f_lan f = s \/ (lv (f_lan f) < lv s)%nat) ->
    ((f_lan f = s /\ f_src f = smac) \/
     (f_lan f <> s /\ BackOK lns ns0 srcn s smac d dm rdata (lv s) lv bh ns (f_lan f) (f_src f))) ->
    exists nsf mu Bf,
      arrives_f lns ns f tgt (ARS s smac) (ALS dm) data nsf mu /\ shape_sim ns0 nsf /\
      nth_error nsf tgt = Some Bf /\ w_ports Bf = w_ports wt /\ adapters (w_node Bf) = adapters (w_node wt) /\
      pending (w_node Bf) = pending (w_node wt) /\
      cache_get (rcache (w_node Bf)) (a_net a_t) s = Some mu /\
      forall ns2, (forall who, who <> tgt -> nth_error ns2 who = nth_error nsf who) -> shape_sim ns0 ns2 ->
        arrives lns ns2 (mkFrame d dm (LStation mu) (mkNpdu (Some (DStation s smac)) None 255 None rdata))
                srcn (ARS d dm) (ALS smac) rdata.
Proof.
  intros lns ns0 d lv up par srcn ws s smac a_s tgt wt dm a_t data rdata
         Hio Htt Hsrc_at Htgt [Hwt Hwtp Hwta Hwtn Hwth] Hok Hrok Hsd HK Hcold.
  pose proof Hsrc_at as [Hws Hwsp Hwsa Hwsn Hwsh]. pose proof (tt_root Htt) as Hroot0.
  (* induction on the level of the frame's LAN; what the router there does to the promise is the same at every level,
     so the level is split (attached to d or not) only after HBack' *)
  induction k as [k IH] using lt_wf_ind.
  intros ns f mL bh Hsim Hunt Hbh HlvL Hinh HparM Hdst Hmsg Hdadr Hdata Hhop Hfs Hsadr HLs Hback.
  destruct (hop_ctx _ _ _ _ _ _ _ _ _ _ Hio Htt Hsim HlvL Hinh HparM Hdst Hhop)
    as (pw & pp & w0 & w' & lu & mu & Epar & Hw0 & Hsh0 & Hw' & Hns & _ & Hacc & Hai & Hpp & Hup & Hnotup &
        Hupport & Hlu & Hroot & Hlevels & Hwarm & Hmod & Hisr & Hhop0 & Hsrc & Hsim');
    [intros sn sm Es; destruct (Hsadr sn sm Es) as [E1 E2]; subst sn; assumption|].
  (* the request has not been through this router before: it is still as it was *)
  assert (Hnbh : ~ In pw bh).
  { intro Hin. destruct (Hbh pw Hin) as [E|(wx & lux & mux & Hwx & _ & Hupx & Hle)].
    - subst pw. rewrite Hws in Hw0. inversion Hw0; subst. apply (router_not_station w0 Hsh0). exists s, smac, a_s. auto.
    - rewrite Hw0 in Hwx. inversion Hwx; subst wx. rewrite (port_of_intro Hw0 Hupx) in Hupport. inversion Hupport; subst. lia. }
  assert (w' = w0) by (rewrite (Hunt pw Hnbh), Hw0 in Hw'; inversion Hw'; reflexivity). subst w'.
  set (PW := mkW (learned (w_node w0) (mkAd (Some (f_lan f)) (Some mL)) (f_src f) (f_npdu f)) (w_ports w0)) in *.
  set (ns' := set_nth ns pw PW) in *.
  (* from the SADR of the request it learns the way back to s: out on the arrival port, to the link source *)
  assert (Hpath : f_lan f <> s -> find_path (w_node PW) s = Some (pp, f_src f)).
  { intro HLne. unfold PW. cbn [w_node]. destruct (n_sadr (f_npdu f)) as [[sn sm]|] eqn:Es.
    - destruct (Hsadr sn sm eq_refl) as [E1 _]. subst sn. destruct Hsh0 as (_ & Hnd0 & Ha0 & _).
      exact (learned_path_back (w_node w0) (w_ports w0) pp (f_lan f) mL (f_src f) (f_npdu f) s sm Ha0 Hnd0 Hpp (Hcold pw w0 Hw0) Es).
    - unfold fwd_sadr in Hfs. rewrite Es in Hfs. inversion Hfs. contradiction. }
  assert (HBack' : BackOK lns ns0 srcn s smac d dm rdata (lv s) lv (pw :: bh) ns' lu mu).
  { apply (back_step lns ns0 d lv up par srcn ws s smac a_s dm rdata bh ns' (f_lan f) pw pp w0 mL lu mu (f_src f));
      try assumption; try (rewrite Hlu; assumption).
    - exists PW. split; [unfold ns'; apply (set_nth_nth_same _ _ _ _ Hw')|exact Hpath].
    - destruct Hback as [[E1 E2]|[E1 Hb]]; [left; auto|right; split; [assumption|]].
      intros ns2 g Hag. apply Hb. intros who Hwho. rewrite (Hag who Hwho). unfold ns'.
      apply set_nth_nth_other. intro E. subst who. contradiction. }
  destruct k as [|k].
  - (* the router attached to d; then B; then the reply *)
    assert (lu = d) by (apply Hroot; reflexivity). subst lu.
    destruct (router_local_adapter _ Hsh0) as (x & lanx & mx & Hx & Hla).
    assert (Htne : tgt <> pw).
    { intro E. subst tgt. rewrite Hwt in Hw0. inversion Hw0; subst. apply (router_not_station w0 Hsh0). exists d, dm, a_t. auto. }
    assert (Htnb : ~ In tgt bh).
    { intro Hin. destruct (Hbh tgt Hin) as [E|(wx & lux & mux & Hwx & Hrx & _)].
      - subst tgt. rewrite Hws in Hwt. inversion Hwt; subst. rewrite Hwsp in Hwtp. inversion Hwtp. contradiction.
      - rewrite Hwt in Hwx. inversion Hwx; subst. apply (router_not_station wx Hrx). exists d, dm, a_t. auto. }
    assert (Hwt' : nth_error ns' tgt = Some wt).
    { unfold ns'. rewrite set_nth_nth_other by auto. rewrite (Hunt tgt Htnb). exact Hwt. }
    set (leg := mkFrame d mu (LStation dm)
                  (mkNpdu None (Some (fwd_sadr (f_lan f) (f_src f) (f_npdu f))) (n_hop (f_npdu f) - 1) None (n_data (f_npdu f)))).
    set (Bf := mkW (learned (w_node wt) a_t (f_src leg) (f_npdu leg)) (w_ports wt)).
    exists (set_nth ns' tgt Bf), mu, Bf.
    assert (Hsimf : shape_sim ns0 (set_nth ns' tgt Bf)) by exact (shape_set _ _ _ _ _ Hsim' Hwt' (learned_shape wt _ _ _)).
    split; [|split; [exact Hsimf|split; [apply (set_nth_nth_same _ _ _ _ Hwt')|split; [reflexivity|split; [apply learned_adapters|
            split; [apply learned_pending|split]]]]]].
    + (* forward *)
      rewrite <- Hdata.
      eapply arrf_last_router with (who := pw) (i := pp) (w := w0) (m := mL) (inet := f_lan f) (d := d) (dm := dm)
                                   (j := up pw) (lan' := d) (mj := mu); try eassumption; try reflexivity.
      * intros snet sm Es. apply (Hsrc snet sm Es).
      * eapply router_find_net_some; eauto.
      * auto.
      * cbn. destruct (N.eqb_spec d (f_lan f)) as [E|E]; [|reflexivity]. rewrite <- E in HlvL. lia.
      * exact (router_not_for_station _ _ _ _ _ _ _ _ _ _ _ Hio Hw0 Hsh0 Hx Hwt Hwtp).
      * fold PW. fold ns'. fold leg.
        assert (Hlegs : n_sadr (f_npdu leg) = Some (s, smac)) by (unfold leg; cbn [f_npdu n_sadr]; rewrite Hfs; reflexivity).
        apply (arrf_station lns ns' leg tgt wt dm a_t s smac); try reflexivity; try assumption.
        -- apply (acceptor_of_sim _ _ _ _ _ _ _ _ d Hio Hsim'); [reflexivity|assumption|assumption|].
           rewrite Hwtp. reflexivity.
        -- cbn [leg f_npdu n_data]. rewrite Hdata. assumption.
        -- apply (own_net_other a_t d s Hwtn). auto.
    + (* what B has learned *)
      unfold Bf, learned. cbn [w_node leg f_npdu n_sadr]. rewrite Hfs. cbn [rcache set_cache]. apply cache_learn_one.
    + (* the reply *)
      intros ns2 Hag2 Hsim2. apply HBack'; [|assumption|].
      * intros who Hwho. rewrite Hag2.
        -- apply set_nth_nth_other. intro E. subst who. destruct Hwho as [E|Hin]; [apply Htne; auto|contradiction].
        -- intro E. subst who. destruct Hwho as [E|Hin]; [apply Htne; auto|contradiction].
      * unfold rframe. cbn [f_lan f_dst f_src f_npdu n_msg n_dadr n_data n_hop n_sadr fwd_sadr].
        split; [reflexivity|]. split; [reflexivity|]. split; [reflexivity|]. split; [reflexivity|]. split; [reflexivity|].
        split; [change (N.to_nat 255) with 255%nat; lia|]. split; [reflexivity|]. intros sn sm E. discriminate E.
  - (* a router further away *)
    destruct (Hwarm ltac:(discriminate)) as (pm & Hpm & Hfp).
    assert (Hks : (S k < lv s)%nat) by (clear - HlvL HLs; destruct HLs as [E1|E1]; [rewrite E1 in HlvL|]; lia).
    set (f' := mkFrame lu mu (LStation pm)
                 (mkNpdu (n_dadr (f_npdu f)) (Some (fwd_sadr (f_lan f) (f_src f) (f_npdu f))) (n_hop (f_npdu f) - 1) None (n_data (f_npdu f)))).
    destruct (IH k (Nat.lt_succ_diag_r k) ns' f' pm (pw :: bh)) as (nsf & mu' & Bf & A1 & A2 & A3 & A4 & A5 & A6 & A7 & A8);
      try assumption; try reflexivity.
    + intros who Hwho. unfold ns'. rewrite set_nth_nth_other by (intro E; subst who; apply Hwho; left; reflexivity).
      apply Hunt. intro Hin. apply Hwho. right. assumption.
    + intros who [E|Hin].
      * subst who. right. exists w0, lu, mu. split; [assumption|]. split; [assumption|]. split; [assumption|]. lia.
      * destruct (Hbh who Hin) as [E|(wx & lux & mux & H1 & H2 & H3 & H4)]; [left; assumption|].
        right. exists wx, lux, mux. split; [assumption|]. split; [assumption|]. split; [assumption|]. lia.
    + exists (pw, up pw), mu. exact Hupport.
    + cbn. lia.
    + cbn [f' f_npdu n_sadr]. rewrite Hfs. intros sn sm E. inversion E; subst. split; [reflexivity|exact Hks].
    + right. cbn [f' f_lan]. rewrite Hlu. exact Hks.
    + right. cbn [f' f_lan f_src]. split; [|exact HBack'].
      intro E. rewrite E in Hlu. rewrite Hlu in Hks. exact (Nat.lt_irrefl _ Hks).
    + exists nsf, mu', Bf. split; [|repeat split; assumption].
      rewrite <- Hdata in *.
      eapply arrf_router with (who := pw) (i := pp) (w := w0) (m := mL) (inet := f_lan f) (d := d) (dm := dm)
                              (j := up pw) (m' := pm) (lan' := lu) (mj := mu); try eassumption; try reflexivity.
      * apply (router_find_net_none_lv w0 lv (S k)); auto; rewrite Hroot0; discriminate.
Qed.

(* what tree_reply_routable and its route-aware variant share: the request is delivered, and a reply handed to the
   router that delivered it will arrive *)
Lemma request_leg : forall w d lv up par srcn ws s smac a_s tgt wt dm a_t data rdata mR,
  internet_ok (lans w) (nodes w) -> tree_to (lans w) (nodes w) d lv up par -> queue w = [] ->
  station_at (nodes w) srcn ws s smac a_s ->
  In (tgt, 0%nat) (lan_members (lans w) d) -> station_at (nodes w) tgt wt d dm a_t ->
  (0 < lv s <= 255)%nat ->
  pending_get (pending (w_node ws)) d = None ->
  port_mac (nodes w) (par s) = Some mR -> cache_get (rcache (w_node ws)) (a_net a_s) d = Some mR ->
  apdu_ok data = true -> apdu_ok rdata = true ->
  (forall who wn, nth_error (nodes w) who = Some wn -> forall x, cache_get (rcache (w_node wn)) x s = None) ->
  let w1 := fun k1 => run k1 (submit w srcn (ARS d dm) data) in
  exists k1 lf rest Bf,
    queue (w1 k1) = [] /\ lans (w1 k1) = lans w /\
    trace (w1 k1) = (OUp tgt (ARS s smac) (ALS dm) data :: OFrame lf :: rest) ++ trace w /\
    oups (OUp tgt (ARS s smac) (ALS dm) data :: OFrame lf :: rest) = [OUp tgt (ARS s smac) (ALS dm) data] /\
    n_sadr (f_npdu lf) <> None /\
    nth_error (nodes (w1 k1)) tgt = Some Bf /\ w_ports Bf = w_ports wt /\ adapters (w_node Bf) = adapters (w_node wt) /\
    pending (w_node Bf) = pending (w_node wt) /\
    cache_get (rcache (w_node Bf)) (a_net a_t) s = Some (f_src lf) /\
    arrives (lans w) (set_nth (nodes (w1 k1)) tgt (mkW (w_node Bf) (w_ports Bf)))
            (mkFrame d dm (LStation (f_src lf)) (mkNpdu (Some (DStation s smac)) None 255 None rdata))
            srcn (ARS d dm) (ALS smac) rdata.
Proof.
  intros w d lv up par srcn ws s smac a_s tgt wt dm a_t data rdata mR Hio Htt Hq
         Hsrc_at Htgt Htgt_at Hlv HpA HmR Hcache Hok Hrok Hcold w1.
  pose proof Hsrc_at as [Hws Hwsp Hwsa Hwsn _].
  assert (Hsd : s <> d) by (intro E; subst s; rewrite (tt_root Htt) in Hlv; lia).
  set (f0 := mkFrame s smac (LStation mR) (mkNpdu (Some (DStation d dm)) None 255 None data)).
  set (w0 := submit w srcn (ARS d dm) data) in *.
  assert (Hw0 : w0 = mkWorld (set_nth (nodes w) srcn (mkW (w_node ws) (w_ports ws))) (lans w) [f0] (trace w))
    by exact (station_submits_remote w srcn ws s smac a_s d _ _ dm mR data Hq Hws Hwsp Hwsa Hwsn Hsd HpA Hcache
                (or_introl (conj eq_refl eq_refl))).
  destruct (lv s) as [|k] eqn:Ek; [lia|].
  destruct (fwd_back (lans w) (nodes w) d lv up par srcn ws s smac a_s tgt wt dm a_t data rdata
              Hio Htt Hsrc_at Htgt Htgt_at Hok Hrok Hsd ltac:(lia) Hcold
              k (set_nth (nodes w) srcn (mkW (w_node ws) (w_ports ws))) f0 mR [srcn])
    as (nsf & mu & Bf & A1 & A2 & A3 & A4 & A5 & A6 & A7 & A8);
    try reflexivity; try assumption.
  - apply (shape_set _ _ _ _ _ (shape_refl _) Hws). repeat split.
  - intros who Hwho. apply set_nth_nth_other. intro E. apply Hwho. left. assumption.
  - intros who [E|[]]. left. auto.
  - exists (srcn, 0%nat), smac. exact (port_of_station Hws Hwsp).
  - cbn. change (N.to_nat 255) with 255%nat. lia.
  - cbn. intros sn sm E. discriminate E.
  - left. reflexivity.
  - left. split; reflexivity.
  - assert (Hq0 : queue w0 = [f0]) by (rewrite Hw0; reflexivity).
    destruct (route_arrives_f _ _ _ _ _ _ _ _ _ A1 w0 ltac:(rewrite Hw0; reflexivity) ltac:(rewrite Hw0; reflexivity) Hq0)
      as (k1 & osn1 & B1 & B4 & B2 & B5 & lf & rest & B6 & B7 & B8).
    subst osn1 mu. exists k1, lf, rest, Bf. unfold w1. rewrite B2.
    split; [assumption|]. split; [rewrite (proj2 (run_core k1 w0)), Hw0; reflexivity|]. split; [rewrite B4, Hw0; reflexivity|].
    do 7 (split; [assumption|]).
    apply A8; [intros who Hne; apply set_nth_nth_other; auto|]. apply (shape_set _ _ _ _ _ A2 A3). repeat split.
Qed.

(* C06_reply_routable on a loop-free internetwork: station A = (s, smac) sends a unicast to station B = (d, dm);
   the routers are warm towards d (tree_to) and NOBODY knows anything about network s beforehand (cold).  The
   unicast is delivered exactly once at B showing (s, smac), then B's reply to that source exactly once at A showing
   (d, dm): every router on the way has learned the way back from the SADR of the request. *)
Theorem tree_reply_routable : forall w d lv up par srcn ws s smac a_s tgt wt dm a_t data rdata mR,
  internet_ok (lans w) (nodes w) -> tree_to (lans w) (nodes w) d lv up par -> queue w = [] ->
  nth_error (nodes w) srcn = Some ws -> w_ports ws = [(s, smac)] -> adapters (w_node ws) = [a_s] ->
  (a_net a_s = None \/ a_net a_s = Some s) -> has_app (w_node ws) = true ->
  In (tgt, 0%nat) (lan_members (lans w) d) -> nth_error (nodes w) tgt = Some wt ->
  w_ports wt = [(d, dm)] -> adapters (w_node wt) = [a_t] -> (a_net a_t = None \/ a_net a_t = Some d) ->
  has_app (w_node wt) = true ->
  (0 < lv s <= 255)%nat ->
  pending_get (pending (w_node ws)) d = None -> pending_get (pending (w_node wt)) s = None ->
  port_mac (nodes w) (par s) = Some mR -> cache_get (rcache (w_node ws)) (a_net a_s) d = Some mR ->
  apdu_ok data = true -> apdu_ok rdata = true ->
  (forall who wn, nth_error (nodes w) who = Some wn -> forall x, cache_get (rcache (w_node wn)) x s = None) ->
  let w0 := submit w srcn (ARS d dm) data in
  exists k1 osn1,
    queue (run k1 w0) = [] /\ trace (run k1 w0) = osn1 ++ trace w /\
    oups osn1 = [OUp tgt (ARS s smac) (ALS dm) data] /\
    let w2 := submit (run k1 w0) tgt (ARS s smac) rdata in
    exists k2 osn2,
      queue (run k2 w2) = [] /\ (forall k', (k2 <= k')%nat -> run k' w2 = run k2 w2) /\
      trace (run k2 w2) = osn2 ++ trace (run k1 w0) /\
      oups osn2 = [OUp srcn (ARS d dm) (ALS smac) rdata].
Proof.
  intros w d lv up par srcn ws s smac a_s tgt wt dm a_t data rdata mR Hio Htt Hq
         Hws Hwsp Hwsa Hwsn Hwsh Htgt Hwt Hwtp Hwta Hwtn Hwth Hlv HpA HpB HmR Hcache Hok Hrok Hcold w0.
  destruct (request_leg w d lv up par srcn ws s smac a_s tgt wt dm a_t data rdata mR Hio Htt Hq
              (Build_station_at _ _ _ _ _ _ Hws Hwsp Hwsa Hwsn Hwsh) Htgt
              (Build_station_at _ _ _ _ _ _ Hwt Hwtp Hwta Hwtn Hwth) Hlv HpA HmR Hcache Hok Hrok Hcold)
    as (k1 & lf & rest & Bf & B1 & B3 & B4 & B5 & _ & A3 & A4 & A5 & A6 & A7 & A8).
  fold w0 in B1, B3, B4, A3, A8. exists k1, (OUp tgt (ARS s smac) (ALS dm) data :: OFrame lf :: rest).
  do 3 (split; [assumption|]). set (w1 := run k1 w0) in *.
  assert (Hsd : s <> d) by (intro E; subst s; rewrite (tt_root Htt) in Hlv; lia).
  set (g0 := mkFrame d dm (LStation (f_src lf)) (mkNpdu (Some (DStation s smac)) None 255 None rdata)) in *.
  intro w2.
  assert (Hw2 : w2 = mkWorld (set_nth (nodes w1) tgt (mkW (w_node Bf) (w_ports Bf))) (lans w) [g0] (trace w1)).
  { rewrite <- B3. apply (station_submits_remote w1 tgt Bf d dm a_t s _ _ smac (f_src lf) rdata B1 A3); auto.
    - rewrite A4. exact Hwtp.
    - rewrite A5. exact Hwta.
    - rewrite A6. exact HpB. }
  assert (Harr : arrives (lans w2) (nodes w2) g0 srcn (ARS d dm) (ALS smac) rdata) by (rewrite Hw2; exact A8).
  assert (Hq2 : queue w2 = [g0]) by (rewrite Hw2; reflexivity).
  destruct (route_arrives_exactly_once w2 g0 srcn _ _ _ Hq2 Harr) as (k2 & osn2 & C1 & C2 & C3 & C4).
  exists k2, osn2. repeat split; auto. rewrite C3, Hw2. reflexivity.
Qed.

(* The same with settings.route_aware on: B is shown the source s:smac@rt, where rt is the link source of the frame
   that delivered the request (up_route), and replies to exactly that address; the route-aware branch of indication
   sends the reply straight to rt with DADR (s, smac) — B needs no cache entry and parks nothing. *)
Theorem tree_reply_routable_route_aware : forall w d lv up par srcn ws s smac a_s tgt wt dm a_t data rdata mR,
  internet_ok (lans w) (nodes w) -> tree_to (lans w) (nodes w) d lv up par -> queue w = [] ->
  nth_error (nodes w) srcn = Some ws -> w_ports ws = [(s, smac)] -> adapters (w_node ws) = [a_s] ->
  (a_net a_s = None \/ a_net a_s = Some s) -> has_app (w_node ws) = true ->
  In (tgt, 0%nat) (lan_members (lans w) d) -> nth_error (nodes w) tgt = Some wt ->
  w_ports wt = [(d, dm)] -> adapters (w_node wt) = [a_t] -> (a_net a_t = None \/ a_net a_t = Some d) ->
  has_app (w_node wt) = true ->
  (0 < lv s <= 255)%nat ->
  pending_get (pending (w_node ws)) d = None ->
  port_mac (nodes w) (par s) = Some mR -> cache_get (rcache (w_node ws)) (a_net a_s) d = Some mR ->
  apdu_ok data = true -> apdu_ok rdata = true ->
  (forall who wn, nth_error (nodes w) who = Some wn -> forall x, cache_get (rcache (w_node wn)) x s = None) ->
  let w0 := submit w srcn (ARS d dm) data in
  exists k1 lf rest,
    queue (run k1 w0) = [] /\
    trace (run k1 w0) = (OUp tgt (ARS s smac) (ALS dm) data :: OFrame lf :: rest) ++ trace w /\
    oups (OUp tgt (ARS s smac) (ALS dm) data :: OFrame lf :: rest) = [OUp tgt (ARS s smac) (ALS dm) data] /\
    up_route (w_node wt) 0 (f_src lf) (f_npdu lf) = Some (f_src lf) /\
    let w2 := submit_routed (run k1 w0) tgt (ARS s smac) (f_src lf) rdata in
    exists k2 osn2,
      queue (run k2 w2) = [] /\ (forall k', (k2 <= k')%nat -> run k' w2 = run k2 w2) /\
      trace (run k2 w2) = osn2 ++ trace (run k1 w0) /\
      oups osn2 = [OUp srcn (ARS d dm) (ALS smac) rdata].
Proof.
  intros w d lv up par srcn ws s smac a_s tgt wt dm a_t data rdata mR Hio Htt Hq
         Hws Hwsp Hwsa Hwsn Hwsh Htgt Hwt Hwtp Hwta Hwtn Hwth Hlv HpA HmR Hcache Hok Hrok Hcold w0.
  destruct (request_leg w d lv up par srcn ws s smac a_s tgt wt dm a_t data rdata mR Hio Htt Hq
              (Build_station_at _ _ _ _ _ _ Hws Hwsp Hwsa Hwsn Hwsh) Htgt
              (Build_station_at _ _ _ _ _ _ Hwt Hwtp Hwta Hwtn Hwth) Hlv HpA HmR Hcache Hok Hrok Hcold)
    as (k1 & lf & rest & Bf & B1 & B3 & B4 & B5 & B8 & A3 & A4 & A5 & _ & _ & A8).
  fold w0 in B1, B3, B4, A3, A8. exists k1, lf, rest. do 3 (split; [assumption|]). set (w1 := run k1 w0) in *.
  split.
  { (* the frame that delivered the request carries the SADR of the originator: the source shown has a route *)
    unfold up_route, is_router. rewrite Hwta. cbn [length Nat.eqb negb andb].
    destruct (n_sadr (f_npdu lf)); [reflexivity|congruence]. }
  assert (HaB : adapters (w_node Bf) = [a_t]) by (rewrite A5; assumption).
  set (g0 := mkFrame d dm (LStation (f_src lf)) (mkNpdu (Some (DStation s smac)) None 255 None rdata)) in *.
  intro w2.
  assert (Hw2 : w2 = mkWorld (set_nth (nodes w1) tgt (mkW (w_node Bf) (w_ports Bf))) (lans w) [g0] (trace w1)).
  { unfold w2, submit_routed. rewrite A3. unfold indication_routed, local_idx, nth_adapter. rewrite HaB.
    cbn [last_with_addr]. destruct (a_mac a_t); cbn [nth_error emit w_ports]; rewrite A4, Hwtp; cbn [nth_error];
      rewrite B1, B3; reflexivity. }
  assert (Harr : arrives (lans w2) (nodes w2) g0 srcn (ARS d dm) (ALS smac) rdata) by (rewrite Hw2; exact A8).
  assert (Hq2 : queue w2 = [g0]) by (rewrite Hw2; reflexivity).
  destruct (route_arrives_exactly_once w2 g0 srcn _ _ _ Hq2 Harr) as (k2 & osn2 & C1 & C2 & C3 & C4).
  exists k2, osn2. repeat split; auto. rewrite C3, Hw2. reflexivity.
Qed.
