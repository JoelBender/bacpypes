(* ArrayObjFacts.v — lemmas about ArrayObj.v: the representation invariant of an ArrayOf object
   (cell 0 = number of element cells, every other cell an element) is established by the constructor and
   kept by every method; the object-level codec agrees with Codec.v's TArrayOf; whole-array and per-item
   round trips; Any.cast_out answers the elements and never the count. *)
From Bac Require Import Base.
From Bac Require Import BytesFacts.
From Bac Require Import Tag.
From Bac Require Import TagFacts.
From Bac Require Import Schema.
From Bac Require Import Codec.
From Bac Require Import CodecFacts.
From Bac Require Import Prim.
From Bac Require Import PrimInt.
From Bac Require Import ArrayObj.
Open Scope N_scope.

Definition arr_of (vs : list val) : aval := CCount (lenN vs) :: map CItem vs.
Definition arr_ok (a : aval) : Prop := exists vs, a = arr_of vs.

Lemma cells_items_map vs : cells_items (map CItem vs) = Ok vs.
Proof. induction vs as [|v r IH]; cbn [map cells_items]; [reflexivity|]. rewrite IH. reflexivity. Qed.

Lemma arr_items_of vs : arr_items (arr_of vs) = Ok vs.
Proof. unfold arr_items, arr_of. cbn [tl]. apply cells_items_map. Qed.

Lemma count_of_of vs : count_of (arr_of vs) = Ok (lenN vs).
Proof. reflexivity. Qed.

(* the count is not an element: what the iterator / encoder / cast_out see has exactly `count` entries *)
Lemma arr_ok_items a : arr_ok a -> exists vs, arr_items a = Ok vs /\ count_of a = Ok (lenN vs) /\ a = arr_of vs.
Proof. intros [vs ->]. exists vs. rewrite arr_items_of. auto. Qed.

Definition resize (dflt : val) (new : N) (vs : list val) : list val :=
  if new <? lenN vs then firstn (N.to_nat new) vs
  else vs ++ repeat dflt (N.to_nat new - length vs).

Lemma resize_len dflt new vs : lenN (resize dflt new vs) = new.
Proof.
  unfold resize, lenN. destruct (new <? N.of_nat (length vs)) eqn:E.
  - rewrite firstn_length. lia.
  - rewrite app_length, repeat_length. lia.
Qed.

Lemma fix_length_of dflt new vs : fix_length dflt new (arr_of vs) = Ok (arr_of (resize dflt new vs)).
Proof.
  unfold fix_length.
  assert (L : length (arr_of vs) = S (length vs)) by (unfold arr_of; cbn [length]; rewrite map_length; reflexivity).
  rewrite L.
  transitivity (Ok (CCount new :: map CItem (resize dflt new vs))).
  2: { unfold arr_of. rewrite resize_len. reflexivity. }
  unfold resize, lenN.
  destruct (S (N.to_nat new) <? S (length vs))%nat eqn:E1; destruct (new <? N.of_nat (length vs)) eqn:E2; try lia.
  - unfold arr_of. cbn [firstn set_count]. rewrite firstn_map. reflexivity.
  - unfold arr_of. cbn [app set_count]. rewrite map_app. f_equal. f_equal. f_equal.
    replace (S (N.to_nat new) - S (length vs))%nat with (N.to_nat new - length vs)%nat by lia.
    induction (N.to_nat new - length vs)%nat as [|k IH]; cbn [repeat map]; [reflexivity|]. rewrite IH. reflexivity.
Qed.

Lemma arr_append_of v vs : arr_append None v (arr_of vs) = Ok (arr_of (vs ++ [v])).
Proof.
  unfold arr_append, arr_of. cbn [app set_count]. rewrite map_app. cbn [map].
  f_equal. f_equal. f_equal. unfold lenN. cbn [length]. rewrite !app_length, map_length. cbn [length]. lia.
Qed.

Fixpoint upd (j : nat) (v : val) (vs : list val) : list val :=
  match vs, j with
  | [], _ => []
  | _ :: r, O => v :: r
  | x :: r, S k => x :: upd k v r
  end.
Lemma upd_len j v vs : length (upd j v vs) = length vs.
Proof. revert j; induction vs as [|x r IH]; intros [|k]; cbn [upd length]; auto. Qed.

Lemma set_nth_map j v vs : (j < length vs)%nat -> set_nth j (CItem v) (map CItem vs) = Ok (map CItem (upd j v vs)).
Proof.
  revert j; induction vs as [|x r IH]; intros j H; cbn [length] in H; [lia|].
  destruct j as [|k]; cbn [map set_nth upd]; [reflexivity|]. rewrite IH by lia. reflexivity.
Qed.

Lemma arr_set_inv i v vs a' : arr_set i v (arr_of vs) = Ok a' ->
  1 <= i <= lenN vs /\ a' = arr_of (upd (N.to_nat i - 1) v vs).
Proof.
  unfold arr_set. rewrite count_of_of. cbn [bind].
  destruct (lenN vs <? i) eqn:E; [discriminate|]. destruct (i =? 0) eqn:E0; [discriminate|].
  unfold arr_of. destruct (N.to_nat i) as [|k] eqn:Ek; [lia|].
  cbn [set_nth]. unfold lenN in *. rewrite set_nth_map by lia. cbn [bind].
  replace (S k - 1)%nat with k by lia. rewrite upd_len. intros H; injection H as <-. split; [lia|reflexivity].
Qed.

Fixpoint drop_nth (j : nat) (vs : list val) : list val :=
  match vs, j with
  | [], _ => []
  | _ :: r, O => r
  | x :: r, S k => x :: drop_nth k r
  end.
Lemma drop_nth_len j vs : (j < length vs)%nat -> S (length (drop_nth j vs)) = length vs.
Proof.
  revert j; induction vs as [|x r IH]; intros j H; cbn [length] in H; [lia|].
  destruct j as [|k]; cbn [drop_nth length]; [reflexivity|]. rewrite IH by lia. reflexivity.
Qed.
Lemma del_nth_map j vs : (j < length vs)%nat -> del_nth j (map CItem vs) = Ok (map CItem (drop_nth j vs)).
Proof.
  revert j; induction vs as [|x r IH]; intros j H; cbn [length] in H; [lia|].
  destruct j as [|k]; cbn [map del_nth drop_nth]; [reflexivity|]. rewrite IH by lia. reflexivity.
Qed.

Lemma arr_del_inv i vs a' : arr_del None i (arr_of vs) = Ok a' ->
  1 <= i <= lenN vs /\ a' = arr_of (drop_nth (N.to_nat i - 1) vs).
Proof.
  unfold arr_del. rewrite count_of_of. cbn [bind].
  destruct ((i <? 1) || (lenN vs <? i)) eqn:E; [discriminate|].
  unfold arr_of. destruct (N.to_nat i) as [|k] eqn:Ek; [lia|].
  cbn [del_nth]. unfold lenN in *. rewrite del_nth_map by lia. cbn [bind set_count].
  replace (S k - 1)%nat with k by lia.
  pose proof (drop_nth_len k vs ltac:(lia)) as L. intros H; injection H as <-. split; [lia|].
  f_equal. f_equal. lia.
Qed.

Lemma arr_decode_ok s fixed ts a r : arr_decode s fixed ts = Ok (a, r) ->
  exists vs, a = arr_of vs /\ dec_loop (decode s) (S (length ts)) ts = Ok (vs, r)
             /\ match fixed with Some n => lenN vs = n | None => True end.
Proof.
  unfold arr_decode. destruct (dec_loop (decode s) (S (length ts)) ts) as [[vs r']|e]; cbn [bind]; [|discriminate].
  destruct fixed as [n|].
  - destruct (lenN vs =? n) eqn:E; cbn [negb]; [|discriminate].
    intros H; injection H as <- <-. exists vs. repeat split. lia.
  - intros H; injection H as <- <-. exists vs. repeat split.
Qed.

Theorem arr_new_ok fixed dflt init a : arr_new fixed dflt init = Ok a ->
  arr_ok a /\ (forall n, fixed = Some n -> count_of a = Ok n)
  /\ (forall vs, init = Some vs -> a = arr_of vs).
Proof.
  unfold arr_new. destruct init as [vs|].
  - destruct fixed as [n|].
    + destruct (lenN vs =? n) eqn:E; cbn [negb]; [|discriminate]. intros H; injection H as <-.
      split; [exists vs; reflexivity|]. split.
      * intros m Hm; injection Hm as <-. cbn [count_of]. f_equal. lia.
      * intros ws Hw; injection Hw as <-. reflexivity.
    + intros H; injection H as <-. split; [exists vs; reflexivity|]. split; [discriminate|].
      intros ws Hw; injection Hw as <-. reflexivity.
  - destruct fixed as [n|].
    + change [CCount 0] with (arr_of []). rewrite fix_length_of. intros H; injection H as <-.
      split; [eexists; reflexivity|]. split; [|discriminate].
      intros m Hm; injection Hm as <-. rewrite count_of_of, resize_len. reflexivity.
    + intros H; injection H as <-. split; [exists []; reflexivity|]. split; discriminate.
Qed.

Lemma arr_step_of s fixed dflt op vs a' : arr_step s fixed dflt op (arr_of vs) = Ok a' ->
  exists ws, a' = arr_of ws /\ (forall n, fixed = Some n -> lenN vs = n -> lenN ws = n).
Proof.
  destruct op as [v|n|i v|i|ts]; cbn [arr_step].
  - destruct fixed; [cbn [arr_append]; discriminate|]. rewrite arr_append_of. intros H; injection H as <-.
    eexists; split; [reflexivity|discriminate].
  - unfold arr_set_len. rewrite count_of_of. cbn [bind]. destruct fixed as [m|].
    + destruct (negb (n =? lenN vs)); [discriminate|]. intros H; injection H as <-. eauto.
    + rewrite fix_length_of. intros H; injection H as <-. eexists; split; [reflexivity|discriminate].
  - intros H. apply arr_set_inv in H as [_ ->]. eexists; split; [reflexivity|].
    intros n _ L. unfold lenN in *. rewrite upd_len. exact L.
  - destruct fixed; [cbn [arr_del]; discriminate|]. intros H. apply arr_del_inv in H as [_ ->].
    eexists; split; [reflexivity|discriminate].
  - destruct (arr_decode s fixed ts) as [[a'' r]|e] eqn:E; cbn [bind]; [|discriminate].
    intros H; injection H as <-. apply arr_decode_ok in E as (ws & -> & _ & L).
    exists ws. split; [reflexivity|]. intros n -> _. exact L.
Qed.

Theorem arr_step_ok s fixed dflt op a a' : arr_ok a -> arr_step s fixed dflt op a = Ok a' -> arr_ok a'.
Proof. intros [vs ->] H. destruct (arr_step_of _ _ _ _ _ _ H) as (ws & -> & _). exists ws; reflexivity. Qed.

Theorem arr_run_ok s fixed dflt ops : forall a, arr_ok a -> arr_ok (snd (arr_run s fixed dflt ops a)).
Proof.
  induction ops as [|op r IH]; intros a Ha; cbn [arr_run snd]; [exact Ha|].
  destruct (arr_step s fixed dflt op a) as [a'|e] eqn:E.
  - specialize (IH a' (arr_step_ok _ _ _ _ _ _ Ha E)). destruct (arr_run s fixed dflt r a'). exact IH.
  - specialize (IH a Ha). destruct (arr_run s fixed dflt r a). exact IH.
Qed.

Lemma arr_encode_of s vs : arr_encode s (arr_of vs) = enc_list (encode s) vs.
Proof. unfold arr_encode. rewrite arr_items_of. reflexivity. Qed.

Lemma arr_decode_tie s fixed ts :
  decode (TArrayOf s fixed) ts = do (a, r) <- arr_decode s fixed ts; do vs <- arr_items a; Ok (VList vs, r).
Proof.
  cbn [decode]. unfold arr_decode.
  destruct (dec_loop (decode s) (S (length ts)) ts) as [[vs r]|e]; cbn [bind]; [|reflexivity].
  destruct fixed as [n|].
  - destruct (lenN vs =? n); cbn [negb bind]; [|reflexivity]. change (CCount (lenN vs) :: map CItem vs) with (arr_of vs).
    rewrite arr_items_of. reflexivity.
  - cbn [bind]. change (CCount (lenN vs) :: map CItem vs) with (arr_of vs). rewrite arr_items_of. reflexivity.
Qed.

(* Any.cast_out(ArrayOf class) in the object model = Codec.cast_out at TArrayOf: the element list *)
Theorem arr_cast_out_tie s fixed ts :
  cast_out (TArrayOf s fixed) ts = do vs <- arr_cast_out s fixed ts; Ok (VList vs).
Proof.
  unfold cast_out, arr_cast_out. rewrite arr_decode_tie.
  destruct (arr_decode s fixed ts) as [[a r]|e] eqn:E; cbn [bind]; [|reflexivity].
  apply arr_decode_ok in E. destruct E as (vs & -> & _). rewrite arr_items_of. cbn [bind].
  destruct r; reflexivity.
Qed.

Theorem arr_obj_roundtrip s fixed vs ts rest :
  supported (TArrayOf s fixed) = true -> wf_ty (TArrayOf s fixed) = true ->
  has_ty (TArrayOf s fixed) (VList vs) -> arr_encode s (arr_of vs) = Ok ts -> rest_ok [PAny] rest ->
  arr_decode s fixed (ts ++ rest) = Ok (arr_of vs, rest) /\ arr_cast_out s fixed ts = Ok vs.
Proof.
  intros Hs Hw Ht He Hr. rewrite arr_encode_of in He.
  assert (Henc : encode (TArrayOf s fixed) (VList vs) = Ok ts).
  { cbn [encode]. destruct fixed as [n|]; [|exact He]. destruct Ht as [_ L]. destruct (lenN vs =? n) eqn:E; [exact He|lia]. }
  assert (D : forall rest', rest_ok [PAny] rest' ->
              arr_decode s fixed (ts ++ rest') = Ok (arr_of vs, rest')).
  { intros rest' Hr'. pose proof (roundtrip _ Hs Hw _ _ rest' Ht Henc Hr') as R.
    rewrite arr_decode_tie in R.
    destruct (arr_decode s fixed (ts ++ rest')) as [[a r]|e] eqn:E; cbn [bind] in R; [|discriminate].
    apply arr_decode_ok in E. destruct E as (ws & -> & _). rewrite arr_items_of in R. cbn [bind] in R.
    injection R as -> ->. reflexivity. }
  split; [exact (D rest Hr)|].
  unfold arr_cast_out. specialize (D [] I). rewrite app_nil_r in D. rewrite D. cbn [bind]. apply arr_items_of.
Qed.

(* index 0 on the wire is the count as an Unsigned, and it reads back as the count *)
Theorem arr_item_roundtrip_count s dflt vs : lenN vs < 4294967296 ->
  exists t, arr_encode_item s 0 (arr_of vs) = Ok [t] /\
            forall rest, arr_decode_item s dflt 0 ([t] ++ rest) = Ok (CCount (lenN vs), rest).
Proof.
  intros H. unfold arr_encode_item, count_tag. cbn [N.eqb]. rewrite count_of_of. cbn [bind].
  rewrite enc_unsigned_eq. destruct (_ && _)%Z eqn:R; [|lia]. cbn [bind]. rewrite N2Z.id.
  eexists. split; [reflexivity|]. intros rest. unfold arr_decode_item. cbn [N.eqb app].
  unfold atom_check. cbn [cls num data]. cbn [N.eqb andb negb Pos.eqb].
  rewrite spec_min_unsigned_nonempty. cbn [orb bind]. rewrite unbe_spec_min_unsigned. reflexivity.
Qed.

Lemma atomic_encode_single s v ts : is_atomic s = true -> encode s v = Ok ts -> exists x, ts = [x].
Proof.
  destruct s; cbn [is_atomic]; try discriminate; intros _; cbn [encode]; destruct v; try discriminate;
  intros H; injection H as <-; eexists; reflexivity.
Qed.

(* index i >= 1 on the wire is the i-th element, and it reads back as that element *)
Theorem arr_item_roundtrip_elem s dflt vs i v ts rest :
  supported s = true -> wf_ty s = true -> has_ty s v ->
  1 <= i -> nth_error vs (N.to_nat i - 1) = Some v ->
  arr_encode_item s i (arr_of vs) = Ok ts -> rest_ok (avoid s) rest ->
  encode s v = Ok ts /\ arr_decode_item s dflt i (ts ++ rest) = Ok (CItem v, rest).
Proof.
  intros Hs Hw Ht Hi Hn He Hr. unfold arr_encode_item in He.
  destruct (i =? 0) eqn:E0; [lia|].
  unfold arr_of in He. destruct (N.to_nat i) as [|k] eqn:Ek; [lia|]. cbn [nth_error] in He.
  replace (S k - 1)%nat with k in Hn by lia.
  rewrite nth_error_map, Hn in He. cbn [option_map] in He.
  split; [exact He|].
  pose proof (roundtrip _ Hs Hw _ _ rest Ht He Hr) as R.
  unfold arr_decode_item. rewrite E0.
  destruct (ts ++ rest) as [|x r] eqn:Ea.
  - destruct (is_atomic s) eqn:A.
    + destruct (atomic_encode_single _ _ _ A He) as [x ->]. discriminate.
    + rewrite R. reflexivity.
  - rewrite R. destruct (is_atomic s); reflexivity.
Qed.
