(* SsmC04s.v — C04 on the serving side: a ServerSSM is in the table iff it is not COMPLETED/ABORTED, a removed one
   holds no timer, and one that stays has its timer armed after every handler that did not raise. *)
From Bac Require Import Base PyRt Ssm SsmFrame SsmC04a.
From BacGen Require Import ApduFns.
Open Scope Z_scope.

(* `armed_before` is what the caller must know for the last clause: for a frame or an answer, that the timer was armed (a
   handler that only reads leaves it as it was); for a time-out, where the TaskManager has popped the entry, nothing. *)
Definition post_s (st : hst) (r : hst * option err) (armed_before : Prop) : Prop :=
  let st' := fst r in
  h_now st' = h_now st /\ h_ctr st <= h_ctr st' /\
  same_cfg (h_s st) (h_s st') /\
  (h_live st' = false <-> terminal (h_s st') = true) /\
  (h_live st' = false -> s_timer (h_s st') = None) /\
  (h_live st' = true -> snd r = None -> armed_before -> s_timer (h_s st') <> None).

Definition pre_s (st : hst) : Prop :=
  h_live st = true /\ terminal (h_s st) = false /\ 0 < s_app_to (h_s st) /\ 0 < s_seg_to (h_s st).

(* what is proved handler by handler: post_s with "armed before -> armed after" also when the handler raises, and where
   the state can go; post_s and the invariant over histories (SsmC04h.post_h) both follow *)
Definition post_srv (st : hst) (r : hst * option err) (armed_before : Prop) : Prop :=
  post_s st (fst r, None) armed_before /\
  (h_live (fst r) = true -> s_state (h_s (fst r)) = s_state (h_s st) \/ s_state (h_s (fst r)) = SEGMENTED_REQUEST \/
                            s_state (h_s (fst r)) = AWAIT_RESPONSE \/ s_state (h_s (fst r)) = SEGMENTED_RESPONSE).

Lemma post_srv_s : forall st r (P Q : Prop), (snd r = None -> Q -> P) -> post_srv st r P -> post_s st r Q.
Proof. intros st r P Q HPQ ((H1 & H2 & H3 & H4 & H5 & H6) & _). unfold post_s in *. cbn [fst snd] in *. intuition. Qed.

(* closes the clauses of post_srv / post_s on one path, as finish_post does for `post` *)
Ltac finish_s :=
  unfold post_srv, post_s, same_cfg, terminal; mcbn; cbn [app];
  repeat split; intros;
  first [exact I | reflexivity | discriminate | assumption | congruence | lia | tauto | intuition (first [discriminate | lia]) | auto].

Ltac start_s :=
  intros [s outs ctr now live] (Hl & Ht & Ha & Hs); cbn [h_s h_outs h_live] in *; subst live;
  destruct_ssm s; unfold terminal in Ht; cbn [s_state s_app_to s_seg_to s_timer] in *.

Lemma s_idle_post : forall a st, pre_s st -> s_state (h_s st) = IDLE -> post_s st (s_idle a st) True.
Proof.
  intros a. start_s. intros Hi. cbn [h_s s_state] in Hi. subst x_state.
  unfold s_idle, s_abort.
  destruct (a_type a =? 0); cbn [negb]; [|finish_s].
  destruct (decode_max_apdu_length_accepted (a_maxresp a)) as [[dec|]|e0];
    [mcbn0; set (ma := match x_dinf with Some _ => _ | None => _ end); clearbody ma; destruct (dec_maxsegs (a_maxsegs a)) as [ms|e1]
    | | destruct e0];
  path_split; finish_s.
Qed.

(* what ServerSSM.idle does to the record and the outbox on every path, raising or not.  The maximum APDU length is the
   decoded one, raised to the I-Am value recorded for the peer. *)
Definition idle_maxapdu (dec : Z) (s : ssm) : Z :=
  match s_dinfo s with
  | Some d => match d_maxapdu d with Some dm => if dm <? dec then dec else dm | None => dec end
  | None => dec
  end.

Definition idle_spec (a : apdu) (st st' : hst) : Prop :=
  s_peer (h_s st') = s_peer (h_s st) /\ s_invoke (h_s st') = a_invoke a /\
  (s_ctx (h_s st') = s_ctx (h_s st) \/ s_ctx (h_s st') = Some a) /\
  match decode_max_apdu_length_accepted (a_maxresp a) with
  | Ok (Some dec) =>
      s_maxapdu (h_s st') = idle_maxapdu dec (h_s st) /\
      match dec_maxsegs (a_maxsegs a) with Ok ms => s_maxsegs (h_s st') = ms /\ s_sra (h_s st') = a_sa a | Err _ => True end
  | _ => True
  end /\
  exists new, h_outs st' = new ++ h_outs st /\
    (new = [] \/ (new = [ToApp a] /\ a_seg a = false /\ h_live st' = h_live st) \/
     (exists r, new = [Tx (mk_abort true (a_invoke a) r)]) \/
     (new = [Tx (mk_segack false true (a_invoke a) 0 (Z.min (a_win a) (s_propwin (h_s st))))] /\ a_seg a = true)).

Lemma s_idle_spec : forall a st, a_type a = 0 -> idle_spec a st (fst (s_idle a st)).
Proof.
  intros a [s outs ctr now live] Ht. destruct_ssm s. unfold s_idle, s_abort. rewrite Ht. cbn [Z.eqb negb].
  (* the statement stays folded and the limit is named while the run is split *)
  destruct (decode_max_apdu_length_accepted (a_maxresp a)) as [[dec|]|e0] eqn:Ed;
    [mcbn0; set (ma := match x_dinf with Some _ => _ | None => _ end); destruct (dec_maxsegs (a_maxsegs a)) as [ms|e1] eqn:Em
    | | destruct e0];
    path_split; unfold idle_spec, idle_maxapdu; mcbn; rewrite Ed, ?Em;
    (split; [reflexivity|]); (split; [reflexivity|]); (split; [first [left; reflexivity | right; reflexivity]|]);
    (split; [first [exact I | repeat split]|]).
  all: first [exists []; split; [reflexivity | left; reflexivity] | eexists [_]; split; [reflexivity|]];
    destruct (a_seg a); try discriminate; eauto 6.
Qed.

Lemma s_segmented_request_srv : forall a st, pre_s st -> post_srv st (s_segmented_request a st) (s_timer (h_s st) <> None).
Proof.
  intros a. start_s.
  unfold s_segmented_request, s_abort, append_segment, actwin_z.
  path_split; finish_s.
Qed.

Lemma s_await_response_srv : forall a st, pre_s st -> post_srv st (s_await_response a st) (s_timer (h_s st) <> None).
Proof.
  intros a. start_s.
  unfold s_await_response.
  path_split; finish_s.
Qed.

Lemma s_segmented_response_srv : forall a st, pre_s st -> post_srv st (s_segmented_response a st) (s_timer (h_s st) <> None).
Proof.
  intros a. start_s.
  unfold s_segmented_response.
  path_split; finish_s.
Qed.

Lemma s_confirmation_srv : forall a st, pre_s st -> post_srv st (s_confirmation a st) (s_timer (h_s st) <> None).
Proof.
  intros a. start_s.
  unfold s_confirmation, s_abort.
  path_split; finish_s.
Qed.

Lemma s_process_task_srv : forall st, pre_s st ->
  post_srv st (s_process_task st)
    (snd (s_process_task st) = None \/ s_state (h_s st) = SEGMENTED_REQUEST \/ s_state (h_s st) = AWAIT_RESPONSE \/
     s_state (h_s st) = SEGMENTED_RESPONSE).
Proof.
  start_s.
  unfold s_process_task, s_segmented_request_timeout, s_await_response_timeout, s_segmented_response_timeout, s_abort.
  path_split; finish_s.
Qed.

Lemma s_indication_srv : forall a st, pre_s st -> s_state (h_s st) <> IDLE ->
  post_srv st (s_indication a st) (s_timer (h_s st) <> None).
Proof.
  intros a st Hpre Hn. apply (s_indication_cases (fun r => post_srv st r (s_timer (h_s st) <> None))).
  - intros Hi. contradiction.
  - apply s_segmented_request_srv; exact Hpre.
  - apply s_await_response_srv; exact Hpre.
  - apply s_segmented_response_srv; exact Hpre.
  - clear Hn. revert Hpre. destruct st as [s outs ctr now live]. intros (Hl & Ht & _). cbn [h_s h_live] in *. subst live.
    destruct_ssm s. unfold terminal in Ht. cbn [s_state] in Ht. finish_s.
Qed.

Lemma s_indication_post : forall a st, pre_s st -> post_s st (s_indication a st) (s_timer (h_s st) <> None \/ s_state (h_s st) = IDLE).
Proof.
  intros a st Hpre. destruct (Z.eq_dec (s_state (h_s st)) IDLE) as [Hi|Hn].
  - rewrite (s_indication_idle a st Hi).
    destruct (s_idle_post a st Hpre Hi) as (H1 & H2 & H3 & H4 & H5 & H6). unfold post_s. intuition.
  - apply (post_srv_s _ _ (s_timer (h_s st) <> None)); [intros _ [H|H]; [exact H | contradiction] | apply s_indication_srv; assumption].
Qed.
