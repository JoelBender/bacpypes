(* ApciSessionFacts.v — decoding is a function of the octets fed: no history of other objects
   enters (ApciSession.v). *)
From Bac Require Import Base BytesFacts Apci ApciHdr ApciDec ApciSession.
Open Scope N_scope.

Lemma pick_none {A} (x : option A) : pick x None = x.
Proof. destruct x; reflexivity. Qed.

Lemma overlay_none new : overlay apci_none new = new.
Proof. destruct new. unfold overlay, apci_none. cbn -[pick]. rewrite !pick_none. reflexivity. Qed.

Lemma dec_into_fresh bs : dec_into apci_none bs = dec_apci bs.
Proof.
  unfold dec_into. destruct (dec_apci bs) as [[a r]|e]; cbn [bind]; [|reflexivity].
  rewrite overlay_none. reflexivity.
Qed.

(* any object: the payload and the decoded attributes come from the octets alone; the object's
   past shows only in attributes the decoded PDU type does not carry *)
Lemma dec_into_inv old bs a r : dec_into old bs = Ok (a, r) ->
  exists a0, dec_apci bs = Ok (a0, r) /\ a = overlay old a0.
Proof.
  unfold dec_into. destruct (dec_apci bs) as [[a0 r0]|e]; cbn [bind]; [|discriminate].
  intros H; injection H as <- <-. exists a0. split; reflexivity.
Qed.

Lemma dec_into_err old bs e : dec_into old bs = Err e <-> dec_apci bs = Err e.
Proof.
  unfold dec_into. destruct (dec_apci bs) as [[a0 r0]|e0]; cbn [bind]; split; intros H;
    try discriminate; assumption.
Qed.

Lemma reused_object_roundtrip old h p : wf_hdr h = true ->
  dec_into old (spec20_1 h ++ p) = Ok (overlay old (to_apci h), p) /\
  enc_apdu (overlay old (to_apci h)) p = Ok (spec20_1 h ++ p).
Proof.
  intros W. split.
  - unfold dec_into. rewrite hdr_decode by assumption. reflexivity.
  - rewrite <- (apdu_layout h p W). unfold enc_apdu. f_equal.
    destruct old as [o1 o2 o3 o4 o5 o6 o7 o8 o9 o10 o11 o12 o13]. destruct h; cbn [to_apci overlay pick aType aSeg aMor aSA aSrv aNak aSeq aWin
      aMaxSegs aMaxResp aService aInvokeID aReason zo]; try reflexivity.
    + destruct seg; reflexivity.
    + destruct seg; reflexivity.
Qed.

Lemma lookup_update_same st o v : lookup (update st o v) o = v.
Proof. cbn [update lookup]. rewrite Nat.eqb_refl. reflexivity. Qed.

Lemma lookup_update_other st o v o' : o' <> o -> lookup (update st o v) o' = lookup st o'.
Proof. intros H. cbn [update lookup]. destruct (Nat.eqb o o') eqn:E; [apply Nat.eqb_eq in E; congruence|reflexivity]. Qed.

Lemma step_frame st x o' : ~ In o' (touched x) -> lookup (fst (step st x)) o' = lookup st o'.
Proof.
  intros H. destruct x; cbn [touched In] in H; cbn [step].
  - destruct (dec_into (fst (lookup st o)) bs) as [[a r]|e]; cbn [fst]; [|reflexivity].
    apply lookup_update_other. intuition.
  - destruct (lookup st o) as [a p]. cbn [fst]. apply lookup_update_other. intuition.
  - destruct (enc_apdu h p) as [bs|e]; [|reflexivity].
    destruct (lookup st o) as [a q]. cbn [fst]. apply lookup_update_other. intuition.
  - destruct (lookup st src) as [a p]. cbn [fst].
    rewrite !lookup_update_other by intuition. reflexivity.
  - destruct (lookup st o) as [a p]. reflexivity.
  - cbn [fst]. apply lookup_update_other. intuition.
  - destruct (lookup st src) as [sa sbs].
    destruct (dec_into (fst (lookup st o)) sbs) as [[a r]|e]; cbn [fst]; [|reflexivity].
    rewrite !lookup_update_other by intuition. reflexivity.
  - destruct (lookup st o) as [a p]. destruct (enc_apdu a p) as [bs|e]; [|reflexivity].
    destruct (lookup st dst) as [da dd]. cbn [fst]. apply lookup_update_other. intuition.
  - reflexivity.
Qed.


(* X.decode(apdu) into a typed object that was used before: whatever it held (attributes, payload)
   is replaced by the source's attributes and payload; the source is drained *)
Lemma typed_decode_replaces st dst src : dst <> src ->
  lookup (fst (step st (OpTyped dst src))) dst = lookup st src /\
  lookup (fst (step st (OpTyped dst src))) src = (fst (lookup st src), []).
Proof.
  intros H. cbn [step]. destruct (lookup st src) as [a p]. cbn [fst].
  rewrite lookup_update_same. split; [reflexivity|].
  rewrite lookup_update_other by congruence. apply lookup_update_same.
Qed.

(* apdu.decode(pdu) with pdu an object of the store: the target holds header + payload, the source is empty *)
Lemma decode_from_drains st o src a r : o <> src ->
  dec_into (fst (lookup st o)) (snd (lookup st src)) = Ok (a, r) ->
  lookup (fst (step st (OpDecodeFrom o src))) o = (a, r) /\
  lookup (fst (step st (OpDecodeFrom o src))) src = (fst (lookup st src), []).
Proof.
  intros H D. cbn [step]. destruct (lookup st src) as [sa sbs]. cbn [snd fst] in *. rewrite D. cbn [fst].
  rewrite lookup_update_same. split; [reflexivity|].
  rewrite lookup_update_other by congruence. apply lookup_update_same.
Qed.

(* relay: decode a frame out of a PDU object, encode the APDU back into that same (consumed) PDU:
   the PDU holds exactly the frame again, for every header and every payload, whatever the
   decoding object held before *)
Lemma relay_roundtrip st o src h p : o <> src -> wf_hdr h = true ->
  snd (lookup st src) = spec20_1 h ++ p ->
  let st1 := fst (step st (OpDecodeFrom o src)) in
  let st2 := fst (step st1 (OpEncodeTo o src)) in
  lookup st1 o = (overlay (fst (lookup st o)) (to_apci h), p) /\
  snd (lookup st1 src) = [] /\
  snd (lookup st2 src) = spec20_1 h ++ p /\
  lookup st2 o = lookup st1 o.
Proof.
  intros H W S st1 st2.
  destruct (reused_object_roundtrip (fst (lookup st o)) h p W) as [D E].
  rewrite <- S in D.
  destruct (decode_from_drains st o src _ _ H D) as [L1 L2].
  fold st1 in L1, L2. split; [exact L1|]. split; [rewrite L2; reflexivity|].
  subst st2. cbn [step]. rewrite L1, E, L2. cbn [fst snd].
  rewrite lookup_update_same. split; [reflexivity|].
  rewrite lookup_update_other by congruence. exact L1.
Qed.

(* large payloads: the canonical form of a frame whose payload is the pattern is the header, the
   length and "same octets", for every header and every length *)
Lemma pat_length n k : length (pat n k) = n.
Proof. unfold pat. rewrite map_length. apply seq_length. Qed.

Lemma canon_enc_big_pat n k hd :
  canon_enc_big n k (Ok (hd ++ pat n k)) = (0 :: zs hd ++ [Z.of_nat (length hd + n); 1])%Z.
Proof.
  unfold canon_enc_big, cres, zlen, same_octets. cbv zeta.
  rewrite app_length, pat_length, Nat.add_sub.
  destruct (split_at_length hd (pat n k)) as [-> ->]. rewrite (proj2 (list_eqb_N_eq _ _) eq_refl). reflexivity.
Qed.

Lemma canon_dec_big_pat n k a :
  canon_dec_big n k (Ok (a, pat n k)) = (0 :: canon_apci a ++ [Z.of_nat n; 1])%Z.
Proof.
  unfold canon_dec_big, cres, zlen, same_octets. cbn [fst snd]. rewrite pat_length, (proj2 (list_eqb_N_eq _ _) eq_refl). reflexivity.
Qed.

Lemma enc_big_payload h n k : wf_hdr h = true ->
  canon_enc_big n k (enc_apdu (to_apci h) (pat n k))
  = (0 :: zs (spec20_1 h) ++ [Z.of_nat (length (spec20_1 h) + n); 1])%Z.
Proof. intros W. rewrite (apdu_layout h _ W). apply canon_enc_big_pat. Qed.

Lemma dec_big_payload h n k : wf_hdr h = true ->
  canon_dec_big n k (dec_apci (spec20_1 h ++ pat n k)) = (0 :: canon_apci (to_apci h) ++ [Z.of_nat n; 1])%Z.
Proof. intros W. rewrite (hdr_decode h _ W). apply canon_dec_big_pat. Qed.
