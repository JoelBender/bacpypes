(* DeviceRxHdr.v — C10 at the level of the OCTETS of the fixed header: every value of the invoke ID octet (0 and 255
   included), of the second header octet, of the free low bits of the first octet and of the NPCI priority /
   expecting-reply bits gives a frame that `request_of` accepts, so that DeviceRxEnd.one_reply_end_to_end applies with
   nothing left to assume about the header. *)
From Bac Require Import Base Ssm.
From Bac Require Npci Apci RouterCache SsmWorld.
From Bac Require Import Asap AsapCodec DeviceRx DeviceRxEnd.
From BacGen Require Import ApduFns.
Open Scope Z_scope.

(* the octets of an unsegmented confirmed request as they travel on the LAN: version 1, NPCI control `ctl` without
   DNET / SNET / network-message bits, first APDU octet b0 (PDU type 0, SEG = MOR = 0; SA and the reserved bit free),
   b1, invoke ID, service choice, parameters *)
Definition plain_ctl (ctl : N) : Prop := (ctl < 8)%N.
Definition plain_b0 (b0 : N) : Prop := (b0 < 4)%N.
Definition request_octets (ctl b0 b1 inv sc : N) (params : list N) : list N :=
  1%N :: ctl :: b0 :: b1 :: inv :: sc :: params.

Definition request_apdu (b0 b1 inv sc : N) (params : list N) : apdu :=
  mkApdu 0 false false (negb (N.land b0 2 =? 0)%N) false false (-1) (-1)
         (Z.of_N (N.land (N.shiftr b1 4) 7)) (Z.of_N (N.land b1 15)) (Z.of_N sc) (Z.of_N inv) (-1) (map Z.of_N params).

Lemma request_octets_parse m bc ctl b0 b1 inv sc params : plain_ctl ctl -> plain_b0 b0 ->
  request_of (mkFrame m bc (request_octets ctl b0 b1 inv sc params)) = Some (None, m, request_apdu b0 b1 inv sc params).
Proof.
  unfold plain_ctl, plain_b0. intros Hc Hb.
  assert (Hc' : (ctl = 0 \/ ctl = 1 \/ ctl = 2 \/ ctl = 3 \/ ctl = 4 \/ ctl = 5 \/ ctl = 6 \/ ctl = 7)%N) by lia.
  assert (Hb' : (b0 = 0 \/ b0 = 1 \/ b0 = 2 \/ b0 = 3)%N) by lia.
  assert (Hlen : forall (a b : N) r, (lenN (a :: b :: r) <? 2)%N = false) by (intros; unfold lenN; cbn [length]; lia).
  unfold request_of, request_octets, Npci.dec_npci. cbn [f_data f_src]. rewrite Hlen.
  destruct Hc' as [->|[->|[->|[->|[->|[->|[->| ->]]]]]]]; destruct Hb' as [->|[->|[->| ->]]]; reflexivity.
Qed.

Lemma request_apdu_fields b0 b1 inv sc params :
  a_seg (request_apdu b0 b1 inv sc params) = false /\ a_invoke (request_apdu b0 b1 inv sc params) = Z.of_N inv /\
  a_service (request_apdu b0 b1 inv sc params) = Z.of_N sc /\ a_type (request_apdu b0 b1 inv sc params) = 0.
Proof. repeat split. Qed.

(* a device that listens: communication enabled / initiation disabled, or the two services a disabled device still serves *)
Definition listens (dcc : Z) (sc : N) : Prop := dcc <> 1 \/ sc = 17%N \/ sc = 20%N.
Lemma listens_passes dcc b0 b1 inv sc params : listens dcc sc -> dcc_passes dcc (request_apdu b0 b1 inv sc params) = true.
Proof.
  unfold listens, dcc_passes. intros H. destruct (dcc =? 1) eqn:E; [|reflexivity].
  cbn [request_apdu a_type a_service]. destruct H as [H|[->| ->]]; [lia|reflexivity|reflexivity].
Qed.

Theorem header_octets_one_reply st now m bc ctl b0 b1 inv sc params x :
  plain_ctl ctl -> plain_b0 b0 -> listens (d_dcc st) sc ->
  find_tr (Z.of_N inv) (peer_code None m) (d_str st) O = None ->
  SsmWorld.assoc (peer_code None m) (SsmWorld.c_know (d_cfg st)) = None ->
  x_exec x <> XSilent ->
  exists fr, snd (device_rx st now (mkFrame m bc (request_octets ctl b0 b1 inv sc params)) x) = [DFrame (mac_code m) None fr] /\
             a_invoke fr = Z.of_N inv.
Proof.
  intros Hc Hb Hl Hf Hk Hx.
  pose proof (request_octets_parse m bc ctl b0 b1 inv sc params Hc Hb) as Hreq.
  destruct (one_reply_end_to_end st now _ x m _ Hreq (proj1 (request_apdu_fields b0 b1 inv sc params))
              (listens_passes _ b0 b1 inv sc params Hl) Hf Hk Hx) as (fr & H1 & H2).
  exists fr. split; [exact H1 | exact H2].
Qed.

Theorem header_octets_one_reply_fresh cfg now m bc ctl b0 b1 inv sc params x :
  SsmWorld.c_know cfg = [] -> plain_ctl ctl -> plain_b0 b0 -> x_exec x <> XSilent ->
  exists fr, snd (device_rx (dev_init cfg) now (mkFrame m bc (request_octets ctl b0 b1 inv sc params)) x)
             = [DFrame (mac_code m) None fr] /\ a_invoke fr = Z.of_N inv.
Proof.
  intros Hk Hc Hb Hx. apply header_octets_one_reply; auto.
  - left. cbn. lia.
  - cbn [dev_init d_cfg]. rewrite Hk. reflexivity.
Qed.

(* when the answer is not a ComplexAck and the max-APDU code is a defined one, it is the very reply the ASAP model
   prescribes for the parameter octets *)
Theorem header_octets_reply st now m bc ctl b0 b1 inv sc params x r dec :
  let a := request_apdu b0 b1 inv sc params in
  plain_ctl ctl -> plain_b0 b0 -> listens (d_dcc st) sc ->
  decode_max_apdu_length_accepted (Z.of_N (N.land b1 15)) = Ok (Some dec) ->
  find_tr (Z.of_N inv) (peer_code None m) (d_str st) O = None ->
  SsmWorld.assoc (peer_code None m) (SsmWorld.c_know (d_cfg st)) = None ->
  asap_octets (Z.to_N (Z.of_N sc)) (map Z.to_N (map Z.of_N params)) (x_helper x) (x_exec x) = [r] ->
  (ptype r = 2 \/ ptype r = 5 \/ ptype r = 6 \/ ptype r = 7)%N ->
  snd (device_rx st now (mkFrame m bc (request_octets ctl b0 b1 inv sc params)) x) = [DFrame (mac_code m) None (reply_apdu a x r)].
Proof.
  intros a Hc Hb Hl Hdec Hf Hk Hr Ht.
  pose proof (request_octets_parse m bc ctl b0 b1 inv sc params Hc Hb) as Hreq.
  exact (local_request_reply st now _ x m a r dec Hreq eq_refl Hdec (listens_passes _ b0 b1 inv sc params Hl) Hf Hk Hr Ht).
Qed.
