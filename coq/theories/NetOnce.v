(* NetOnce.v — a remote unicast is handed to an application at most once, on EVERY topology: while it travels
   there is never more than one copy in flight (lemmas about Net.v, property C06). *)
From Bac Require Import Base ListFacts Net NetFacts NetTerm2.
Open Scope N_scope.

Definition uni_npdu (p : npdu) : Prop :=
  n_msg p = None /\ (n_dadr p = None \/ exists d m, n_dadr p = Some (DStation d m)).
Definition uni_frame (f : frame) : Prop := uni_npdu (f_npdu f) /\ exists m, f_dst f = LStation m.

Definition uni_action (p : npdu) (a : action) : Prop :=
  match a with
  | Tx _ _ _ => False
  | Fwd _ d q => (exists m, d = LStation m) /\ n_msg q = None /\ (n_dadr q = None \/ n_dadr q = n_dadr p)
  | _ => True
  end.

Definition weight_action (a : action) : nat :=
  match a with Fwd _ _ _ => 1 | Up _ _ _ => 1 | Tx _ _ _ => 1 | _ => 0 end%nat.
Definition weight_actions (l : list action) : nat := fold_right (fun a s => (weight_action a + s)%nat) 0%nat l.

Lemma forward_uni : forall n i ai src p d m,
  n_msg p = None -> n_dadr p = Some (DStation d m) -> routable n d ->
  Forall (uni_action p) (forward n i ai src p (DStation d m)) /\
  (weight_actions (forward n i ai src p (DStation d m)) <= 1)%nat.
Proof.
  intros n i ai src p d m Hm Hd Hr.
  destruct (forward_cases n i ai src p (DStation d m))
    as [E|[E|(inet & Hro & _ & _ & [[Hg _]|(dnet & Hdn & [(j & _ & _ & E)|[(j & m0 & _ & _ & E)|(Hf & Hp & _)]])])]];
    try discriminate Hg; try rewrite E.
  - split; [constructor|cbn; lia].
  - split; [repeat constructor|cbn; lia].
  - split; [|cbn; lia]. constructor; [|constructor]. cbn. eauto.
  - split; [|cbn; lia]. constructor; [|constructor]. cbn. eauto.
  - inversion Hdn; subst. destruct Hr as [Hr|[Hr|Hr]]; congruence.
Qed.

Lemma local_unicast_not_forwarded : forall nx i li ai la src p fw,
  decision i li ai la p = Ok (Some (true, fw)) ->
  (n_dadr p = None \/ exists d m, n_dadr p = Some (DStation d m)) -> fwd_tail nx i ai src p fw = [].
Proof.
  intros nx i li ai la src p fw H Hd. unfold fwd_tail, decision in *.
  destruct Hd as [Hd|(d & m & Hd)]; rewrite Hd in *; [reflexivity|].
  destruct (optN_eqb (Some d) (a_net ai)); [discriminate|].
  destruct (optN_eqb (Some d) (a_net la)); [|discriminate].
  destruct (a_mac la) as [lm|]; [|discriminate]. destruct (mac_eqb m lm); inversion H; reflexivity.
Qed.

Lemma process_npdu_uni : forall n i src dst p n' acts,
  process_npdu n i src dst p = (n', acts) -> uni_npdu p ->
  (forall d, target p = Some d -> routable n d) ->
  Forall (uni_action p) acts /\ (weight_actions acts <= 1)%nat.
Proof.
  intros n i src dst p n' acts H [Hm Hd] Hr.
  destruct (process_npdu_shape _ _ _ _ _ _ _ H)
    as [[_ Ha]|(ai & la & _ & _ & _ & _ & head & fw & Ea & [[En Hp]|[(w & Hw & _)|(nets & Hw & _)]])];
    [destruct Ha as [Ha|[Ha|Ha]]; subst acts; (split; [repeat constructor|cbn; lia])| |congruence..].
  assert (Htail : Forall (uni_action p) (fwd_tail n' i ai src p fw) /\
                  (weight_actions (fwd_tail n' i ai src p fw) <= 1)%nat).
  { unfold fwd_tail. destruct Hd as [Hd|(d & m & Hd)]; rewrite Hd; [split; [constructor|cbn; lia]|].
    destruct fw; [|split; [constructor|cbn; lia]]. apply forward_uni; auto.
    apply (routable_mono n); [eapply process_npdu_adapters|eapply process_npdu_cache_mono|]; eauto.
    apply Hr. unfold target. rewrite Hd. reflexivity. }
  subst acts. destruct Hp as [Hp|[[e Hp]|[Hp|(_ & _ & Hdec & Hp)]]]; subst head; cbn [app].
  - exact Htail.
  - split; [constructor; [exact I|apply Htail]|apply Htail].
  - split; [constructor; [exact I|apply Htail]|apply Htail].
  - rewrite (local_unicast_not_forwarded _ _ _ _ _ _ _ _ Hdec Hd). split; [repeat constructor|cbn; lia].
Qed.

Definition is_oup (o : obs) : bool := match o with OUp _ _ _ _ => true | _ => false end.
Definition ups (os : list obs) : nat := length (filter is_oup os).

Lemma ups_app : forall a b, ups (a ++ b) = (ups a + ups b)%nat.
Proof. intros. unfold ups. rewrite filter_app, app_length. reflexivity. Qed.

Lemma ups_rev : forall os, ups (rev os) = ups os.
Proof.
  induction os as [|o os IH]; [reflexivity|]. cbn [rev]. rewrite ups_app, IH.
  change (o :: os) with ([o] ++ os). rewrite ups_app. lia.
Qed.

Lemma emit_uni : forall w who p acts,
  uni_npdu p -> Forall (uni_action p) acts ->
  Forall (fun g => uni_frame g /\ (n_dadr (f_npdu g) = None \/ n_dadr (f_npdu g) = n_dadr p)) (fst (emit w who acts)) /\
  (length (fst (emit w who acts)) + ups (snd (emit w who acts)) <= weight_actions acts)%nat.
Proof.
  intros w who p acts Hp. induction acts as [|a r IH]; intro Hall; [split; [constructor|cbn; lia]|].
  inversion Hall as [|? ? Ha Hr]; subst. destruct (IH Hr) as [IH1 IH2].
  rewrite emit_cons. cbn [fst snd weight_actions fold_right]. fold (weight_actions r).
  rewrite app_length, ups_app.
  destruct a; cbn [uni_action weight_action act_frames act_obs app length] in *; try contradiction;
    try (split; [assumption|unfold ups at 1; cbn; lia]).
  destruct (nth_error (w_ports w) port) as [[lan m]|]; cbn [app length]; [|split; [assumption|unfold ups at 1; cbn; lia]].
  destruct Ha as ([m0 Hd] & Hm & Hc). split; [|unfold ups at 1; cbn; lia].
  constructor; [|assumption]. split; [|cbn; assumption]. split; [|exists m0; assumption].
  split; [assumption|]. destruct Hc as [Hc|Hc]; [left; assumption|].
  destruct Hp as [_ [Hp|Hp]]; [left; cbn; congruence|right; cbn; rewrite Hc; assumption].
Qed.

Definition port_mac (ns : list wnode) (m : nat * nat) : option mac :=
  match nth_error ns (fst m) with
  | Some w => match nth_error (w_ports w) (snd m) with Some (_, x) => Some x | None => None end
  | None => None
  end.

Lemma port_mac_set_nth : forall ns who w n' m,
  nth_error ns who = Some w -> port_mac (set_nth ns who (mkW n' (w_ports w))) m = port_mac ns m.
Proof.
  intros ns who w n' [a b] Hw. unfold port_mac. cbn [fst snd].
  destruct (Nat.eq_dec who a) as [E|E].
  - subst a. rewrite (set_nth_nth_same _ _ _ _ Hw), Hw. reflexivity.
  - rewrite set_nth_nth_other by assumption. reflexivity.
Qed.

Lemma member_out_other_mac : forall ns f x m,
  f_dst f = LStation m -> port_mac ns x <> Some m -> member_out ns f x = (None, [], []).
Proof.
  intros ns f x m Hd Hno. unfold member_out, port_mac in *.
  destruct (nth_error ns (fst x)) as [w|]; [|reflexivity].
  destruct (nth_error (w_ports w) (snd x)) as [[lan wmac]|]; [|reflexivity].
  unfold accepts. rewrite Hd, mac_eqb_neq; [reflexivity|congruence].
Qed.

Lemma deliver_skip : forall pre rest ns f q tr m,
  f_dst f = LStation m -> (forall x, In x pre -> port_mac ns x <> Some m) ->
  deliver ns f (pre ++ rest) q tr = deliver ns f rest q tr.
Proof.
  induction pre as [|x r IH]; intros rest ns f q tr m Hd Hno; [reflexivity|].
  cbn [app]. rewrite deliver_cons, (member_out_other_mac ns f x m Hd) by (apply Hno; left; reflexivity).
  apply (IH _ _ _ _ _ m Hd). intros y Hy. apply Hno. right. exact Hy.
Qed.

Lemma deliver_nobody : forall members ns f q tr m,
  f_dst f = LStation m -> (forall x, In x members -> port_mac ns x <> Some m) ->
  deliver ns f members q tr = (ns, q, tr).
Proof. intros members ns f q tr m Hd Hno. rewrite <- (app_nil_r members). exact (deliver_skip members [] ns f q tr m Hd Hno). Qed.

Lemma deliver_uni : forall members ns f q tr ns' q' tr',
  deliver ns f members q tr = (ns', q', tr') -> uni_frame f ->
  NoDup (map (port_mac ns) members) ->
  (forall d, target (f_npdu f) = Some d -> all_routable ns d) ->
  exists new osn, q' = q ++ new /\ tr' = osn ++ tr /\
    Forall (fun g => uni_frame g /\ (n_dadr (f_npdu g) = None \/ n_dadr (f_npdu g) = n_dadr (f_npdu f))) new /\
    (length new + ups osn <= 1)%nat /\
    (forall x, port_mac ns' x = port_mac ns x) /\
    (forall d, all_routable ns d -> all_routable ns' d).
Proof.
  induction members as [|x r IH]; intros ns f q tr ns' q' tr' H Hu Hnd Hr.
  - inversion H; subst. exists [], []. rewrite app_nil_r. repeat split; auto; try (cbn; lia).
  - cbn [map] in Hnd. inversion Hnd as [|? ? Hnotin Hnd']; subst.
    rewrite deliver_cons in H. destruct (member_out ns f x) as [[[w'|] fs] os] eqn:Em; [|eapply IH; eauto].
    destruct (member_out_some _ _ _ _ _ _ Em) as (w & lan & wmac & n' & acts & En & Ep & Eacc & Epr & Ew & Ee).
    destruct Hu as [Hp [m Hd]].
    assert (Hm : wmac = m) by (eapply thm_lan_unicast; eauto). subst wmac w'.
    assert (Hin : In w ns) by (eapply nth_error_In; eauto).
    assert (Hacts : Forall (uni_action (f_npdu f)) acts /\ (weight_actions acts <= 1)%nat).
    { eapply process_npdu_uni; eauto. intros d Hd'. apply (Hr d Hd' w Hin). }
    destruct (emit_uni (mkW n' (w_ports w)) (fst x) _ acts Hp (proj1 Hacts)) as [Hfs Hlen].
    rewrite Ee in Hfs, Hlen. cbn [fst snd] in Hfs, Hlen.
    (* nobody else on this LAN has address m *)
    assert (Hhead : port_mac ns x = Some m) by (unfold port_mac; rewrite En, Ep; reflexivity).
    assert (Hno : forall y, In y r -> port_mac (set_nth ns (fst x) (mkW n' (w_ports w))) y <> Some m).
    { intros y Hy. rewrite (port_mac_set_nth _ _ _ _ _ En). intro E. apply Hnotin.
      rewrite Hhead, <- E. apply in_map. assumption. }
    rewrite (deliver_nobody r _ f _ _ m Hd Hno) in H. inversion H; subst; clear H.
    exists fs, (rev os). rewrite ups_rev. repeat split; auto.
    + rewrite rev_append_rev. reflexivity.
    + lia.
    + intro y. apply (port_mac_set_nth _ _ _ _ _ En).
    + intros d Hd'. eapply member_out_routable; eauto.
Qed.

Definition lans_distinct (lns : list (N * list (nat * nat))) (ns : list wnode) : Prop :=
  forall lan, NoDup (map (port_mac ns) (lan_members lns lan)).

Lemma step_uni : forall w f,
  queue w = [f] -> uni_frame f -> lans_distinct (lans w) (nodes w) ->
  (forall d, target (f_npdu f) = Some d -> all_routable (nodes w) d) ->
  exists w' osn, step w = Some w' /\ lans w' = lans w /\ trace w' = osn ++ OFrame f :: trace w /\
    lans_distinct (lans w') (nodes w') /\
    ((queue w' = [] /\ (ups osn <= 1)%nat) \/
     (exists g, queue w' = [g] /\ uni_frame g /\ ups osn = 0%nat /\
                (forall d, target (f_npdu g) = Some d -> all_routable (nodes w') d))).
Proof.
  intros w f Hq Hu Hdist Hr. rewrite (step_cons w f [] Hq).
  destruct (deliver (nodes w) f (lan_members (lans w) (f_lan f)) [] [OFrame f]) as [[ns q'] os] eqn:Ed.
  destruct (deliver_uni _ _ _ _ _ _ _ _ Ed Hu (Hdist (f_lan f)) Hr) as (new & osn & A1 & A2 & A3 & A4 & A5 & A6).
  cbn [app] in A1. subst q' os.
  eexists. exists osn. split; [reflexivity|]. cbn [lans nodes queue trace]. repeat split.
  - rewrite <- app_assoc. reflexivity.
  - intro lan. rewrite (map_ext _ _ A5). apply Hdist.
  - destruct new as [|g [|g2 r]]; cbn [length] in A4.
    + left. split; [reflexivity|lia].
    + right. exists g. inversion A3; subst. destruct H1 as [Hg Hc].
      split; [reflexivity|]. split; [exact Hg|]. split; [lia|].
      intros d Hd. apply A6, Hr. eapply copy_target; eauto.
    + lia.
Qed.

(* a unicast frame alone in flight stays alone, and over the whole run at most one PDU is handed up: on every
   topology with distinct link addresses per LAN in which the routers have some path for the destination network *)
Theorem unicast_at_most_once : forall k w f,
  queue w = [f] -> uni_frame f -> lans_distinct (lans w) (nodes w) ->
  (forall d, target (f_npdu f) = Some d -> all_routable (nodes w) d) ->
  exists osn, trace (run k w) = osn ++ trace w /\ (ups osn <= 1)%nat /\
              (length (queue (run k w)) <= 1)%nat /\
              (ups osn = 1%nat -> queue (run k w) = []).
Proof.
  induction k as [|k IH]; intros w f Hq Hu Hdist Hr.
  - exists []. cbn [run app]. rewrite Hq. split; [reflexivity|]. split; [cbn; lia|]. split; [cbn; lia|].
    unfold ups; cbn; discriminate.
  - destruct (step_uni w f Hq Hu Hdist Hr) as (w' & osn & Hs & Hl & Ht & Hd' & Hcase).
    cbn [run]. rewrite Hs. destruct Hcase as [[Hq' Hups]|(g & Hq' & Hg & Hups & Hr')].
    + rewrite (run_quiet k w' Hq'). exists (osn ++ [OFrame f]). rewrite Ht, <- app_assoc. cbn [app].
      rewrite Hq'.
      assert (E : ups (osn ++ [OFrame f]) = ups osn) by (rewrite ups_app; unfold ups at 2; cbn; lia).
      split; [reflexivity|]. split; [lia|]. split; [cbn; lia|]. intros _. reflexivity.
    + destruct (IH w' g Hq' Hg Hd' Hr') as (osn2 & B1 & B2 & B3 & B4).
      exists (osn2 ++ osn ++ [OFrame f]). rewrite B1, Ht, <- !app_assoc. cbn [app].
      assert (E : ups (osn2 ++ osn ++ [OFrame f]) = ups osn2).
      { rewrite !ups_app. unfold ups at 3. cbn. lia. }
      split; [reflexivity|]. split; [lia|]. split; [assumption|]. rewrite E. assumption.
Qed.

(* decidable forms of the hypotheses, for examples *)
Definition omac_eqb (a b : option mac) : bool :=
  match a, b with Some x, Some y => mac_eqb x y | None, None => true | _, _ => false end.

Lemma omac_eqb_refl : forall a, omac_eqb a a = true.
Proof. intros [x|]; cbn; [apply mac_eqb_refl|reflexivity]. Qed.

Fixpoint nodupb (l : list (option mac)) : bool :=
  match l with [] => true | a :: r => negb (existsb (omac_eqb a) r) && nodupb r end.

Lemma nodupb_sound : forall l, nodupb l = true -> NoDup l.
Proof.
  induction l as [|a r IH]; intro H; [constructor|]. cbn in H. apply andb_prop in H. destruct H as [H1 H2].
  constructor; [|apply IH; assumption]. apply (existsb_refl_notin omac_eqb omac_eqb_refl). apply negb_true_iff. exact H1.
Qed.

Definition lans_distinctb (lns : list (N * list (nat * nat))) (ns : list wnode) : bool :=
  forallb (fun kv => nodupb (map (port_mac ns) (snd kv))) lns.

Lemma lans_distinctb_sound : forall lns ns, lans_distinctb lns ns = true -> lans_distinct lns ns.
Proof.
  intros lns ns H lan. unfold lans_distinctb in H. rewrite forallb_forall in H.
  induction lns as [|[k m] r IH]; cbn [lan_members]; [constructor|].
  destruct (k =? lan).
  - apply nodupb_sound. apply (H (k, m)). left; reflexivity.
  - apply IH. intros x Hx. apply H. right; assumption.
Qed.

Definition uni_frameb (f : frame) : bool :=
  match n_msg (f_npdu f), f_dst f with
  | None, LStation _ => match n_dadr (f_npdu f) with None | Some (DStation _ _) => true | _ => false end
  | _, _ => false
  end.

Lemma uni_frameb_sound : forall f, uni_frameb f = true -> uni_frame f.
Proof.
  intros f H. unfold uni_frameb in H. unfold uni_frame, uni_npdu.
  destruct (n_msg (f_npdu f)); [discriminate|]. destruct (f_dst f) as [|m]; [discriminate|].
  split; [|eauto]. split; [reflexivity|].
  destruct (n_dadr (f_npdu f)) as [[|b|d mm]|]; try discriminate; [right; eauto|left; reflexivity].
Qed.

Corollary unicast_at_most_once_b : forall k w f,
  queue w = [f] -> uni_frameb f = true -> lans_distinctb (lans w) (nodes w) = true -> world_routableb w = true ->
  exists osn, trace (run k w) = osn ++ trace w /\ (ups osn <= 1)%nat /\
              (length (queue (run k w)) <= 1)%nat /\ (ups osn = 1%nat -> queue (run k w) = []).
Proof.
  intros k w f Hq Hu Hd Hr. apply (unicast_at_most_once k w f Hq).
  - apply uni_frameb_sound; assumption.
  - apply lans_distinctb_sound; assumption.
  - destruct (world_routableb_sound w Hr) as [_ H]. intros d Hd' wn Hwn.
    apply (H f d wn); [rewrite Hq; left; reflexivity|assumption|assumption].
Qed.
