(* ApciDec.v — what a successful decode yields: a well-formed typed header, which re-encodes. *)
From Bac Require Import Base BytesFacts Apci ApciHdr.
Open Scope N_scope.

(* exactly the attributes of its PDU type are present, every one within its width *)
Lemma dec_yields_header bs a r : bytes_ok bs = true -> dec_apci bs = Ok (a, r) ->
  exists h, wf_hdr h = true /\ a = to_apci h.
Proof.
  intros B E. pose proof (dec_apci_inv bs) as H. rewrite E in H. destruct H as (h & _ & -> & _ & _ & W).
  exists h. split; [exact (W B)|reflexivity].
Qed.

(* hence a decoded attribute set re-encodes, to octets that decode to the same thing: unused bits
   of the first two octets are the only information a decode / encode cycle drops *)
Lemma reencode_stable bs a r : bytes_ok bs = true -> dec_apci bs = Ok (a, r) ->
  exists bs', enc_apdu a r = Ok bs' /\ dec_apci bs' = Ok (a, r).
Proof.
  intros B D. destruct (dec_yields_header bs a r B D) as (h & W & ->).
  exists (spec20_1 h ++ r). split; [apply apdu_layout; assumption | apply hdr_decode; assumption].
Qed.
