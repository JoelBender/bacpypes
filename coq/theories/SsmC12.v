(* SsmC12.v — C12: lengths, segmentation decisions and window sizes against what the peer announced. *)
From Bac Require Import Base PyRt Ssm SsmFacts SsmC04a SsmC04s SsmWorld SsmC11.
From BacGen Require Import ApduFns.
Open Scope Z_scope.

Lemma client_segsize_le_peer : forall s d m, s_dinfo s = Some d -> d_maxapdu d = Some m -> client_segsize s <= m.
Proof.
  intros s d m Hd Hm. unfold client_segsize. rewrite Hd, Hm. destruct (d_maxnpdu d); lia.
Qed.

(* header on top of a full slice: the APDU is longer than the segment size (= the peer's maximum) *)
Definition over_sender : ssm :=
  mkSsm 2 1 SEGMENTED_REQUEST (Some (mk_creq false false false (-1) (-1) (-1) (-1) 1 12 (SsmWorld.zrange 0 180))) 50 4 0 0 false 0 0 (Some 2)
        3 3000 1500 3 (Some 64) 50 false None (Some (mkDinfo (Some 50) 3 (Some 64) None)) 2 3000.
Lemma over_witness : match get_segment over_sender 1 with Ok a => enc_len a = 56 /\ client_segsize over_sender = 50 | Err _ => False end.
Proof. vm_compute. split; reflexivity. Qed.

Lemma c_refuse_none : forall s cnt, c_refuse s cnt = None -> 1 < cnt ->
  can_tx (s_segsupp s) = true /\
  forall d, s_dinfo s = Some d -> can_rx (d_seg d) = true /\ forall m, d_maxsegs d = Some m -> m <> 0 -> cnt <= m.
Proof.
  intros s cnt H Hc. unfold c_refuse in H. replace (1 <? cnt) with true in H by lia.
  destruct (can_tx (s_segsupp s)); cbn [negb] in H; [|discriminate]. split; [reflexivity|].
  intros d Hd. rewrite Hd in H. destruct (can_rx (d_seg d)); cbn [negb] in H; [|discriminate]. split; [reflexivity|].
  intros m Hm Hm0. rewrite Hm in H. replace (m =? 0) with false in H by lia. destruct (m <? cnt) eqn:E; [discriminate | lia].
Qed.

Lemma s_refuse_none : forall s cnt, s_refuse s cnt = None -> 1 < cnt ->
  can_tx (s_segsupp s) = true /\ s_sra s = true /\ forall m, s_maxsegs s = Some m -> cnt <= m.
Proof.
  intros s cnt H Hc. unfold s_refuse in H. replace (1 <? cnt) with true in H by lia.
  destruct (can_tx (s_segsupp s)); cbn [negb] in H; [|discriminate].
  destruct (s_sra s); cbn [negb] in H; [|discriminate]. repeat split.
  intros m Hm. rewrite Hm in H. destruct (m <? cnt) eqn:E; [discriminate | lia].
Qed.

Definition tx_frames (outs : list out) : list apdu :=
  flat_map (fun o => match o with Tx a => [a] | ToApp _ => [] end) outs.

(* a request that is refused is not put on the wire at all; the application gets the abort *)
Lemma c_indication_refused : forall a st cnt r, a_type a = 0 -> h_outs st = [] ->
  seg_count (zlen (a_data a)) (client_segsize (h_s st)) = Ok cnt -> c_refuse (h_s st) cnt = Some r ->
  s_state (h_s st) <> COMPLETED -> s_state (h_s st) <> ABORTED ->
  h_outs (fst (c_indication a st)) = [ToApp (mk_abort false (a_invoke a) r)] /\ h_live (fst (c_indication a st)) = false.
Proof.
  intros a st cnt r Ht Ho Hc Hr Hs1 Hs2.
  pose proof (terminal_false _ Hs1 Hs2) as T.
  enough (exists s' c n, fst (c_indication a st) = mkH s' [ToApp (mk_abort false (a_invoke a) r)] c n false)
    as (? & ? & ? & ->) by (split; reflexivity).
  (* the segment size and the refusal do not read the context just stored, so Hc and Hr decide the two tests *)
  unfold c_indication. rewrite Ht. cbn [Z.eqb negb]. run_m.
  change (client_segsize (set_ctx_f (Some a) (h_s st))) with (client_segsize (h_s st)). rewrite Hc. run_m.
  change (c_refuse (set_ctx_f (Some a) (h_s st)) cnt) with (c_refuse (h_s st) cnt). rewrite Hr.
  run_m. rewrite c_abort_run by exact T. run_m. rewrite Ho. repeat eexists.
Qed.

Lemma s_confirmation_refused : forall a st cnt r, a_type a = 3 -> h_outs st = [] ->
  seg_count (zlen (a_data a)) (server_segsize (h_s st)) = Ok cnt -> s_refuse (h_s st) cnt = Some r ->
  s_state (h_s st) <> COMPLETED -> s_state (h_s st) <> ABORTED ->
  h_outs (fst (s_confirmation a st)) = [Tx (mk_abort true (s_invoke (h_s st)) r)] /\ h_live (fst (s_confirmation a st)) = false.
Proof.
  intros a st cnt r Ht Ho Hc Hr Hs1 Hs2.
  pose proof (terminal_false _ Hs1 Hs2) as T.
  enough (exists s' c n, fst (s_confirmation a st) = mkH s' [Tx (mk_abort true (s_invoke (h_s st)) r)] c n false)
    as (? & ? & ? & ->) by (split; reflexivity).
  unfold s_confirmation. rewrite Ht. cbn [Z.eqb Pos.eqb orb]. run_m.
  change (server_segsize (set_ctx_f (Some a) (h_s st))) with (server_segsize (h_s st)). rewrite Hc. run_m.
  change (s_refuse (set_ctx_f (Some a) (h_s st)) cnt) with (s_refuse (h_s st) cnt). rewrite Hr.
  run_m. rewrite s_abort_run by exact T. run_m. rewrite Ho. repeat eexists.
Qed.

(* which reasons: segmentation needed but not possible -> 4, too many segments -> 11 *)
Lemma c_refuse_reason : forall s cnt r, c_refuse s cnt = Some r -> 1 < cnt /\ (r = R_SEG_NOT_SUPPORTED \/ r = R_APDU_TOO_LONG).
Proof.
  intros s cnt r H. unfold c_refuse in H. destruct (1 <? cnt) eqn:E; [|discriminate]. split; [lia|].
  destruct (negb (can_tx (s_segsupp s))); [inversion H; auto|].
  destruct (s_dinfo s) as [d|]; [|discriminate].
  destruct (negb (can_rx (d_seg d))); [inversion H; auto|].
  destruct (d_maxsegs d) as [m|]; [|discriminate]. destruct (m =? 0); [discriminate|]. destruct (m <? cnt); inversion H; auto.
Qed.

Lemma s_refuse_reason : forall s cnt r, s_refuse s cnt = Some r -> 1 < cnt /\ (r = R_SEG_NOT_SUPPORTED \/ r = R_APDU_TOO_LONG).
Proof.
  intros s cnt r H. unfold s_refuse in H. destruct (1 <? cnt) eqn:E; [|discriminate]. split; [lia|].
  destruct (negb (can_tx (s_segsupp s))); [inversion H; auto|].
  destruct (negb (s_sra s)); [inversion H; auto|].
  destruct (s_maxsegs s) as [m|]; [|discriminate]. destruct (m <? cnt); inversion H; auto.
Qed.

Lemma s_idle_window : forall a st x, a_type a = 0 -> a_seg a = true -> h_outs st = [] ->
  In (Tx x) (h_outs (fst (s_idle a st))) -> a_type x = 4 ->
  a_win x = Z.min (a_win a) (s_propwin (h_s st)) /\ a_win x <= a_win a.
Proof.
  intros a st x Ht Hs Ho Hin Hx. destruct (s_idle_spec a st Ht) as (_ & _ & _ & _ & new & Hn & Hc).
  rewrite Hn, Ho, app_nil_r in Hin.
  destruct Hc as [-> | [(-> & _) | [(ab & ->) | (-> & _)]]]; [destruct Hin | destruct Hin as [Hin|[]] ..];
    [discriminate Hin | injection Hin as <-; discriminate Hx | injection Hin as <-; cbn [a_win mk_segack]; lia].
Qed.

(* nothing keeps the window inside 1..127: a proposed window of 0 is granted as 0, and a client adopts 200 *)
Definition idle_server : ssm := mkSsm 1 (-1) IDLE None 0 0 0 0 false 0 0 None 3 3000 1500 3 (Some 64) 50 false None None 2 3000.
Lemma window_zero_witness :
  h_outs (fst (s_idle (mk_creq true true true 0 0 0 0 5 12 [1; 2; 3]) (mkH idle_server [] 0 0 true)))
  = [Tx (mk_segack false true 5 0 0)].
Proof. vm_compute. reflexivity. Qed.

Lemma window_200_witness :
  let st := fst (c_confirmation (mk_segack false true 1 0 200) (mkH (set_initseq_f 0 over_sender) [] 1 0 true)) in
  s_actwin (h_s st) = Some 200 /\ zlen (tx_frames (h_outs st)) = 3 /\
  forallb (fun x => a_win x =? 200) (tx_frames (h_outs st)) = true.
Proof. vm_compute. repeat split. Qed.

(* the limit a server holds for the client: the larger of the request's own and the recorded I-Am value *)
Lemma iam_preferred_witness :
  let s := mkSsm 1 (-1) IDLE None 0 0 0 0 false 0 0 None 3 3000 1500 3 (Some 64) 1476 false None
                 (Some (mkDinfo (Some 480) 3 None None)) 2 3000 in
  s_maxapdu (h_s (fst (s_idle (mk_creq false false true (-1) (-1) 0 0 5 12 [1]) (mkH s [] 0 0 true)))) = 480.
Proof. vm_compute. reflexivity. Qed.

Lemma s_idle_limit : forall a st dec, a_type a = 0 -> decode_max_apdu_length_accepted (a_maxresp a) = Ok (Some dec) ->
  s_dinfo (h_s st) = None -> s_maxapdu (h_s (fst (s_idle a st))) = dec.
Proof.
  intros a st dec Ht Hd Hn. destruct (s_idle_spec a st Ht) as (_ & _ & _ & H & _). rewrite Hd in H.
  rewrite (proj1 H). unfold idle_maxapdu. rewrite Hn. reflexivity.
Qed.

Lemma assoc_set_assoc : forall {A} k (v : A) l, assoc k (set_assoc k v l) = Some v.
Proof.
  intros A k v l. induction l as [|[k' v'] r IH]; cbn [set_assoc assoc].
  - rewrite Z.eqb_refl. reflexivity.
  - destruct (k =? k') eqn:E; cbn [assoc]; [rewrite Z.eqb_refl; reflexivity | rewrite E; exact IH].
Qed.

(* app.DeviceInfoCache.iam_device_info as modelled by SsmWorld.iam_update: the latest I-Am wins, always, also for the open
   transactions with that peer that hold a record *)
Lemma iam_update_record : forall addr peer ma sg w n, get_node addr (w_nodes w) = Some n -> c_raw (n_cfg n) = false ->
  exists n' d, get_node addr (w_nodes (iam_update addr peer ma sg w)) = Some n' /\
    assoc peer (c_know (n_cfg n')) = Some d /\ d_maxapdu d = Some ma /\ d_seg d = sg /\
    (forall t, In t (n_ctr n' ++ n_str n') -> s_peer t = peer -> s_dinfo t <> None -> s_dinfo t = Some d) /\
    client_segsize (new_ssm (n_cfg n') peer true) <= ma.
Proof.
  intros addr peer ma sg w n Hn Hraw. unfold iam_update. rewrite Hn, Hraw.
  pose proof (get_node_addr _ _ _ Hn) as Ha.
  set (d := match assoc peer (c_know (n_cfg n)) with
            | Some old => mkDinfo (Some ma) sg (d_maxsegs old) (d_maxnpdu old) | None => mkDinfo (Some ma) sg None None end).
  eexists. exists d. cbn [w_nodes set_nodes]. split; [eapply get_put_same; [exact Hn | cbn [n_cfg c_addr]; exact Ha]|].
  cbn [n_cfg c_know n_ctr n_str]. split; [apply assoc_set_assoc|].
  split; [unfold d; destruct (assoc peer (c_know (n_cfg n))); reflexivity|].
  split; [unfold d; destruct (assoc peer (c_know (n_cfg n))); reflexivity|].
  split.
  - intros t Hin Hp Hd. rewrite <- map_app in Hin. apply in_map_iff in Hin. destruct Hin as (t0 & Ht0 & _). subst t.
    destruct ((s_peer t0 =? peer) && match s_dinfo t0 with Some _ => true | None => false end) eqn:E.
    + destruct t0; reflexivity.
    + exfalso. destruct (s_dinfo t0) eqn:Ed; [|apply Hd; reflexivity]. rewrite Bool.andb_true_r in E. lia.
  - eapply client_segsize_le_peer; [unfold new_ssm; cbn [s_dinfo c_know]; apply assoc_set_assoc|].
    unfold d; destruct (assoc peer (c_know (n_cfg n))); reflexivity.
Qed.

Lemma s_idle_maxsegs : forall a st dec ms, a_type a = 0 -> decode_max_apdu_length_accepted (a_maxresp a) = Ok (Some dec) ->
  dec_maxsegs (a_maxsegs a) = Ok ms ->
  s_maxsegs (h_s (fst (s_idle a st))) = ms /\ s_sra (h_s (fst (s_idle a st))) = a_sa a.
Proof.
  intros a st dec ms Ht Hd Hm. destruct (s_idle_spec a st Ht) as (_ & _ & _ & H & _). rewrite Hd, Hm in H. exact (proj2 H).
Qed.
