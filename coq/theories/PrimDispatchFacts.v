(* PrimDispatchFacts.v — Tag.app_to_object (PrimDispatch.v) is the decoder of the class the tag number names, and what
   the stock classes make of an enumeration or object identifier written by a subclass with a table of its own. *)
From Bac Require Import Base ResFacts BytesFacts Tag TagFacts Prim PrimTables PrimInt PrimBits PrimFacts PrimDispatch.
Open Scope N_scope.

Lemma base_table_bijective otb k : enum_bijective otb = true -> enum_bijective (base_table otb k) = true.
Proof. intros B. unfold base_table. destruct (k =? 12); [exact B|reflexivity]. Qed.

(* on an application tag numbered 0..12 the dispatch is the decoder of the class with that number *)
Lemma app_to_object_app otb t : cls t = 0 -> num t < 13 ->
  app_to_object otb t = do v <- dec_app (base_table otb (num t)) (num t) t; Ok (Some v).
Proof.
  intros C L. unfold app_to_object, app_tag_class. rewrite C. destruct (num t <? 13) eqn:E; [reflexivity|lia].
Qed.

(* whatever class wrote the tag: the value's kind is the tag number, so the base class of that kind decodes it *)
Lemma app_to_object_enc tb otb v t : enc_app tb v = Ok t ->
  app_to_object otb t = do v' <- dec_app (base_table otb (kind v)) (kind v) t; Ok (Some v').
Proof.
  intros E. destruct (enc_app_shape _ _ _ E) as [C [Nm _]]. pose proof (kind_le v).
  rewrite app_to_object_app, Nm by (rewrite ?Nm; lia). reflexivity.
Qed.

(* dec_app k only ever builds a value of kind k: each branch of its match answers with one constructor.  k is taken
   apart bit by bit; the kinds whose branch has a further test on the content are left, in the order Time (11),
   CharacterString (7), Integer (3), Date (10), BitString (8) *)
Lemma dec_app_kind tb k t v : dec_app tb k t = Ok v -> kind v = k.
Proof.
  unfold dec_app. destruct (negb (cls t =? 0) || negb (num t =? k)); [discriminate|].
  destruct k as [|p]; [|do 4 (try destruct p as [p|p|]; try discriminate)]; cbv iota beta;
    try destruct (_ =? _); try destruct (_ <? _); try discriminate; try (now intros [= <-]).
  - destruct (data t) as [|a [|b [|c [|e [|]]]]]; try discriminate. now intros [= <-].
  - destruct (data t) as [|e l]; [discriminate|].
    destruct ((e =? 3) && negb (utf32be_ok l)); [discriminate|].
    destruct ((e =? 4) && negb (utf16be_ok false l)); [discriminate|]. now intros [= <-].
  - destruct (dec_integer (data t)); [|discriminate]. now intros [= <-].
  - destruct (data t) as [|a [|b [|c [|e [|]]]]]; try discriminate. now intros [= <-].
  - destruct (dec_bits (data t)); [|discriminate]. now intros [= <-].
Qed.

(* what app_to_object can answer at all: an object only for an application tag numbered 0..12, and then an
   object of exactly the class that number names; nothing (None) for 13..15; a refusal otherwise *)
Theorem app_to_object_class otb t :
  match app_to_object otb t with
  | Ok (Some v) => cls t = 0 /\ num t < 13 /\ kind v = num t /\ dec_app (base_table otb (num t)) (num t) t = Ok v
  | Ok None => cls t = 0 /\ 13 <= num t < 16
  | Err e => cls t <> 0 \/ 16 <= num t \/ (num t < 13 /\ dec_app (base_table otb (num t)) (num t) t = Err e)
  end.
Proof.
  unfold app_to_object, app_tag_class.
  destruct (cls t =? 0) eqn:C; cbn [negb]; [|left; lia].
  destruct (num t <? 13) eqn:L; cbn [bind].
  - destruct (dec_app (base_table otb (num t)) (num t) t) as [v|e] eqn:D; cbn [bind].
    + repeat split; try lia. exact (dec_app_kind _ _ _ _ D).
    + right; right. split; [lia|reflexivity].
  - destruct (num t <? 16) eqn:M; cbn [bind]; [split; lia|right; left; lia].
Qed.

(* a value of a SUBCLASS (own translate table tb) seen by the generic receiver: the number on the wire is the
   number the name stands for — the base class reports the number itself *)
Theorem app_to_object_enum_number tb otb e t :
  enum_bijective tb = true -> valid_eval tb e -> enc_app tb (PEnum e) = Ok t ->
  exists n, n < 4294967296 /\ eval_num tb e = Ok (Z.of_N n) /\
            app_to_object otb t = Ok (Some (PEnum (ENum (Z.of_N n)))).
Proof.
  intros B V E. rewrite (app_to_object_enc _ otb _ _ E). apply bind_ok_inv in E as (d & E & [= <-]).
  destruct (enum_roundtrip tb e d B V E) as (_ & _ & n & L & EN & ->). exists n. split; [exact L|]. split; [exact EN|].
  dec_head. rewrite spec_min_unsigned_nonempty, unbe_spec_min_unsigned. reflexivity.
Qed.

(* an object identifier of a class with its own type table tb (vendor types), seen through the stock class: same
   type NUMBER, same instance; the stock table names the number if it can *)
Theorem app_to_object_objid_number tb otb ty i t :
  enum_bijective tb = true -> valid_eval tb ty -> (0 <= i <= 4194303)%Z ->
  enc_app tb (PObjId ty i) = Ok t ->
  exists tn, tn < 1024 /\ objid_word tb ty i = Ok (Z.of_N tn * 4194304 + i)%Z /\
             app_to_object otb t = Ok (Some (PObjId (eval_of_num otb tn) i)).
Proof.
  intros B V I E. rewrite (app_to_object_enc _ otb _ _ E). apply bind_ok_inv in E as (d & E & [= <-]).
  destruct (objid_roundtrip tb ty i d B V I E) as (_ & _ & tn & R & W & ->).
  exists (Z.to_N tn). split; [lia|]. split; [rewrite W; f_equal; lia|].
  dec_head. change (lenN (be4 (Z.to_N (tn * 4194304 + i))) =? 4) with true. cbv iota.
  rewrite unbe_be4 by lia. unfold objid_of_word, base_table. cbn [kind N.eqb Pos.eqb bind].
  do 3 f_equal; [f_equal|]; lia_div.
Qed.
