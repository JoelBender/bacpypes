(* SsmC11.v — C11: an inbound PDU is applied to the transaction with equal peer address and invoke id, to no
   other, and to none when there is no such transaction; duplicates of a request being processed are dropped.
   Also the facts about SsmWorld that the serving side (SsmC11s) and C12 use: what the medium never writes (static),
   get_node / put_node. *)
From Bac Require Import Base PyRt Ssm SsmFacts SsmWorld.
Open Scope Z_scope.

Lemma to_client_side_type : forall a, to_client_side a = true -> (a_type a =? 0) = false /\ (a_type a =? 1) = false.
Proof. intros a H. unfold to_client_side in H. lia. Qed.

(* a client's segment-ack or abort when no server transaction with that (peer, id) is live — other peer, other id,
   or after completion *)
Lemma deliver_to_server_no_match : forall src dst a w n,
  to_client_side a = false -> (a_type a = 4 \/ a_type a = 7) -> get_node dst (w_nodes w) = Some n ->
  find_tr (a_invoke a) src (n_str n) O = None -> deliver src dst a w = w.
Proof.
  intros src dst a w n Hc Ht Hn Hf. unfold deliver. rewrite Hn.
  destruct (c_raw (n_cfg n)); [reflexivity|].
  replace (a_type a =? 0) with false by lia. replace (a_type a =? 1) with false by lia.
  rewrite Hc. replace ((a_type a =? 4) || (a_type a =? 7)) with true by lia. rewrite Hf. reflexivity.
Qed.

Definition static {A} (f : world -> A) : Prop :=
  (forall l w, f (set_inflight l w) = f w) /\ (forall d l w, f (set_delayed d l w) = f w) /\
  (forall n w, f (set_nframes n w) = f w) /\ (forall e w, f (log e w) = f w).

Lemma static_nodes : static w_nodes.
Proof. repeat split. Qed.
Lemma static_chains : static w_chains.
Proof. repeat split. Qed.
Lemma static_reqs : static w_reqs.
Proof. repeat split. Qed.

Lemma schedule_copies_static : forall {A} (f : world -> A), static f -> forall fate it w, f (schedule_copies fate it w) = f w.
Proof.
  intros A f (H1 & H2 & _) fate it. induction fate as [|d r IH]; intros w; cbn [schedule_copies]; [reflexivity|].
  rewrite IH. destruct (d =? 0); [apply H1 | apply H2].
Qed.

Lemma sent_static : forall {A} (f : world -> A), static f -> forall src dst a w, f (sent src dst a w) = f w.
Proof.
  intros A f Hs src dst a w. unfold sent.
  set (w1 := schedule_copies _ _ _).
  assert (H : f w1 = f w).
  { unfold w1. rewrite schedule_copies_static by exact Hs. destruct Hs as (_ & _ & H3 & H4). rewrite H4. apply H3. }
  revert H. generalize (w_injs w1). generalize w1. clear w1. intros w1 l. revert w1.
  induction l as [|i r IH]; intros w1 H; cbn [fold_left]; [exact H|].
  apply IH. destruct (_ =? _); [|exact H]. destruct Hs as (H1 & _). rewrite H1. exact H.
Qed.

Lemma process_tx_static : forall {A} (f : world -> A), static f -> forall outs node peer w, f (process_tx node peer outs w) = f w.
Proof.
  intros A f Hs. induction outs as [|o r IH]; intros node peer w; cbn [process_tx]; [reflexivity|].
  destruct o; rewrite IH; [apply sent_static; exact Hs | apply Hs].
Qed.

Lemma process_outs_client_nodes : forall outs node peer w, w_nodes (process_outs true node peer outs w) = w_nodes w.
Proof.
  induction outs as [|o r IH]; intros node peer w; cbn [process_outs]; [reflexivity|].
  destruct o; rewrite IH; [apply (sent_static _ static_nodes) | reflexivity].
Qed.

Lemma process_outs_c_nodes : forall outs node peer w, w_chains w = [] -> w_nodes (process_outs_c node peer outs w) = w_nodes w.
Proof.
  induction outs as [|o r IH]; intros node peer w Hc; cbn [process_outs_c]; [reflexivity|].
  destruct o.
  - rewrite IH; [apply (sent_static _ static_nodes) | rewrite (sent_static _ static_chains); exact Hc].
  - cbn [w_chains log]. rewrite Hc. cbn [take_chain]. rewrite IH; [reflexivity | exact Hc].
Qed.

Lemma get_node_addr : forall addr ns n, get_node addr ns = Some n -> c_addr (n_cfg n) = addr.
Proof.
  intros addr ns n. induction ns as [|m r IH]; cbn [get_node]; [discriminate|].
  destruct (c_addr (n_cfg m) =? addr) eqn:E; [intros H; inversion H; subst; lia | exact IH].
Qed.

Lemma get_put_same : forall n ns addr m, get_node addr ns = Some m -> c_addr (n_cfg n) = addr -> get_node addr (put_node n ns) = Some n.
Proof.
  intros n ns addr m. induction ns as [|x r IH]; cbn [get_node put_node]; [discriminate|]. intros H Ha.
  destruct (c_addr (n_cfg x) =? addr) eqn:E.
  - replace (c_addr (n_cfg x) =? c_addr (n_cfg n)) with true by lia. cbn [get_node]. replace (c_addr (n_cfg n) =? addr) with true by lia. reflexivity.
  - replace (c_addr (n_cfg x) =? c_addr (n_cfg n)) with false by lia. cbn [get_node]. rewrite E. apply IH; assumption.
Qed.

Lemma get_put_other : forall n ns addr, addr <> c_addr (n_cfg n) -> get_node addr (put_node n ns) = get_node addr ns.
Proof.
  intros n ns addr Hne. induction ns as [|m r IH]; [reflexivity|]. cbn [put_node].
  destruct (c_addr (n_cfg m) =? c_addr (n_cfg n)) eqn:E; cbn [get_node].
  - replace (c_addr (n_cfg n) =? addr) with false by lia. replace (c_addr (n_cfg m) =? addr) with false by lia. reflexivity.
  - destruct (c_addr (n_cfg m) =? addr); [reflexivity | exact IH].
Qed.

Lemma deliver_reply_only_match : forall src dst a w n i t,
  to_client_side a = true -> get_node dst (w_nodes w) = Some n -> c_raw (n_cfg n) = false ->
  find_tr (a_invoke a) src (n_ctr n) O = Some (i, t) -> w_chains w = [] ->
  s_peer t = src /\ s_invoke t = a_invoke a /\
  exists l', w_nodes (deliver src dst a w) = put_node (mkN (n_cfg n) (n_next n) l' (n_str n)) (w_nodes w) /\
             ((exists t', l' = replace_nth i t' (n_ctr n)) \/ l' = remove_nth i (n_ctr n)).
Proof.
  intros src dst a w n i t Hc Hn Hraw Hf Hch. destruct (find_tr_peer _ _ _ _ _ _ Hf) as (Hm1 & Hm2).
  split; [exact Hm1|]. split; [exact Hm2|].
  unfold deliver. rewrite Hn, Hraw. destruct (to_client_side_type a Hc) as [-> ->]. rewrite Hc, Hf.
  unfold run_on. destruct (c_confirmation a _) as [st e].
  eexists. split.
  - destruct e; cbn [w_nodes log]; rewrite process_outs_c_nodes by exact Hch; cbn [w_nodes set_tctr set_nodes]; reflexivity.
  - destruct (h_live st); [left; eexists; reflexivity | right; reflexivity].
Qed.

(* a retransmitted request that meets its transaction still waiting for the application: nothing happens *)
Lemma duplicate_request_dropped : forall a st, s_state (h_s st) = AWAIT_RESPONSE -> a_type a = 0 ->
  s_indication a st = (st, None).
Proof.
  intros a st Hs Ht. unfold s_indication, withs. rewrite Hs. cbn [Z.eqb IDLE SEGMENTED_REQUEST AWAIT_RESPONSE Pos.eqb].
  unfold s_await_response. rewrite Ht. reflexivity.
Qed.
