(* CovRound.v — whole notification ROUNDS, from one quiescent instant to the next: a write (or a burst of writes
   within one instant) followed by the drain of the deferred queue.  What CovFacts says of one write and the queue
   invariant CovQueue.qinv give the sentence of the property itself:
   "a change of at least the increment since the last reported value produces exactly one notification per
   active subscription carrying the current values; a smaller one produces none", and for bursts: the new reference is
   the value that was actually REPORTED (the last one written in that instant), not the value that set the trigger. *)
From Bac Require Import Base Cov CovFacts CovRun CovQueue.
Open Scope Z_scope.

Lemma write_pv_vals : forall o v, pv (write_obj o PPv v) = v /\ fl (write_obj o PPv v) = fl o /\ inc (write_obj o PPv v) = inc o.
Proof. intros o v. destruct (write_obj_shape o PPv v) as [t [pr ->]]. cbn. auto. Qed.

(* the reference the increment test of the next presentValue write uses: the last reported value, the value the
   object had before the write while nothing has been reported yet *)
Definition reference (o : obj) : Z := match prev o with Some x => x | None => pv o end.

Lemma write_pv_reference : forall o v, bound o = true -> trig o = false -> reports_prev (okind o) = true ->
  trig (write_obj o PPv v) = (inc o <=? Z.abs (v - reference o)) /\ prev (write_obj o PPv v) = Some (reference o).
Proof.
  intros o v Hb Ht Hk. unfold write_obj, reference.
  assert (Htr : tracked (okind o) PPv = true) by (destruct (okind o); try discriminate; reflexivity).
  rewrite Hb, Htr, Ht, Hk. cbn. rewrite inc_filter_abs. destruct (prev o); auto.
Qed.

(* ox is the current record in slot i; of o, the record at the quiescent instant, only identifier and generation matter *)
Definition pending (s : st) (i : nat) (o ox : obj) : Prop :=
  queue s = [DExec (oid o) (gen o)] /\ nth_error (objs s) i = Some ox /\
  trig ox = true /\ bound ox = true /\ gen ox = gen o /\ oid ox = oid o.

Lemma quiescent_untriggered : forall s i o, qinv s -> queue s = [] -> nth_error (objs s) i = Some o -> trig o = false.
Proof. intros s i o Hq Q N. destruct (pending_execute s o Hq (nth_error_In _ _ N)) as [_ [_ [_ H]]]. exact (H Q). Qed.

Lemma write_quiescent : forall s i p v o s1 o1,
  inv s -> queue s = [] -> nth_error (objs s) i = Some o -> has_prop (okind o) p = true ->
  bound o = true -> trig o = false -> step s (Write i p v) = (s1, o1) ->
  inv s1 /\ subs s1 = subs s /\ now s1 = now s /\ o_ntfs o1 = [] /\
  nth_error (objs s1) i = Some (write_obj o p v) /\
  (if trig (write_obj o p v) then pending s1 i o (write_obj o p v) else queue s1 = []).
Proof.
  intros s i p v o s1 o1 Hi Q N Hp Hb Ht S.
  split; [exact (sp_inv _ _ _ _ (step_facts s (Write i p v) _ _ Hi I S))|].
  cbn [step] in S. unfold write_ev in S. rewrite N, Hp in S. inversion S; subst s1 o1; clear S.
  cbn [subs now o_ntfs objs queue]. split; [reflexivity|]. split; [reflexivity|]. split; [reflexivity|].
  assert (N1 : nth_error (upd_nth i (fun x => write_obj x p v) (objs s)) i = Some (write_obj o p v))
    by (rewrite nth_error_upd_nth, N; reflexivity).
  split; [exact N1|]. rewrite Ht, Q. cbn [negb andb app].
  destruct (write_obj_det o p v) as [W1 [W2 [W3 _]]].
  destruct (trig (write_obj o p v)) eqn:E; [|reflexivity].
  unfold pending. cbn [queue objs]. repeat split; auto. congruence.
Qed.

Lemma write_pending : forall s i p v o ox s1 o1,
  inv s -> pending s i o ox -> has_prop (okind ox) p = true -> step s (Write i p v) = (s1, o1) ->
  inv s1 /\ subs s1 = subs s /\ now s1 = now s /\ o_ntfs o1 = [] /\ pending s1 i o (set_val ox p v).
Proof.
  intros s i p v o ox s1 o1 Hi [Q [N [Ht [Hb [Hg Ho]]]]] Hp S.
  split; [exact (sp_inv _ _ _ _ (step_facts s (Write i p v) _ _ Hi I S))|].
  cbn [step] in S. unfold write_ev in S. rewrite N, Hp in S. inversion S; subst s1 o1; clear S.
  cbn [subs now o_ntfs objs queue]. split; [reflexivity|]. split; [reflexivity|]. split; [reflexivity|].
  rewrite Ht. cbn [negb andb]. unfold pending. cbn [queue objs]. split; [exact Q|].
  split. { rewrite nth_error_upd_nth, N. cbn. rewrite (write_obj_triggered_eq _ _ _ Ht). reflexivity. }
  destruct p; cbn; auto.
Qed.

Lemma drain_pending : forall s i o ox s2 out,
  inv s -> pending s i o ox -> step s Drain = (s2, out) ->
  o_ntfs out = map (mk_ntf (now s) ox) (subs_of (oid o) (subs s)) /\
  queue s2 = [] /\ subs s2 = subs s /\ now s2 = now s /\
  find_obj (oid o) (objs s2) = Some (set_trig (report ox) false).
Proof.
  intros s i o ox s2 out [_ [Hnd _]] [Q [N [Ht [Hb [Hg Ho]]]]] S.
  pose proof (find_obj_nth _ _ _ Hnd N) as F. rewrite Ho in F.
  cbn [step] in S. unfold drain in S. rewrite Q in S. cbn [run_queue run_dfn] in S. cbn [objs set_queue] in S.
  rewrite F, Hb, Hg, Z.eqb_refl in S. cbn in S. inversion S; subst s2 out; clear S.
  cbn [o_ntfs queue subs now objs]. rewrite app_nil_r. repeat split; auto.
  apply (find_obj_upd _ _ _ ox F). cbn. rewrite (proj1 (report_det ox)). exact Ho.
Qed.

Lemma drain_quiescent : forall s s2 out, queue s = [] -> step s Drain = (s2, out) -> s2 = s /\ o_ntfs out = [].
Proof.
  intros s s2 out Q S. cbn [step] in S. unfold drain in S. rewrite Q in S. cbn in S. rewrite (set_queue_nil s Q) in S.
  inversion S; auto.
Qed.

(* from a quiescent instant, a write to a bound object followed by the drain: if the write sets the trigger every
   subscription of the object gets one notification with the values after the write, else nobody gets anything *)
Theorem write_drain_round : forall s i p v o s1 o1 s2 out,
  inv s -> qinv s -> queue s = [] -> nth_error (objs s) i = Some o -> has_prop (okind o) p = true -> bound o = true ->
  step s (Write i p v) = (s1, o1) -> step s1 Drain = (s2, out) ->
  let o' := write_obj o p v in
  o_ntfs o1 = [] /\ queue s2 = [] /\ subs s2 = subs s /\ now s2 = now s /\
  (if trig o'
   then o_ntfs out = map (mk_ntf (now s) o') (subs_of (oid o) (subs s)) /\ NoDup (map nkey (o_ntfs out)) /\
        find_obj (oid o) (objs s2) = Some (set_trig (report o') false)
   else o_ntfs out = [] /\ find_obj (oid o) (objs s2) = Some o').
Proof.
  intros s i p v o s1 o1 s2 out Hi Hq Q N Hp Hb S1 S2 o'.
  pose proof (quiescent_untriggered _ _ _ Hq Q N) as Ht.
  destruct (write_quiescent _ _ _ _ _ _ _ Hi Q N Hp Hb Ht S1) as [Hi1 [Hs [Hn [Ho1 [N1 P]]]]].
  split; [exact Ho1|]. fold o' in P, N1. destruct (trig o') eqn:E.
  - destruct (drain_pending _ _ _ _ _ _ Hi1 P S2) as [A [B [C [D F]]]]. rewrite Hs, Hn in *.
    repeat split; auto. rewrite A. apply ntfs_nodup. apply Hi.
  - destruct (drain_quiescent _ _ _ P S2) as [-> A]. repeat split; auto.
    destruct Hi1 as [_ [Hnd1 _]]. pose proof (find_obj_nth _ _ _ Hnd1 N1) as F.
    destruct (write_obj_det o p v) as [W1 _]. unfold o' in F at 1. rewrite W1 in F. exact F.
Qed.

(* the sentence of the property for analog / pulse-converter objects.  `reference o` is the last reported value. *)
Theorem change_round_increment : forall s i v o s1 o1 s2 out,
  inv s -> qinv s -> queue s = [] -> nth_error (objs s) i = Some o -> bound o = true -> reports_prev (okind o) = true ->
  step s (Write i PPv v) = (s1, o1) -> step s1 Drain = (s2, out) ->
  o_ntfs o1 = [] /\ queue s2 = [] /\ subs s2 = subs s /\
  (inc o <= Z.abs (v - reference o) ->
     o_ntfs out = map (fun x => mkNtf (s_cli x) (s_proc x) (s_oid x) (s_conf x) (trem (now s) x) v (fl o) (now s))
                      (subs_of (oid o) (subs s)) /\
     NoDup (map nkey (o_ntfs out)) /\
     exists ob', find_obj (oid o) (objs s2) = Some ob' /\ reference ob' = v /\ pv ob' = v /\ trig ob' = false) /\
  (Z.abs (v - reference o) < inc o ->
     o_ntfs out = [] /\
     exists ob', find_obj (oid o) (objs s2) = Some ob' /\ reference ob' = reference o /\ pv ob' = v /\ trig ob' = false).
Proof.
  intros s i v o s1 o1 s2 out Hi Hq Q N Hb Hk S1 S2.
  pose proof (quiescent_untriggered _ _ _ Hq Q N) as Ht.
  assert (Hp : has_prop (okind o) PPv = true) by (destruct (okind o); reflexivity).
  destruct (write_drain_round _ _ _ _ _ _ _ _ _ Hi Hq Q N Hp Hb S1 S2) as [A [B [C [_ R]]]].
  destruct (write_pv_reference o v Hb Ht Hk) as [T Pr]. destruct (write_pv_vals o v) as [V1 [V2 _]].
  destruct (write_obj_det o PPv v) as [_ [_ [_ K]]].
  split; [exact A|]. split; [exact B|]. split; [exact C|]. split.
  - intro Hge. assert (E : trig (write_obj o PPv v) = true) by (rewrite T; apply Z.leb_le; exact Hge).
    rewrite E in R. destruct R as [R1 [R2 R3]].
    split. { rewrite R1. apply map_ext. intro x. unfold mk_ntf. rewrite V1, V2. reflexivity. }
    split; [exact R2|]. eexists. split; [exact R3|]. unfold report. rewrite K, Hk. unfold reference. cbn. auto.
  - intro Hlt. assert (E : trig (write_obj o PPv v) = false) by (rewrite T; apply Z.leb_gt; exact Hlt).
    rewrite E in R. destruct R as [R1 R3].
    split; [exact R1|]. eexists. split; [exact R3|]. unfold reference at 1. rewrite Pr. auto.
Qed.

(* ... and for the other objects: any change of a tracked property, and only a change *)
Theorem change_round_generic : forall s i p v o s1 o1 s2 out,
  inv s -> qinv s -> queue s = [] -> nth_error (objs s) i = Some o -> bound o = true ->
  has_prop (okind o) p = true -> tracked (okind o) p = true -> (p = PPv -> reports_prev (okind o) = false) ->
  step s (Write i p v) = (s1, o1) -> step s1 Drain = (s2, out) ->
  (get_val o p <> v ->
     o_ntfs out = map (mk_ntf (now s) (set_val o p v)) (subs_of (oid o) (subs s)) /\ NoDup (map nkey (o_ntfs out))) /\
  (get_val o p = v -> o_ntfs out = []).
Proof.
  intros s i p v o s1 o1 s2 out Hi Hq Q N Hb Hp Htr Hk S1 S2.
  pose proof (quiescent_untriggered _ _ _ Hq Q N) as Ht.
  destruct (write_drain_round _ _ _ _ _ _ _ _ _ Hi Hq Q N Hp Hb S1 S2) as [_ [_ [_ [_ R]]]].
  pose proof (write_generic_trig o p v Hb Ht Htr Hk) as T.
  assert (Vals : pv (write_obj o p v) = pv (set_val o p v) /\ fl (write_obj o p v) = fl (set_val o p v)).
  { destruct (write_obj_shape o p v) as [t [pr ->]]. destruct p; cbn; auto. }
  destruct Vals as [V1 V2]. split.
  - intro Hne. assert (E : trig (write_obj o p v) = true) by (rewrite T; apply negb_true_iff, Z.eqb_neq; exact Hne).
    rewrite E in R. destruct R as [R1 [R2 _]]. split; [|exact R2]. rewrite R1. apply map_ext. intro x. unfold mk_ntf.
    rewrite V1, V2. reflexivity.
  - intro He. assert (E : trig (write_obj o p v) = false) by (rewrite T; apply negb_false_iff, Z.eqb_eq; exact He).
    rewrite E in R. apply R.
Qed.

Lemma burst_pending : forall vs s i o ox s' outs,
  inv s -> pending s i o ox -> run s (map (Write i PPv) vs ++ [Drain]) = (s', outs) ->
  exists oy, pv oy = last vs (pv ox) /\ fl oy = fl ox /\ okind oy = okind ox /\
    all_ntfs outs = map (mk_ntf (now s) oy) (subs_of (oid o) (subs s)) /\
    find_obj (oid o) (objs s') = Some (set_trig (report oy) false) /\ subs s' = subs s /\ queue s' = [].
Proof.
  induction vs as [|v r IH]; intros s i o ox s' outs Hi P R.
  - cbn in R. destruct (let '(s1, ns) := drain s in (s1, mkOut 2 0 0 ns None)) as [s2 out] eqn:S.
    inversion R; subst s' outs; clear R.
    destruct (drain_pending s i o ox s2 out Hi P S) as [A [B [C [_ F]]]].
    exists ox. cbn [all_ntfs flat_map last]. rewrite app_nil_r. repeat split; auto.
  - cbn [map app run] in R. destruct (step s (Write i PPv v)) as [s1 o1] eqn:S1.
    destruct (run s1 (map (Write i PPv) r ++ [Drain])) as [s2 os] eqn:R2. inversion R; subst s' outs; clear R.
    assert (Hp : has_prop (okind ox) PPv = true) by (destruct (okind ox); reflexivity).
    destruct (write_pending _ _ _ _ _ _ _ _ Hi P Hp S1) as [Hi1 [Hs [Hn [Ho1 P1]]]].
    destruct (IH _ _ _ _ _ _ Hi1 P1 R2) as [oy [Y1 [Y2 [Y3 [Y4 [Y5 [Y6 Y7]]]]]]].
    exists oy. cbn [set_val pv fl okind] in Y1, Y2, Y3. rewrite last_cons.
    cbn [all_ntfs flat_map]. rewrite Ho1. cbn [app]. rewrite Hs, Hn in *. repeat split; auto.
Qed.

(* a burst within one instant on an analog / pulse-converter object: the first write crosses the increment, further
   writes follow before the deferred notification runs.  Every subscription gets ONE notification with the LAST value
   written, and that value is the reference from then on. *)
Theorem burst_reports_last : forall vs s i v1 o s' outs,
  inv s -> qinv s -> queue s = [] -> nth_error (objs s) i = Some o -> bound o = true -> reports_prev (okind o) = true ->
  inc o <= Z.abs (v1 - reference o) ->
  run s (Write i PPv v1 :: map (Write i PPv) vs ++ [Drain]) = (s', outs) ->
  let w := last vs v1 in
  all_ntfs outs = map (fun x => mkNtf (s_cli x) (s_proc x) (s_oid x) (s_conf x) (trem (now s) x) w (fl o) (now s))
                      (subs_of (oid o) (subs s)) /\
  NoDup (map nkey (all_ntfs outs)) /\ subs s' = subs s /\ queue s' = [] /\
  exists ob', find_obj (oid o) (objs s') = Some ob' /\ reference ob' = w /\ pv ob' = w /\ trig ob' = false.
Proof.
  intros vs s i v1 o s' outs Hi Hq Q N Hb Hk Hge R w.
  pose proof (quiescent_untriggered _ _ _ Hq Q N) as Ht.
  assert (Hp : has_prop (okind o) PPv = true) by (destruct (okind o); reflexivity).
  cbn [run] in R. destruct (step s (Write i PPv v1)) as [s1 o1] eqn:S1.
  destruct (run s1 (map (Write i PPv) vs ++ [Drain])) as [s2 os] eqn:R2. inversion R; subst s' outs; clear R.
  destruct (write_quiescent _ _ _ _ _ _ _ Hi Q N Hp Hb Ht S1) as [Hi1 [Hs [Hn [Ho1 [_ P]]]]].
  destruct (write_pv_reference o v1 Hb Ht Hk) as [T _].
  assert (E : trig (write_obj o PPv v1) = true) by (rewrite T; apply Z.leb_le; exact Hge).
  rewrite E in P. destruct (write_pv_vals o v1) as [V1 [V2 _]]. destruct (write_obj_det o PPv v1) as [_ [_ [_ K]]].
  destruct (burst_pending _ _ _ _ _ _ _ Hi1 P R2) as [oy [Y1 [Y2 [Y3 [Y4 [Y5 [Y6 Y7]]]]]]].
  rewrite V1 in Y1. rewrite V2 in Y2. rewrite K in Y3. rewrite Hs, Hn in *. fold w in Y1.
  assert (A : all_ntfs (o1 :: os) =
              map (fun x => mkNtf (s_cli x) (s_proc x) (s_oid x) (s_conf x) (trem (now s) x) w (fl o) (now s))
                  (subs_of (oid o) (subs s))).
  { cbn [all_ntfs flat_map]. rewrite Ho1. cbn [app]. fold (all_ntfs os). rewrite Y4. apply map_ext. intro x.
    unfold mk_ntf. rewrite Y1, Y2. reflexivity. }
  split; [exact A|]. split. { rewrite A. apply (ntfs_nodup _ (set_val o PPv w)). apply Hi. }
  split; [exact Y6|]. split; [exact Y7|]. eexists. split; [exact Y5|].
  unfold report. rewrite Y3, Hk. unfold reference. cbn. auto.
Qed.
