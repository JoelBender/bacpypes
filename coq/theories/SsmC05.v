(* SsmC05.v — C05: what the sender puts into a window, what the receivers accept, and the witnesses of the
   defects that remain (sequence numbers used as indices beyond 256 segments; single faults that end in abort). *)
From Bac Require Import Base PyRt Ssm SsmFacts SsmC04a SsmC04s SsmWorld.
Open Scope Z_scope.

Lemma get_segment_sentall : forall b s i, get_segment (set_sentall_f b s) i = get_segment s i.
Proof. reflexivity. Qed.

Definition ctx_data (s : ssm) : list Z := match s_ctx s with Some c => a_data c | None => [] end.

Definition rx_tie (c a : apdu) (st st' : hst) : Prop :=
  (ctx_data (h_s st'), s_lastseq (h_s st')) =
    (if a_seq a =? (s_lastseq (h_s st) + 1) mod 256
     then (a_data c ++ a_data a, (s_lastseq (h_s st) + 1) mod 256) else (a_data c, s_lastseq (h_s st))) /\
  (* the PDU goes up exactly when the in-order segment has no more-follows, and it carries what was reassembled *)
  (forall x, In (ToApp x) (h_outs st') -> ~ In (ToApp x) (h_outs st) ->
     a_seq a = (s_lastseq (h_s st) + 1) mod 256 /\ a_mor a = false /\ a_data x = a_data c ++ a_data a).

(* closes rx_tie on one path (the statement stays folded while the handler is run, so that the handler occurs once in the
   goal); Eq is the in-order test.  Each new outbox entry is a frame or the reassembled PDU; an old one contradicts Hnin. *)
Ltac finish_tie Eq :=
  unfold rx_tie, ctx_data; mcbn; cbn [a_data]; rewrite ?Eq; (split; [reflexivity|]); intros x Hin Hnin; cbn [In] in Hin;
  repeat (destruct Hin as [Hin|Hin]; [try discriminate; try (inversion Hin; subst; cbn [a_data]; repeat split; auto; lia) |]);
  try contradiction; try lia; try (exfalso; apply Hnin; exact Hin).

Lemma server_rx_tie : forall a st c, s_ctx (h_s st) = Some c -> a_type a = 0 -> a_seg a = true ->
  rx_tie c a st (fst (s_segmented_request a st)).
Proof.
  intros a [s outs ctr now live] c Hc Ht Hs. cbn [h_s] in Hc. destruct_ssm s. cbn [s_ctx] in Hc. subst x_ctx.
  unfold s_segmented_request, s_abort, append_segment, actwin_z.
  destruct (a_seq a =? (x_lsq + 1) mod 256) eqn:Eq; destruct (a_mor a) eqn:Em;
    repeat (mcbn0; rewrite ?Ht, ?Hs, ?Eq, ?Em; cbn [Z.eqb negb Pos.eqb]);
    path_split; finish_tie Eq.
Qed.

Lemma client_rx_tie : forall a st c, s_ctx (h_s st) = Some c -> a_type a = 3 -> a_seg a = true ->
  rx_tie c a st (fst (c_segmented_confirmation a st)).
Proof.
  intros a [s outs ctr now live] c Hc Ht Hs. cbn [h_s] in Hc. destruct_ssm s. cbn [s_ctx] in Hc. subst x_ctx.
  unfold c_segmented_confirmation, c_abort, append_segment, actwin_z.
  destruct (a_seq a =? (x_lsq + 1) mod 256) eqn:Eq; destruct (a_mor a) eqn:Em;
    repeat (mcbn0; rewrite ?Ht, ?Hs, ?Eq, ?Em; cbn [Z.eqb negb Pos.eqb]);
    path_split; finish_tie Eq.
Qed.

Lemma s_idle_segmented_silent : forall a st x, a_type a = 0 -> a_seg a = true -> h_outs st = [] ->
  ~ In (ToApp x) (h_outs (fst (s_idle a st))).
Proof.
  intros a st x Ht Hs Ho. destruct (s_idle_spec a st Ht) as (_ & _ & _ & _ & new & Hn & Hc).
  rewrite Hn, Ho, app_nil_r.
  destruct Hc as [-> | [(-> & Hf & _) | [(ab & ->) | (-> & _)]]]; [intros [] | congruence | intros [H|[]]; discriminate H ..].
Qed.

(* a sender with 300 segments of 50 octets, window 3 starting at 253, receives the ack for 255: the next window
   should start at segment 256 but starts at segment (255+1) mod 256 = 0 *)
Definition long_payload : list Z := map (fun i => i mod 251) (SsmWorld.zrange 0 15000).
Definition wrap_sender : ssm :=
  mkSsm 2 1 SEGMENTED_REQUEST (Some (mk_creq false false false (-1) (-1) (-1) (-1) 1 12 long_payload)) 50 300 0 0 false 0 253 (Some 3)
        3 3000 1500 3 (Some 64) 50 false (Some (1500, 0)) None 3 3000.
Definition wrap_ack : apdu := mk_segack false true 1 255 3.
Definition first_tx (outs : list out) : option apdu :=
  match rev outs with Tx a :: _ => Some a | _ => None end.

Lemma wrap_witness :
  match first_tx (h_outs (fst (c_confirmation wrap_ack (mkH wrap_sender [] 1 0 true)))) with
  | Some a => a_seq a = 0 /\ a_data a = slice long_payload 0 50 /\ a_data a <> slice long_payload (256 * 50) 50
  | None => False
  end.
Proof. vm_compute. repeat split; discriminate. Qed.

(* a segmented request and response of 180 octets at max-APDU 50; frame 2 (segment 1 of the request) is lost *)
Definition base_nodes : list nodecfg :=
  [mkNode 1 50 3 64 3 3000 1500 2 3000 false [(2, mkDinfo (Some 50) 3 (Some 64) None)];
   mkNode 2 50 3 64 3 3000 1500 2 3000 false [(1, mkDinfo (Some 50) 3 (Some 64) None)]].
Definition base_req : reqcfg := mkReq 0 1 2 180 12 (-1) 1 180 0.

Definition is_conf (ty : Z) (ev : list Z) : bool :=
  match ev with 13 :: _ :: _ :: _ :: t :: _ => t =? ty | _ => false end.
Definition n_conf (evs : list (list Z)) : Z :=
  zlen (filter (fun ev => match ev with 13 :: _ => true | _ => false end) evs).

Lemma single_drop_witness :
  let clean := run_chunks base_nodes [base_req] [] (-1) [] in
  let faulty := run_chunks base_nodes [base_req] [(2, [])] (-1) [] in
  existsb (is_conf 3) clean = true /\ n_conf clean = 1 /\
  existsb (is_conf 3) faulty = false /\ existsb (is_conf 7) faulty = true /\ n_conf faulty = 1.
Proof. vm_compute. repeat split. Qed.

(* unsegmented transactions do recover from every single fault: complete sweep of a finite family *)
Definition small_nodes (retries : Z) : list nodecfg :=
  [mkNode 1 50 3 64 retries 1000 500 2 3000 false []; mkNode 2 50 3 64 retries 1000 500 2 3000 false []].
Definition sweep_domain : list (Z * Z * Z * Z * list Z) :=
  flat_map (fun retries => flat_map (fun len => flat_map (fun kind => flat_map (fun idx =>
     map (fun fate => (retries, len, kind, idx, fate)) [[]; [0; 0]; [500]; [0; 4000]; [2000]])
     [0; 1; 2; 3]) [0; 1; 2]) [0; 1; 20; 46]) [1; 2; 3].
(* kind: 0 simple ack, 1 complex ack of 30 octets, 2 error *)
Definition sweep_ok (x : Z * Z * Z * Z * list Z) : bool :=
  let '(retries, len, kind, idx, fate) := x in
  let evs := run_chunks (small_nodes retries) [mkReq 0 1 2 len 12 (-1) kind 30 0] [(idx, fate)] (-1) [] in
  (n_conf evs =? 1) && existsb (is_conf (if kind =? 0 then 2 else if kind =? 1 then 3 else 5)) evs.

Lemma unsegmented_single_fault_sweep : forallb sweep_ok sweep_domain = true.
Proof. vm_compute. reflexivity. Qed.
