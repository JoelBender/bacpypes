(* NetFlood.v — a broadcast wave on a loop-free internetwork: one copy per network, relayed by every router from
   its up-port to all its other ports, until every network behind the origin has carried exactly one.  Proved once
   for any such wave (Section Wave); the instance here is the global broadcast, which reaches every station of
   every network exactly once (NetAnn.v has the I-Am-Router-To-Network announcement).
   Lemmas about Net.v (property C06). *)
From Bac Require Import Base ListFacts Net NetFacts NetOnce NetRoute NetArrive NetLocal NetTree.
Open Scope N_scope.

Lemma router_floods : forall n i ai inet src dst p,
  nth_adapter n i = Some ai -> modelled_config n = true -> is_router n = true -> has_app n = false ->
  a_net ai = Some inet ->
  n_msg p = None -> n_dadr p = Some DGlobal -> n_hop p <> 0 -> spoofed n p = false ->
  process_npdu n i src dst p =
    (learned n ai src p,
     map (fun j => Fwd j LBcast (mkNpdu (Some DGlobal) (Some (fwd_sadr inet src p)) (n_hop p - 1) None (n_data p)))
         (other_ports n i)).
Proof.
  intros n i ai inet src dst p Ha Hm Hr Happ Hi Hmsg Hd Hh Hs.
  destruct (local_adapter_exists _ _ _ Ha) as [la Hla].
  pose proof (learned_adapters n ai src p) as Ead.
  rewrite (router_transit n i ai la src dst p DGlobal true Ha Hla Hm Hmsg Hd Hs); [|unfold decision; rewrite Hd; reflexivity|exact Happ].
  rewrite (forward_global _ i ai inet src p) by (rewrite ?(is_router_same _ _ Ead); assumption).
  rewrite (other_ports_same _ _ Ead). unfold fwd_copy. rewrite Hmsg, Hd. reflexivity.
Qed.

Lemma station_hears_global : forall n a src dst p,
  adapters n = [a] -> has_app n = true ->
  n_msg p = None -> n_dadr p = Some DGlobal -> apdu_ok (n_data p) = true ->
  (forall sn sm, n_sadr p = Some (sn, sm) -> optN_eqb (a_net a) (Some sn) = false) ->
  exists s, process_npdu n 0 src dst p = (learned n a src p, [Up s AGB (n_data p)]).
Proof.
  intros n a src dst p Had Happ Hmsg Hd Hok Hs. eexists.
  rewrite (station_up n a src dst p Had Happ Hmsg Hok (or_intror Hd) Hs).
  unfold shown_dest. rewrite Hd, (proj1 (proj2 (proj2 (proj2 (station_config n a Had))))). reflexivity.
Qed.

Lemma nodup_map_inj_on : forall {A B} (f : A -> B) l,
  NoDup l -> (forall x y, In x l -> In y l -> f x = f y -> x = y) -> NoDup (map f l).
Proof. intros A B f l. apply nodup_map_on. Qed.

Lemma nodup_flat_map_fst : forall {B} (g : nat * nat -> list (nat * B)) l,
  NoDup (map fst l) -> (forall x, NoDup (g x)) -> (forall x p, In p (g x) -> fst p = fst x) ->
  NoDup (flat_map g l).
Proof.
  intros B g. induction l as [|a l IH]; intros Hnd Hg Hfst; cbn; [constructor|].
  cbn [map] in Hnd. inversion Hnd; subst. apply nodup_app_intro; auto.
  intros p Hp Hq. apply in_flat_map in Hq. destruct Hq as [y [Hy Hpy]].
  apply H1. rewrite <- (Hfst a p Hp), (Hfst y p Hpy). apply in_map. assumption.
Qed.

Lemma lan_members_key : forall lns L (x : nat * nat), In x (lan_members lns L) -> In L (map fst lns).
Proof.
  induction lns as [|[k m] r IH]; intros L x H; cbn in *; [contradiction|].
  destruct (N.eqb_spec k L); [left; assumption|right; eapply IH; eauto].
Qed.

Definition oframes (os : list obs) : list frame := flat_map (fun o => match o with OFrame f => [f] | _ => [] end) os.

Lemma oframes_app : forall a b, oframes (a ++ b) = oframes a ++ oframes b.
Proof. intros. apply flat_map_app. Qed.

Lemma oframes_rev : forall os, oframes (rev os) = rev (oframes os).
Proof. apply flat_map_rev_single. intros []; cbn; lia. Qed.

Lemma emit_no_frames : forall w who acts, oframes (snd (emit w who acts)) = [].
Proof.
  intros. rewrite emit_flat_map. unfold oframes. cbn [snd].
  rewrite flat_map_flat_map. apply flat_map_nil. intros [] _; reflexivity.
Qed.

Lemma out_obs_no_frames : forall ns f x, oframes (out_obs ns f x) = [].
Proof.
  intros ns f x. unfold out_obs. destruct (member_out ns f x) as [[[w'|] fs] os] eqn:Em; cbn [snd].
  - destruct (member_out_some _ _ _ _ _ _ Em) as (w & lan & wmac & n' & acts & _ & _ & _ & _ & _ & He).
    rewrite <- (emit_no_frames w' (fst x) acts), He. reflexivity.
  - destruct (member_out_none _ _ _ _ _ Em); subst. reflexivity.
Qed.

Definition port_frames (ports : list (N * mac)) (q : npdu) (js : list nat) : list frame :=
  flat_map (fun j => match nth_error ports j with Some (lan, m) => [mkFrame lan m LBcast q] | None => [] end) js.

Lemma emit_bcast : forall (A : nat -> ldest -> npdu -> action) n' ports who q js, A = Tx \/ A = Fwd ->
  emit (mkW n' ports) who (map (fun j => A j LBcast q) js) = (port_frames ports q js, []).
Proof.
  intros A n' ports who q js HA. induction js as [|j js IH]; [reflexivity|].
  cbn [map emit port_frames flat_map]. rewrite IH. fold (port_frames ports q js).
  destruct HA; subst A; cbn [w_ports]; destruct (nth_error ports j) as [[lan m]|]; reflexivity.
Qed.

Lemma port_frames_map : forall (F : N -> frame) ports q js,
  (forall j lan mj, In j js -> nth_error ports j = Some (lan, mj) -> mkFrame lan mj LBcast q = F lan) ->
  port_frames ports q js =
  map F (flat_map (fun j => match nth_error ports j with Some (lan, _) => [lan] | None => [] end) js).
Proof.
  intros F ports q. induction js as [|j js IH]; intro H; [reflexivity|].
  cbn [port_frames flat_map]. fold (port_frames ports q js). rewrite map_app, IH by (intros; eapply H; eauto; right; assumption).
  destruct (nth_error ports j) as [[lan mj]|] eqn:E; [|reflexivity].
  cbn [map app]. rewrite (H j lan mj (or_introl eq_refl) E). reflexivity.
Qed.

(* loop-free, seen from the source network s: levels, one up-port per router, exactly one down-port (par) on
   every LAN other than s *)
Record tree_from (lns : list (N * list (nat * nat))) (ns : list wnode) (s : N)
                 (lv : N -> nat) (up : nat -> nat) (par : N -> nat * nat) : Prop := {
  tf_root : lv s = 0%nat;
  tf_zero : forall L, (exists x m, port_of ns x = Some (L, m)) -> lv L = 0%nat -> L = s;
  tf_bound : forall L, (exists x m, port_of ns x = Some (L, m)) -> (lv L < 255)%nat;
  tf_router : forall who w, nth_error ns who = Some w -> router_shape w ->
      exists lu mu, nth_error (w_ports w) (up who) = Some (lu, mu) /\
        forall p lp mp, nth_error (w_ports w) p = Some (lp, mp) -> p <> up who -> lv lp = S (lv lu);
  tf_parent : forall L, (exists x m, port_of ns x = Some (L, m)) -> lv L <> 0%nat ->
      In (par L) (lan_members lns L) /\
      exists w, nth_error ns (fst (par L)) = Some w /\ router_shape w /\ snd (par L) <> up (fst (par L));
  tf_unique : forall L x w, In x (lan_members lns L) -> nth_error ns (fst x) = Some w -> router_shape w ->
      snd x <> up (fst x) -> x = par L
}.

Arguments tf_root {lns ns s lv up par}.
Arguments tf_zero {lns ns s lv up par}.
Arguments tf_bound {lns ns s lv up par}.
Arguments tf_router {lns ns s lv up par}.
Arguments tf_parent {lns ns s lv up par}.
Arguments tf_unique {lns ns s lv up par}.

Definition sender_mac (ns : list wnode) (par : N -> nat * nat) (s : N) (smac : mac) (L : N) : mac :=
  if L =? s then smac else match port_mac ns (par L) with Some m => m | None => [] end.

(* the copy of the wave on LAN L, sent by the origin (address m0) on s and by the parent port elsewhere *)
Definition wave_frame (ns : list wnode) (par : N -> nat * nat) (s : N) (m0 : mac) (P : N -> npdu) (L : N) : frame :=
  mkFrame L (sender_mac ns par s m0 L) LBcast (P L).

Definition kids (ns : list wnode) (up : nat -> nat) (x : nat * nat) : list N :=
  match nth_error ns (fst x) with
  | Some w => if (2 <=? length (w_ports w))%nat && Nat.eqb (snd x) (up (fst x))
              then flat_map (fun j => match nth_error (w_ports w) j with Some (lan, _) => [lan] | None => [] end)
                            (filter (fun j => negb (Nat.eqb j (snd x))) (seq 0 (length (w_ports w))))
              else []
  | None => []
  end.

Lemma kids_station : forall ns up x w, nth_error ns (fst x) = Some w -> station_shape w -> kids ns up x = [].
Proof. intros ns up x w Hw (l0 & m & a & Hp & _). unfold kids. rewrite Hw, Hp. reflexivity. Qed.

Lemma kids_down : forall ns up x, snd x <> up (fst x) -> kids ns up x = [].
Proof.
  intros ns up x H. unfold kids. destruct (nth_error ns (fst x)); [|reflexivity].
  destruct (Nat.eqb_spec (snd x) (up (fst x))); [contradiction|]. rewrite andb_false_r. reflexivity.
Qed.

Lemma kids_up : forall ns up x w, nth_error ns (fst x) = Some w -> router_shape w -> snd x = up (fst x) ->
  kids ns up x = flat_map (fun j => match nth_error (w_ports w) j with Some (lan, _) => [lan] | None => [] end)
                          (filter (fun j => negb (Nat.eqb j (snd x))) (seq 0 (length (w_ports w)))).
Proof.
  intros ns up x w Hw (Hl & _) Hu. unfold kids. rewrite Hw, <- Hu, Nat.eqb_refl.
  apply Nat.leb_le in Hl. rewrite Hl. reflexivity.
Qed.

Definition up_lan (ns0 : list wnode) (up : nat -> nat) (par : N -> nat * nat) (L lu : N) : Prop :=
  exists w mu, nth_error ns0 (fst (par L)) = Some w /\ nth_error (w_ports w) (up (fst (par L))) = Some (lu, mu).

Section Wave.
Context (lns : list (N * list (nat * nat))) (ns0 : list wnode) (s : N)
        (lv : N -> nat) (up : nat -> nat) (par : N -> nat * nat).
Context (Hio : internet_ok lns ns0) (Htf : tree_from lns ns0 s lv up par).

Lemma kids_spec : forall L x L', In x (lan_members lns L) -> In L' (kids ns0 up x) ->
  exists w j mj, nth_error ns0 (fst x) = Some w /\ router_shape w /\ snd x = up (fst x) /\
     nth_error (w_ports w) j = Some (L', mj) /\ j <> up (fst x) /\ par L' = (fst x, j) /\
     lv L' = S (lv L) /\ L' <> s.
Proof.
  intros L x L' Hx Hk.
  destruct (io_members Hio _ _ Hx) as [m Hport]. unfold port_of in Hport.
  destruct (nth_error ns0 (fst x)) as [w|] eqn:Ew; [|discriminate].
  destruct (io_shape Hio _ _ Ew) as [Hr|Hst]; [|rewrite (kids_station _ _ _ _ Ew Hst) in Hk; contradiction].
  destruct (Nat.eq_dec (snd x) (up (fst x))) as [Hup|Hup]; [|rewrite (kids_down _ _ _ Hup) in Hk; contradiction].
  rewrite (kids_up _ _ _ _ Ew Hr Hup) in Hk.
  apply in_flat_map in Hk. destruct Hk as [j [Hj HL']].
  apply filter_In in Hj. destruct Hj as [_ Hj]. destruct (Nat.eqb_spec j (snd x)) as [E|E]; [discriminate|].
  destruct (nth_error (w_ports w) j) as [[lan mj]|] eqn:Enj; [|contradiction]. destruct HL' as [HL'|[]]. subst lan.
  destruct (tf_router Htf _ _ Ew Hr) as (lu & mu & Hupp & Hchild).
  assert (lu = L) by (rewrite <- Hup, Hport in Hupp; inversion Hupp; reflexivity). subst lu.
  assert (Hju : j <> up (fst x)) by (rewrite <- Hup; exact E).
  assert (Hlv : lv L' = S (lv L)) by (apply (Hchild j L' mj Enj Hju)).
  exists w, j, mj. split; [reflexivity|]. split; [exact Hr|]. split; [exact Hup|]. split; [exact Enj|].
  split; [exact Hju|]. split; [|split; [exact Hlv|]].
  - symmetry. apply (tf_unique Htf L' (fst x, j) w); cbn [fst snd]; try assumption.
    apply (io_listed Hio _ _ mj). exact (port_of_intro Ew Enj).
  - intro E0. subst L'. rewrite (tf_root Htf) in Hlv. discriminate.
Qed.

Lemma kids_complete : forall r w j L' mj,
  nth_error ns0 r = Some w -> router_shape w -> nth_error (w_ports w) j = Some (L', mj) -> j <> up r ->
  In L' (kids ns0 up (r, up r)).
Proof.
  intros r w j L' mj Hw Hr Hj Hne. rewrite (kids_up ns0 up (r, up r) w Hw Hr eq_refl). cbn [fst snd].
  apply in_flat_map. exists j. split.
  - apply filter_In. split.
    + apply in_seq. assert (nth_error (w_ports w) j <> None) by congruence. apply nth_error_Some in H. lia.
    + destruct (Nat.eqb_spec j (up r)); [contradiction|reflexivity].
  - rewrite Hj. left; reflexivity.
Qed.

Lemma children_nodup : forall L, NoDup (flat_map (kids ns0 up) (lan_members lns L)).
Proof.
  intro L. apply nodup_flat_map.
  - eapply NoDup_map_inv. apply (io_once Hio L).
  - intros x Hx. destruct (nth_error ns0 (fst x)) as [w|] eqn:Ew; [|unfold kids; rewrite Ew; constructor].
    destruct (io_shape Hio _ _ Ew) as [Hr|Hst]; [|rewrite (kids_station _ _ _ _ Ew Hst); constructor].
    destruct (Nat.eq_dec (snd x) (up (fst x))) as [Hup|Hup]; [|rewrite (kids_down _ _ _ Hup); constructor].
    rewrite (kids_up _ _ _ _ Ew Hr Hup). destruct Hr as (_ & Hnd & _).
    (* the ports of a router are on pairwise different LANs *)
    apply nodup_flat_map.
    + apply NoDup_filter. apply seq_NoDup.
    + intros j _. destruct (nth_error (w_ports w) j) as [[lan mj]|]; repeat constructor. intros [].
    + intros j j' e _ _ Hne Hj Hj'. apply Hne.
      destruct (nth_error (w_ports w) j) as [[lan mj]|] eqn:E1; [|contradiction].
      destruct (nth_error (w_ports w) j') as [[lan' mj']|] eqn:E2; [|contradiction].
      destruct Hj as [Hj|[]], Hj' as [Hj'|[]]. subst lan lan'.
      apply (proj1 (NoDup_nth_error (map fst (w_ports w))) Hnd).
      * rewrite map_length. assert (nth_error (w_ports w) j <> None) by congruence. apply nth_error_Some in H. exact H.
      * rewrite !nth_error_map, E1, E2. reflexivity.
  - intros x y e Hx Hy Hne Hex Hey. apply Hne.
    destruct (kids_spec _ _ _ Hx Hex) as (w1 & j1 & m1 & _ & _ & _ & _ & _ & Hp1 & _).
    destruct (kids_spec _ _ _ Hy Hey) as (w2 & j2 & m2 & _ & _ & _ & _ & _ & Hp2 & _).
    rewrite Hp1 in Hp2. inversion Hp2.
    apply (nodup_map_inj fst (lan_members lns L)); auto. apply (io_once Hio L).
Qed.

Lemma all_done : forall done,
  In s done -> (forall L L', In L done -> In L' (flat_map (kids ns0 up) (lan_members lns L)) -> In L' done) ->
  forall n L, lv L = n -> inhabited ns0 L -> In L done.
Proof.
  intros done Hs Hcl. induction n as [|n IH]; intros L Hlv Hinh.
  - rewrite (tf_zero Htf L Hinh Hlv). assumption.
  - destruct (tf_parent Htf L Hinh ltac:(lia)) as (Hpin & wr & Hwr & Hr & Hnup).
    destruct (tf_router Htf _ _ Hwr Hr) as (lu & mu & Hup & Hchild).
    destruct (io_members Hio _ _ Hpin) as [m Hport]. unfold port_of in Hport. rewrite Hwr in Hport.
    assert (Hlvlu : lv L = S (lv lu)) by (apply (Hchild _ _ _ Hport Hnup)).
    assert (Hpu : port_of ns0 (fst (par L), up (fst (par L))) = Some (lu, mu)).
    { exact (port_of_intro Hwr Hup). }
    apply (Hcl lu L).
    + apply IH; [lia|]. exists (fst (par L), up (fst (par L))), mu. exact Hpu.
    + apply in_flat_map. exists (fst (par L), up (fst (par L))). split.
      * exact (io_listed Hio _ _ _ Hpu).
      * eapply kids_complete; eauto.
Qed.

(* The wave: member x0 of s (link address m0) has put the copy for s on its LAN; the copy for L carries `copy L`;
   `relays x` are the networks member x relays to (its children; none for the origin, whose own copy is the one in
   flight); `heard x` is who hands the payload up at x; `Keeps` is whatever the instance needs to know of a node
   that has handled a copy *)
Context (x0 : nat * nat) (m0 : mac).
Context (Hx0 : In x0 (lan_members lns s)) (Hp0 : port_of ns0 x0 = Some (s, m0)).
Context (copy : N -> npdu).
Context (relays : nat * nat -> list N).
Context (Hrelay0 : relays x0 = []) (Hrelay : forall x, x <> x0 -> relays x = kids ns0 up x).
Context (heard : nat * nat -> list nat).
Context (Hheard0 : heard x0 = [])
        (Hheard_router : forall x w, nth_error ns0 (fst x) = Some w -> router_shape w -> heard x = []).
Context (Keeps : node -> Prop).
Local Notation F := (wave_frame ns0 par s m0 copy).

Context (router_relays : forall L x m w0 w',
  In x (lan_members lns L) -> nth_error ns0 (fst x) = Some w0 -> router_shape w0 ->
  nth_error (w_ports w0) (snd x) = Some (L, m) -> snd x = up (fst x) ->
  node_shape w0 w' -> Keeps (w_node w') ->
  exists n' A q, (A = Tx \/ A = Fwd) /\
    process_npdu (w_node w') (snd x) (sender_mac ns0 par s m0 L) LBcast (copy L)
    = (n', map (fun j => A j LBcast q) (other_ports (w_node w') (snd x))) /\
    node_shape w0 (mkW n' (w_ports w')) /\ Keeps n' /\ forall L', lv L' = S (lv L) -> q = copy L').

Context (station_hears : forall L x m w0 w' a,
  In x (lan_members lns L) -> x <> x0 -> snd x = 0%nat -> station_at ns0 (fst x) w0 L m a ->
  node_shape w0 w' -> Keeps (w_node w') ->
  exists n' acts os,
    process_npdu (w_node w') 0 (sender_mac ns0 par s m0 L) LBcast (copy L) = (n', acts) /\
    emit (mkW n' (w_ports w')) (fst x) acts = ([], os) /\ hearers os = heard x /\
    node_shape w0 (mkW n' (w_ports w')) /\ Keeps n').

Definition wsim (ns : list wnode) : Prop :=
  shape_sim ns0 ns /\ forall who w, nth_error ns who = Some w -> Keeps (w_node w).

Definition sender (L : N) : nat * nat := if L =? s then x0 else par L.

Lemma sender_port : forall L, inhabited ns0 L ->
  In (sender L) (lan_members lns L) /\ port_of ns0 (sender L) = Some (L, sender_mac ns0 par s m0 L).
Proof.
  intros L Hinh. unfold sender, sender_mac. destruct (N.eqb_spec L s) as [E|E]; [subst L; auto|].
  assert (Hlv : lv L <> 0%nat) by (intro E0; apply E; exact (tf_zero Htf L Hinh E0)).
  destruct (tf_parent Htf L Hinh Hlv) as (Hpin & _). split; [assumption|].
  destruct (io_members Hio _ _ Hpin) as [mp Hpp]. rewrite (port_of_mac _ _ _ _ Hpp). exact Hpp.
Qed.

Lemma relays_sub : forall x, relays x = [] \/ relays x = kids ns0 up x.
Proof. intro x. destruct (port_eq_or x x0) as [E|E]; [subst x|]; auto. Qed.

Lemma wave_member : forall ns L x, wsim ns -> In x (lan_members lns L) ->
  out_frames ns (F L) x = map F (relays x) /\
  hearers (out_obs ns (F L) x) = heard x /\
  match fst (fst (member_out ns (F L) x)) with
  | Some w' => exists w0, nth_error ns0 (fst x) = Some w0 /\ node_shape w0 w' /\ Keeps (w_node w')
  | None => True
  end.
Proof.
  intros ns L x [Hsim Hkeeps] Hx.
  destruct (io_members Hio _ _ Hx) as [m Hport].
  assert (Hinh : inhabited ns0 L) by (exists x, m; exact Hport).
  destruct (sender_port L Hinh) as [Hsin Hsp].
  pose proof Hport as Hport'. unfold port_of in Hport'.
  destruct (nth_error ns0 (fst x)) as [w0|] eqn:Ew0; [|discriminate].
  destruct (shape_nth _ _ _ _ Hsim Ew0) as (w' & Hw' & Hns). pose proof Hns as (Hp1 & _).
  unfold out_frames, out_obs, member_out. rewrite Hw', Hp1, Hport'.
  destruct (port_eq_or x (sender L)) as [Es|Es].
  - (* the sender of this copy: it does not hear it, and it has no children through this port *)
    assert (Em : sender_mac ns0 par s m0 L = m) by (rewrite <- Es, Hport in Hsp; inversion Hsp; reflexivity).
    rewrite (thm_lan_no_echo m (F L) eq_refl Em). cbn [fst snd].
    assert (Hnone : relays x = [] /\ heard x = []).
    { unfold sender in Es. destruct (N.eqb_spec L s) as [E|E]; [subst x; auto|].
      assert (Hlv : lv L <> 0%nat) by (intro E0; apply E; exact (tf_zero Htf L Hinh E0)).
      destruct (tf_parent Htf L Hinh Hlv) as (_ & wp & Hwp & Hrp & Hnup). rewrite <- Es in Hwp, Hnup.
      split; [|exact (Hheard_router x wp Hwp Hrp)].
      destruct (relays_sub x) as [E0|E0]; [assumption|]. rewrite E0. apply kids_down. assumption. }
    destruct Hnone as [Erel Ehrd]. rewrite Erel, Ehrd. repeat split.
  - (* every other member hears it *)
    assert (Hx0' : x <> x0).
    { intro E. subst x. rewrite Hp0 in Hport. inversion Hport; subst L. apply Es. unfold sender. rewrite N.eqb_refl. reflexivity. }
    rewrite (accepts_other lns ns0 L x (sender L) m _ (F L) Hio Hx Hsin Hport Hsp Es eq_refl eq_refl).
    rewrite (Hrelay x Hx0').
    change (f_src (F L)) with (sender_mac ns0 par s m0 L). change (f_dst (F L)) with LBcast. change (f_npdu (F L)) with (copy L).
    destruct (io_shape Hio _ _ Ew0) as [Hr|Hst].
    + (* a router: this is its up-port, since the only down-port on L is the sender's *)
      destruct (tf_router Htf _ _ Ew0 Hr) as (lu & mu & Hup & Hchild).
      assert (Eup : snd x = up (fst x)).
      { destruct (Nat.eq_dec (snd x) (up (fst x))) as [E|E]; [assumption|]. exfalso. apply Es.
        pose proof (Hchild _ _ _ Hport' E) as Hlv. unfold sender.
        destruct (N.eqb_spec L s) as [E1|E1]; [subst L; rewrite (tf_root Htf) in Hlv; discriminate|].
        exact (tf_unique Htf L x w0 Hx Ew0 Hr E). }
      assert (lu = L) by (rewrite <- Eup, Hport' in Hup; inversion Hup; reflexivity). subst lu.
      destruct (router_relays L x m w0 w' Hx Ew0 Hr Hport' Eup Hns (Hkeeps _ _ Hw'))
        as (n' & A & q & HA & Hpr & Hns' & Hkeeps' & Hq).
      rewrite Hpr, <- Hp1, (emit_bcast A _ _ _ _ _ HA). cbn [fst snd].
      split; [|split; [rewrite (Hheard_router x w0 Ew0 Hr); reflexivity|exists w0; auto]].
      rewrite (kids_up _ _ _ _ Ew0 Hr Eup).
      pose proof (router_shape_node_shape _ _ Hns Hr) as (_ & _ & Ha' & _).
      unfold other_ports. rewrite Ha', map_length, Hp1.
      apply port_frames_map. intros j lan mj Hj Hnj.
      apply filter_In in Hj. destruct Hj as [_ Hj]. destruct (Nat.eqb_spec j (snd x)) as [E|E]; [discriminate|].
      rewrite Eup in E.
      assert (Hlvlan : lv lan = S (lv L)) by exact (Hchild j lan mj Hnj E).
      assert (Hpj : port_of ns0 (fst x, j) = Some (lan, mj)) by (exact (port_of_intro Ew0 Hnj)).
      assert (Hparj : (fst x, j) = par lan).
      { apply (tf_unique Htf lan (fst x, j) w0); [exact (io_listed Hio _ _ _ Hpj)|exact Ew0|exact Hr|exact E]. }
      unfold wave_frame, sender_mac.
      destruct (N.eqb_spec lan s) as [E0|E0]; [subst lan; rewrite (tf_root Htf) in Hlvlan; discriminate|].
      rewrite <- Hparj, (port_of_mac _ _ _ _ Hpj), (Hq lan Hlvlan). reflexivity.
    + (* a station *)
      destruct (station_port _ _ _ _ Hst Hport') as [E0 Hp]. rewrite (kids_station _ _ _ _ Ew0 Hst).
      destruct Hst as (l1 & m1 & a & Hp' & Ha & Hn & Hh). rewrite Hp in Hp'. inversion Hp'; subst l1 m1.
      destruct (station_hears L x m w0 w' a Hx Hx0' E0 (Build_station_at _ _ _ _ _ _ Ew0 Hp Ha Hn Hh) Hns (Hkeeps _ _ Hw'))
        as (n' & acts & os & Hpr & He & Hhe & Hns' & Hkeeps').
      rewrite E0, Hpr, <- Hp1, He. cbn [fst snd map]. split; [reflexivity|]. split; [exact Hhe|exists w0; auto].
Qed.

Lemma wave_step : forall w L q, lans w = lns -> wsim (nodes w) -> queue w = F L :: q ->
  exists w' osn, step w = Some w' /\ lans w' = lns /\ wsim (nodes w') /\
     queue w' = q ++ map F (flat_map relays (lan_members lns L)) /\
     trace w' = osn ++ OFrame (F L) :: trace w /\
     hearers osn = rev (flat_map heard (lan_members lns L)) /\ oframes osn = [].
Proof.
  intros w L q Hl Hws Hq. rewrite (step_cons w (F L) q Hq), Hl. change (f_lan (F L)) with L.
  destruct (deliver (nodes w) (F L) (lan_members lns L) q [OFrame (F L)]) as [[ns' q'] tr'] eqn:Ed.
  destruct (deliver_as_map _ _ _ _ _ _ _ _ Ed (io_once Hio L)) as (A1 & A2 & A3 & A4).
  pose proof (fun x => wave_member (nodes w) L x Hws) as Hmf. destruct Hws as [Hsim Hkeeps].
  assert (Hnew : forall who, nth_error ns' who = nth_error (nodes w) who \/
            exists w0 w', nth_error ns0 who = Some w0 /\ nth_error ns' who = Some w' /\ node_shape w0 w' /\ Keeps (w_node w')).
  { intro who. destruct (in_dec Nat.eq_dec who (map fst (lan_members lns L))) as [Hin|Hnin]; [|left; exact (A3 who Hnin)].
    apply in_map_iff in Hin. destruct Hin as [x [Ex Hx]]. subst who. rewrite (A4 x Hx).
    destruct (Hmf x Hx) as (_ & _ & H3).
    destruct (fst (fst (member_out (nodes w) (F L) x))) as [w'|]; [right|left; reflexivity].
    destruct H3 as (w0 & Hw0 & Hns & Hx'). exists w0, w'. auto. }
  eexists. exists (rev (flat_map (out_obs (nodes w) (F L)) (lan_members lns L))).
  split; [reflexivity|]. cbn [lans nodes queue trace]. split; [reflexivity|]. split; [split|split; [|split; [|split]]].
  - intro who. destruct (Hnew who) as [E|(w0 & w' & E0 & E1 & Hns & _)]; [rewrite E; exact (Hsim who)|rewrite E0, E1; exact Hns].
  - intros who w1 Hw1. destruct (Hnew who) as [E|(w0 & w' & _ & E1 & _ & Hx')].
    + rewrite E in Hw1. exact (Hkeeps _ _ Hw1).
    + rewrite E1 in Hw1. inversion Hw1; subst w1. exact Hx'.
  - rewrite A1. f_equal. rewrite map_flat_map. apply flat_map_ext_in. intros x Hx. apply (Hmf x Hx).
  - rewrite A2, <- app_assoc. reflexivity.
  - rewrite hearers_rev, hearers_flat_map. f_equal. apply flat_map_ext_in. intros x Hx. apply (Hmf x Hx).
  - rewrite oframes_rev. unfold oframes at 1. rewrite flat_map_flat_map.
    rewrite flat_map_nil; [reflexivity|]. intros x _. apply out_obs_no_frames.
Qed.

(* the invariant: the copies for `done` have been delivered, those for `todo` are in flight, in this order *)
Record wave_inv (T0 : list obs) (done todo : list N) (osn : list obs) (w : world) : Prop := {
  wi_lans : lans w = lns;
  wi_nodes : wsim (nodes w);
  wi_queue : queue w = map F todo;
  wi_trace : trace w = osn ++ T0;
  wi_nodup : NoDup (done ++ todo);
  wi_root : In s (done ++ todo);
  wi_inhabited : forall L, In L (done ++ todo) -> inhabited ns0 L;
  wi_closed : forall L L', In L done -> In L' (flat_map relays (lan_members lns L)) -> In L' (done ++ todo);
  wi_up_done : forall L, In L (done ++ todo) -> L <> s -> exists lu, up_lan ns0 up par L lu /\ In lu done;
  wi_heard : hearers osn = rev (flat_map (fun L => flat_map heard (lan_members lns L)) done);
  wi_frames : oframes osn = map F (rev done)
}.
Arguments wi_lans {T0 done todo osn w}.
Arguments wi_nodes {T0 done todo osn w}.
Arguments wi_queue {T0 done todo osn w}.
Arguments wi_trace {T0 done todo osn w}.
Arguments wi_nodup {T0 done todo osn w}.
Arguments wi_root {T0 done todo osn w}.
Arguments wi_inhabited {T0 done todo osn w}.
Arguments wi_closed {T0 done todo osn w}.
Arguments wi_up_done {T0 done todo osn w}.
Arguments wi_heard {T0 done todo osn w}.
Arguments wi_frames {T0 done todo osn w}.

Lemma wave_child : forall L L', In L' (flat_map relays (lan_members lns L)) ->
  inhabited ns0 L' /\ L' <> s /\ up_lan ns0 up par L' L.
Proof.
  intros L L' HL'. apply in_flat_map in HL'. destruct HL' as [x [Hx Hk]].
  destruct (relays_sub x) as [E|E]; rewrite E in Hk; [contradiction|].
  destruct (kids_spec _ _ _ Hx Hk) as (wr & j & mj & Hwr & Hr & Hup & Hj & Hju & Hpj & Hlv & Hns).
  destruct (io_members Hio _ _ Hx) as [m Hport]. unfold port_of in Hport. rewrite Hwr, Hup in Hport.
  split; [|split; [assumption|]].
  - exists (fst x, j), mj. exact (port_of_intro Hwr Hj).
  - exists wr, m. rewrite Hpj. cbn [fst]. split; assumption.
Qed.

Lemma wave_inv_step : forall T0 done L todo' osn w,
  wave_inv T0 done (L :: todo') osn w ->
  exists w' osn', step w = Some w' /\
    wave_inv T0 (done ++ [L]) (todo' ++ flat_map relays (lan_members lns L)) osn' w'.
Proof.
  intros T0 done L todo' osn w Hinv.
  destruct (wave_step w L _ (wi_lans Hinv) (wi_nodes Hinv) (wi_queue Hinv))
    as (w' & osn1 & Hstep & Hl' & Hws' & Hq' & Htr' & Hh1 & Hf1).
  exists w', (osn1 ++ OFrame (F L) :: osn). split; [assumption|].
  set (ch := flat_map relays (lan_members lns L)) in *.
  (* a child of L is new: its up-LAN is L, whereas the up-LAN of every LAN seen so far is done already *)
  assert (Hdisj : forall L', In L' (done ++ L :: todo') -> ~ In L' ch).
  { intros L' Hold Hnew. destruct (wave_child L L' Hnew) as (_ & Hns & (wr & m & Hwr & Hupp)).
    destruct (wi_up_done Hinv L' Hold Hns) as (lu & (wr2 & m2 & Hwr2 & Hupp2) & Hlu).
    rewrite Hwr in Hwr2. inversion Hwr2; subst wr2. rewrite Hupp in Hupp2. inversion Hupp2; subst lu.
    apply (NoDup_remove_2 _ _ _ (wi_nodup Hinv)). apply in_or_app. left. assumption. }
  assert (Eq : (done ++ [L]) ++ todo' ++ ch = (done ++ L :: todo') ++ ch) by (rewrite <- !app_assoc; reflexivity).
  constructor; rewrite ?Eq.
  - exact Hl'.
  - exact Hws'.
  - rewrite Hq', map_app. reflexivity.
  - rewrite Htr', (wi_trace Hinv), <- app_assoc. reflexivity.
  - apply nodup_app_intro; [exact (wi_nodup Hinv)| |exact Hdisj].
    apply (nodup_sub_flat_map (kids ns0 up)); [exact relays_sub|apply children_nodup].
  - apply in_or_app. left. exact (wi_root Hinv).
  - intros L1 H0. apply in_app_or in H0. destruct H0 as [H0|H0]; [exact (wi_inhabited Hinv L1 H0)|apply (wave_child L L1 H0)].
  - intros L1 L' H0 H1. apply in_or_app. apply in_app_or in H0. destruct H0 as [H0|[H0|[]]].
    + left. exact (wi_closed Hinv L1 L' H0 H1).
    + subst L1. right. exact H1.
  - intros L1 H0 Hns. apply in_app_or in H0. destruct H0 as [H0|H0].
    + destruct (wi_up_done Hinv L1 H0 Hns) as (lu & Hul & Hlu). exists lu. split; [assumption|]. apply in_or_app. left. assumption.
    + exists L. split; [apply (wave_child L L1 H0)|]. apply in_or_app. right. left. reflexivity.
  - rewrite hearers_app. cbn [hearers flat_map app]. fold (hearers osn).
    rewrite Hh1, (wi_heard Hinv), flat_map_app, rev_app_distr. cbn [flat_map]. rewrite app_nil_r. reflexivity.
  - rewrite oframes_app, Hf1. cbn [oframes flat_map app]. fold (oframes osn). rewrite (wi_frames Hinv), rev_app_distr. reflexivity.
Qed.

Lemma wave_inv_length : forall T0 done todo osn w, wave_inv T0 done todo osn w ->
  (length (done ++ todo) <= length (map fst lns))%nat.
Proof.
  intros T0 done todo osn w Hinv. apply NoDup_incl_length; [exact (wi_nodup Hinv)|].
  intros L HL. destruct (wi_inhabited Hinv L HL) as (x & m & Hx). exact (lan_members_key _ _ _ (io_listed Hio _ _ _ Hx)).
Qed.

(* termination by counting: done ++ todo has no duplicates and lies within the keys of lns (wave_inv_length), and
   every step moves the head of todo to done, so `length (map fst lns) - length done` goes down *)
Lemma wave_terminates : forall T0 n done todo osn w, wave_inv T0 done todo osn w ->
  (length (map fst lns) - length done < n)%nat ->
  exists k done' osn', queue (run k w) = [] /\ wave_inv T0 done' [] osn' (run k w).
Proof.
  intro T0. induction n as [|n IH]; intros done todo osn w Hinv Hbound; [lia|].
  destruct todo as [|L todo']; [exists 0%nat, done, osn; split; [exact (wi_queue Hinv)|exact Hinv]|].
  pose proof (wave_inv_length _ _ _ _ _ Hinv) as Hlen. rewrite app_length in Hlen. cbn [length] in Hlen.
  destruct (wave_inv_step T0 done L todo' osn w Hinv) as (w' & osn1 & Hs & Hinv').
  destruct (IH _ _ _ w' Hinv') as (k & done' & osn' & Hk1 & Hk2); [rewrite app_length; cbn [length]; lia|].
  exists (S k), done', osn'. cbn [run]. rewrite Hs. auto.
Qed.

(* the copy for s alone in flight: the wave runs out; `done` are the LANs that carried a copy, in this order *)
Theorem wave_runs : forall w, lans w = lns -> wsim (nodes w) -> queue w = [F s] ->
  exists k done osn, queue (run k w) = [] /\ trace (run k w) = osn ++ trace w /\
    NoDup done /\ In s done /\
    (forall L L', In L done -> In L' (flat_map relays (lan_members lns L)) -> In L' done) /\
    hearers osn = rev (flat_map (fun L => flat_map heard (lan_members lns L)) done) /\
    oframes osn = map F (rev done).
Proof.
  intros w Hl Hws Hq.
  assert (Hinv : wave_inv (trace w) [] [s] [] w).
  { constructor; cbn [app map]; try assumption; try reflexivity.
    - repeat constructor. intros [].
    - left. reflexivity.
    - intros L [E|[]]. subst L. exists x0, m0. assumption.
    - intros L L' [].
    - intros L [E|[]] Hne. congruence. }
  destruct (wave_terminates _ _ [] [s] [] w Hinv (Nat.lt_succ_diag_r _)) as (k & done & osn & Hk & Hend).
  pose proof (wi_nodup Hend) as Hnd. pose proof (wi_root Hend) as Hs. pose proof (wi_closed Hend) as Hcl.
  rewrite app_nil_r in Hnd, Hs, Hcl.
  exists k, done, osn. split; [exact Hk|]. split; [exact (wi_trace Hend)|]. split; [exact Hnd|]. split; [exact Hs|].
  split; [exact Hcl|]. split; [exact (wi_heard Hend)|exact (wi_frames Hend)].
Qed.

End Wave.

(* The global broadcast.  The copy on LAN L: SADR = the originator once a router has forwarded it, one hop less
   per level *)
Definition gb_copy (s : N) (smac : mac) (data : list N) (lv : N -> nat) (L : N) : npdu :=
  mkNpdu (Some DGlobal) (if L =? s then None else Some (s, smac)) (255 - N.of_nat (lv L)) None data.

Definition hears (ns : list wnode) (src : nat) (x : nat * nat) : list nat :=
  if appb ns x && negb (Nat.eqb (fst x) src) then [fst x] else [].

Lemma hears_in : forall ns0 src x who, In who (hears ns0 src x) -> who = fst x /\ appb ns0 x = true /\ who <> src.
Proof.
  intros ns0 src x who H. unfold hears in H. destruct (appb ns0 x) eqn:Ea; [|contradiction]. cbn [andb] in H.
  destruct (Nat.eqb_spec (fst x) src) as [E|E]; [contradiction|]. destruct H as [H|[]]. subst who. auto.
Qed.

Lemma hears_nodup : forall ns0 src members, NoDup (map fst members) -> NoDup (flat_map (hears ns0 src) members).
Proof.
  intros ns0 src members Hnd. apply (nodup_sub_flat_map (fun x => [fst x])); [|rewrite flat_map_single; exact Hnd].
  intro x. unfold hears. destruct (appb ns0 x && negb (Nat.eqb (fst x) src)); auto.
Qed.

Lemma app_node_lan : forall lns ns0 x y L1 L2,
  internet_ok lns ns0 -> In x (lan_members lns L1) -> In y (lan_members lns L2) ->
  fst x = fst y -> appb ns0 x = true -> L1 = L2.
Proof.
  intros lns ns0 x y L1 L2 Hio Hx Hy E Ha.
  destruct (io_members Hio _ _ Hx) as [m1 H1]. destruct (io_members Hio _ _ Hy) as [m2 H2].
  unfold port_of in H1, H2. unfold appb in Ha. rewrite <- E in H2.
  destruct (nth_error ns0 (fst x)) as [w|] eqn:Ew; [|discriminate].
  destruct (io_shape Hio _ _ Ew) as [(_ & _ & _ & Hh)|Hst]; [congruence|].
  destruct (station_port _ _ _ _ Hst H1) as [_ E1], (station_port _ _ _ _ Hst H2) as [_ E2]. congruence.
Qed.

(* router_relays and station_hears of the wave for the global broadcast; nothing about the node states has to be
   kept along the wave (Keeps := fun _ => True), hence the `True`s *)
Lemma flood_router : forall lns ns0 s lv up par smac data L x m w0 w',
  tree_from lns ns0 s lv up par ->
  In x (lan_members lns L) -> nth_error ns0 (fst x) = Some w0 -> router_shape w0 ->
  nth_error (w_ports w0) (snd x) = Some (L, m) -> snd x = up (fst x) ->
  node_shape w0 w' -> True ->
  exists n' A q, (A = Tx \/ A = Fwd) /\
    process_npdu (w_node w') (snd x) (sender_mac ns0 par s smac L) LBcast (gb_copy s smac data lv L)
    = (n', map (fun j => A j LBcast q) (other_ports (w_node w') (snd x))) /\
    node_shape w0 (mkW n' (w_ports w')) /\ True /\ forall L', lv L' = S (lv L) -> q = gb_copy s smac data lv L'.
Proof.
  intros lns ns0 s lv up par smac data L x m w0 w' Htf Hx Ew0 Hr Hport Eup Hns _.
  pose proof Hns as (Hp1 & _). pose proof (router_shape_node_shape _ _ Hns Hr) as Hr'.
  assert (Hinh : inhabited ns0 L) by (exists x, m; unfold port_of; rewrite Ew0; exact Hport).
  destruct (tf_router Htf _ _ Ew0 Hr) as (lu & mu & Hup & Hchild).
  assert (lu = L) by (rewrite <- Eup, Hport in Hup; inversion Hup; reflexivity). subst lu.
  set (p := gb_copy s smac data lv L).
  assert (Hhop : n_hop p <> 0) by (pose proof (tf_bound Htf L Hinh); unfold p; cbn [gb_copy n_hop]; lia).
  assert (Hpp' : nth_error (w_ports w') (snd x) = Some (L, m)) by (rewrite Hp1; exact Hport).
  (* the originator's network is not one of this router's: they are L and networks one level further out *)
  assert (Hsp : spoofed (w_node w') p = false).
  { apply spoofed_false. cbn [p gb_copy n_sadr]. intros snet sm E. destruct (N.eqb_spec L s) as [E1|E1]; [discriminate|]. inversion E; subst snet.
    apply router_find_net_none; [assumption|]. rewrite Hp1. intro Hin. apply in_map_fst_nth in Hin.
    destruct Hin as (j & mj & Hj). destruct (Nat.eq_dec j (up (fst x))) as [E2|E2].
    - subst j. rewrite Hup in Hj. inversion Hj; subst. contradiction.
    - pose proof (Hchild j s mj Hj E2) as E3. rewrite (tf_root Htf) in E3. discriminate. }
  eexists. exists Fwd. eexists. split; [right; reflexivity|]. split; [|split; [|split; [exact I|]]].
  - exact (router_floods (w_node w') (snd x) (mkAd (Some L) (Some m)) L _ LBcast p
             (router_nth_adapter _ _ _ _ Hr' Hpp') (router_modelled _ Hr') (router_is_router _ Hr')
             ltac:(destruct Hr' as (_ & _ & _ & E); exact E) eq_refl eq_refl eq_refl Hhop Hsp).
  - exact (node_shape_trans _ _ _ Hns (learned_shape w' _ _ _)).
  - intros L' HL'. unfold gb_copy, fwd_sadr. cbn [p gb_copy n_sadr n_hop n_data].
    destruct (N.eqb_spec L' s) as [E|E]; [subst L'; rewrite (tf_root Htf) in HL'; discriminate|].
    f_equal; [|rewrite HL'; lia]. f_equal. unfold sender_mac. destruct (N.eqb_spec L s) as [E1|E1]; [subst L|]; reflexivity.
Qed.

Lemma flood_station : forall (ns0 : list wnode) par s src smac data lv L x m w0 w' a,
  apdu_ok data = true -> x <> (src, 0%nat) -> snd x = 0%nat -> station_at ns0 (fst x) w0 L m a ->
  node_shape w0 w' -> True ->
  exists n' acts os,
    process_npdu (w_node w') 0 (sender_mac ns0 par s smac L) LBcast (gb_copy s smac data lv L) = (n', acts) /\
    emit (mkW n' (w_ports w')) (fst x) acts = ([], os) /\ hearers os = hears ns0 src x /\
    node_shape w0 (mkW n' (w_ports w')) /\ True.
Proof.
  intros ns0 par s src smac data lv L x m w0 w' a Hok Hx0 E0 [Ew0 Hp Ha Hn Hh] Hns _.
  pose proof Hns as (_ & Hp2 & Hp3).
  destruct (station_hears_global (w_node w') a (sender_mac ns0 par s smac L) LBcast (gb_copy s smac data lv L))
    as [sh Hsh]; try reflexivity; try assumption.
  { rewrite Hp2. exact Ha. }
  { rewrite Hp3. exact Hh. }
  { cbn [gb_copy n_sadr]. intros sn sm E. destruct (N.eqb_spec L s) as [E1|E1]; [discriminate|]. inversion E; subst sn.
    exact (own_net_other a L s Hn E1). }
  do 3 eexists. split; [exact Hsh|]. split; [reflexivity|]. split; [|split; [|exact I]].
  - unfold hears, appb. rewrite Ew0, Hh. destruct (Nat.eqb_spec (fst x) src) as [E|E]; [|reflexivity].
    exfalso. apply Hx0. destruct x as [xa xb]. cbn in *. congruence.
  - exact (node_shape_trans _ _ _ Hns (learned_shape w' _ _ _)).
Qed.

Theorem tree_global_broadcast_once : forall w s lv up par src ws smac data,
  internet_ok (lans w) (nodes w) -> tree_from (lans w) (nodes w) s lv up par -> queue w = [] ->
  nth_error (nodes w) src = Some ws -> w_ports ws = [(s, smac)] -> station_shape ws -> apdu_ok data = true ->
  let w0 := submit w src AGB data in
  exists k osn, queue (run k w0) = [] /\ (forall k', (k <= k')%nat -> run k' w0 = run k w0) /\
    trace (run k w0) = osn ++ trace w /\ NoDup (hearers osn) /\
    forall who, In who (hearers osn) <->
                (who <> src /\ exists wn, nth_error (nodes w) who = Some wn /\ station_shape wn).
Proof.
  intros w s lv up par src ws smac data Hio Htf Hq Hws Hwsp Hwss Hok w0.
  pose proof Hwss as (l0 & m0 & a & Hp0 & Ha & Hn & Hh). rewrite Hwsp in Hp0. inversion Hp0; subst l0 m0.
  set (F := wave_frame (nodes w) par s smac (gb_copy s smac data lv)).
  assert (Hport0 : port_of (nodes w) (src, 0%nat) = Some (s, smac)) by (exact (port_of_station Hws Hwsp)).
  assert (Hw0 : w0 = mkWorld (set_nth (nodes w) src (mkW (w_node ws) (w_ports ws))) (lans w) [F s] (trace w)).
  { unfold w0. rewrite (station_submits_bcast w src ws s smac a AGB data Hq Hws Hwsp Ha (or_intror eq_refl)).
    unfold F, wave_frame, gb_copy, sender_mac, bcast_npdu. rewrite N.eqb_refl, (tf_root Htf). reflexivity. }
  assert (HH0 : hears (nodes w) src (src, 0%nat) = []) by (unfold hears; cbn [fst]; rewrite Nat.eqb_refl, andb_false_r; reflexivity).
  assert (HHr : forall x wr, nth_error (nodes w) (fst x) = Some wr -> router_shape wr -> hears (nodes w) src x = []).
  { intros x wr Hwr (_ & _ & _ & E). unfold hears, appb. rewrite Hwr, E. reflexivity. }
  destruct (wave_runs (lans w) (nodes w) s lv up par Hio Htf (src, 0%nat) smac (io_listed Hio _ _ _ Hport0) Hport0
              (gb_copy s smac data lv) (kids (nodes w) up) (kids_station _ _ (src, 0%nat) ws Hws Hwss) (fun _ _ => eq_refl)
              (hears (nodes w) src) HH0 HHr (fun _ => True)
              (fun L x m w1 w' Hx => flood_router _ _ _ _ _ _ smac data L x m w1 w' Htf Hx)
              (fun L x m w1 w' a1 _ => flood_station _ par s src smac data lv L x m w1 w' a1 Hok) w0)
    as (k & done & osn & Hk & Htr & Hnd & Hs & Hcl & Hhe & _).
  - rewrite Hw0. reflexivity.
  - rewrite Hw0. split; [apply (shape_set _ _ _ _ _ (shape_refl _) Hws); repeat split|auto].
  - rewrite Hw0. reflexivity.
  - exists k, osn. split; [assumption|]. split; [exact (quiet_forever k w0 Hk)|].
    split; [rewrite Htr, Hw0; reflexivity|]. rewrite Hhe. split.
    + (* a station is on one LAN only *)
      apply NoDup_rev. apply nodup_flat_map; [assumption| |].
      * intros L _. apply hears_nodup. apply (io_once Hio L).
      * intros L1 L2 who _ _ Hne H1 H2. apply Hne. apply in_flat_map in H1, H2. destruct H1 as (x & Hx & Hwx), H2 as (y & Hy & Hwy).
        apply hears_in in Hwx, Hwy. destruct Hwx as (E1 & Happ & _), Hwy as (E2 & _ & _).
        apply (app_node_lan _ _ x y L1 L2 Hio Hx Hy); congruence.
    + intro who. rewrite <- in_rev, in_flat_map. split.
      * intros (L & HL & Hwho). apply in_flat_map in Hwho. destruct Hwho as (x & Hx & Hwx).
        apply hears_in in Hwx. destruct Hwx as (E & Happ & Hne). subst who.
        split; [assumption|]. unfold appb in Happ. destruct (nth_error (nodes w) (fst x)) as [wn|] eqn:Ew; [|discriminate].
        exists wn. split; [reflexivity|].
        destruct (io_shape Hio _ _ Ew) as [(_ & _ & _ & Hh')|Hst]; [congruence|assumption].
      * intros (Hne & wn & Hwn & Hst). pose proof Hst as (L & m & a' & Hp & _ & _ & Hh').
        assert (Hport : port_of (nodes w) (who, 0%nat) = Some (L, m)) by (exact (port_of_station Hwn Hp)).
        exists L. split.
        -- apply (all_done _ _ _ _ _ _ Hio Htf done Hs Hcl (lv L) L eq_refl). exists (who, 0%nat), m. assumption.
        -- apply in_flat_map. exists (who, 0%nat). split; [exact (io_listed Hio _ _ _ Hport)|].
           unfold hears, appb. cbn [fst]. rewrite Hwn, Hh'. destruct (Nat.eqb_spec who src); [contradiction|]. left. reflexivity.
Qed.
