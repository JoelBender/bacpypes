(* SsmFacts.v — lemmas about the pure parts of Ssm.v: segment slicing and reassembly, in_window,
   invoke-id allocation, transaction lookup. *)
From Coq Require Import ZifyBool ZifyN ZifyNat.
From Bac Require Import Base PyRt Ssm.
From BacGen Require Import ApduFns.
Open Scope Z_scope.

Lemma zlen_nonneg : forall {A} (l : list A), 0 <= zlen l.
Proof. intros. unfold zlen. lia. Qed.

Lemma zlen_app : forall {A} (a b : list A), zlen (a ++ b) = zlen a + zlen b.
Proof. intros. unfold zlen. rewrite app_length. lia. Qed.

Lemma slice_length : forall d off sz, 0 <= sz -> zlen (slice d off sz) <= sz.
Proof.
  intros d off sz H. unfold slice, zlen. rewrite firstn_length. lia.
Qed.

Lemma skipn_skipn' : forall {A} (b a : nat) (l : list A), skipn a (skipn b l) = skipn (b + a) l.
Proof.
  induction b as [|b IH]; intros a l; [reflexivity|].
  destruct l; cbn [skipn Nat.add]; [destruct a; reflexivity | apply IH].
Qed.

Lemma chunks_concat : forall (k szn : nat) (p : list Z),
  (szn > 0)%nat -> (length p <= k * szn)%nat ->
  concat (map (fun i => firstn szn (skipn (i * szn) p)) (seq 0 k)) = p.
Proof.
  induction k as [|k IH]; intros szn p Hs Hl.
  - cbn in *. destruct p; [reflexivity | cbn in Hl; lia].
  - cbn [seq map concat]. rewrite <- seq_shift, map_map.
    cbn [Nat.mul Nat.add skipn].
    transitivity (firstn szn p ++ skipn szn p); [|apply firstn_skipn]. f_equal.
    rewrite <- (IH szn (skipn szn p) Hs) at 1.
    + f_equal. apply map_ext. intros i.
      rewrite skipn_skipn'. reflexivity.
    + rewrite skipn_length. lia.
Qed.

Fixpoint zrange (from : Z) (n : nat) : list Z := match n with O => [] | S k => from :: zrange (from + 1) k end.

Lemma zrange_seq : forall n from, zrange from n = map (fun i => from + Z.of_nat i) (seq 0 n).
Proof.
  induction n; intros; cbn [zrange seq map]; [reflexivity|].
  rewrite IHn, <- seq_shift, map_map. f_equal; [lia|]. apply map_ext. intros. lia.
Qed.

Definition slices (p : list Z) (sz : Z) (n : Z) : list (list Z) :=
  map (fun i => slice p (i * sz) sz) (zrange 0 (Z.to_nat n)).

Lemma seg_count_bound : forall len sz n, 0 <= len -> 0 < sz -> seg_count len sz = Ok n ->
  1 <= n /\ len <= n * sz /\ (len = 0 \/ (n - 1) * sz < len).
Proof.
  intros len sz n Hl Hs H. unfold seg_count in H.
  destruct (len =? 0) eqn:E0; [inversion H; lia|].
  destruct (sz =? 0) eqn:E1; [lia|].
  assert (Hd := Z.div_mod len sz ltac:(lia)).
  assert (Hm := Z.mod_pos_bound len sz Hs).
  assert (Hq : 0 <= len / sz) by (apply Z.div_pos; lia).
  destruct (len mod sz =? 0) eqn:E2; inversion H; subst; clear H.
  - assert (len mod sz = 0) by lia. assert (len / sz <> 0) by nia. nia.
  - assert (len mod sz <> 0) by lia. nia.
Qed.

Lemma seg_count_err len sz e : seg_count len sz = Err e -> sz = 0.
Proof.
  unfold seg_count. destruct (len =? 0); [discriminate|]. destruct (sz =? 0) eqn:E; [lia | discriminate].
Qed.

Lemma slices_concat : forall p sz n, 0 < sz -> seg_count (zlen p) sz = Ok n -> concat (slices p sz n) = p.
Proof.
  intros p sz n Hs Hc.
  destruct (seg_count_bound _ _ _ (zlen_nonneg p) Hs Hc) as (Hn & Hb & _).
  unfold slices. rewrite zrange_seq, map_map.
  transitivity (concat (map (fun i => firstn (Z.to_nat sz) (skipn (i * Z.to_nat sz) p)) (seq 0 (Z.to_nat n)))).
  - f_equal. apply map_ext. intros i. unfold slice. f_equal. f_equal. lia.
  - apply chunks_concat; [lia|]. unfold zlen in Hb. nia.
Qed.

Lemma slice_full : forall p sz i, 0 < sz -> 0 <= i -> (i + 1) * sz <= zlen p -> zlen (slice p (i * sz) sz) = sz.
Proof.
  intros p sz i Hs Hi Hb. unfold slice, zlen in *. rewrite firstn_length, skipn_length. nia.
Qed.

Lemma get_segment_inv : forall s i a, get_segment s i = Ok a ->
  exists c, s_ctx s = Some c /\ i < s_segcount s /\ (a_type a = 0 \/ a_type a = 3) /\
    a_data a = slice (a_data c) (i * s_segsize s) (s_segsize s) /\
    a_seg a = negb (s_segcount s =? 1) /\ a_mor a = a_seg a && (i <? s_segcount s - 1) /\
    (a_seg a = true -> a_seq a = i mod 256).
Proof.
  intros s i a H. unfold get_segment in H.
  destruct (s_ctx s) as [c|]; [|discriminate]. exists c.
  destruct (s_segcount s <=? i) eqn:E1; [discriminate|].
  split; [reflexivity|]. split; [lia|].
  destruct (a_type c =? 0).
  - destruct (enc_maxsegs (s_maxsegs s)); [|discriminate]. cbn [bind] in H.
    destruct (encode_max_apdu_length_accepted (s_maxapdu s)); [|discriminate]. cbn [bind] in H.
    injection H as <-. cbn. repeat split; [left; reflexivity | intros ->; reflexivity].
  - destruct (a_type c =? 3); [|discriminate].
    injection H as <-. cbn. repeat split; [right; reflexivity | intros ->; reflexivity].
Qed.

(* what both receivers do with a segment numbered `s` carrying `d` when `k` segments after the first have been
   accepted (lastSequenceNumber = k mod 256): appservice.py:643-656 and 1005-1021 *)
Definition rx_step (st : Z * list Z) (f : Z * list Z) : Z * list Z :=
  let '(k, acc) := st in let '(s, d) := f in
  if s =? (k mod 256 + 1) mod 256 then (k + 1, acc ++ d) else (k, acc).

Definition prefix_upto (p : list Z) (sz k : Z) : list Z := firstn (Z.to_nat ((k + 1) * sz)) p.

Lemma firstn_add' : forall {A} (a b : nat) (l : list A), firstn (a + b) l = firstn a l ++ firstn b (skipn a l).
Proof.
  induction a as [|a IH]; intros b l; [reflexivity|].
  destruct l; cbn [firstn skipn Nat.add app]; [destruct b; reflexivity | f_equal; apply IH].
Qed.

Lemma firstn_slice_next : forall p sz k, 0 < sz -> 0 <= k ->
  prefix_upto p sz k ++ slice p ((k + 1) * sz) sz = prefix_upto p sz (k + 1).
Proof.
  intros p sz k Hs Hk. unfold prefix_upto, slice.
  replace (Z.to_nat ((k + 1 + 1) * sz)) with (Z.to_nat ((k + 1) * sz) + Z.to_nat sz)%nat by nia.
  rewrite firstn_add'. reflexivity.
Qed.

(* frames: (sequence number, payload).  Every frame numbered s carries the slice with some index i,
   i = s (mod 256), closer than 128 to the index expected next — the protocol's own limit on reordering. *)
Definition frame_ok (p : list Z) (sz : Z) (k : Z) (f : Z * list Z) : Prop :=
  exists i, 0 <= i /\ fst f = i mod 256 /\ snd f = slice p (i * sz) sz /\ Z.abs (i - (k + 1)) < 128.

Lemma rx_step_exact : forall p sz k f, 0 < sz -> 0 <= k ->
  frame_ok p sz k f ->
  let st' := rx_step (k, prefix_upto p sz k) f in
  0 <= fst st' /\ snd st' = prefix_upto p sz (fst st') /\ (fst st' = k \/ fst st' = k + 1).
Proof.
  intros p sz k [s d] Hs Hk (i & Hi & Hsq & Hd & Hnear). cbn [fst snd] in *. subst s d.
  unfold rx_step. destruct (i mod 256 =? (k mod 256 + 1) mod 256) eqn:E; cbn [fst snd].
  - assert (i = k + 1) by lia. subst i.
    repeat split; try lia. apply firstn_slice_next; lia.
  - repeat split; try lia.
Qed.

(* each frame acceptable at the moment it arrives (duplicates and out-of-order frames included): what has been reassembled
   is always a prefix of the message cut at a segment boundary *)
Fixpoint frames_ok (p : list Z) (sz : Z) (k : Z) (fs : list (Z * list Z)) : Prop :=
  match fs with
  | [] => True
  | f :: r => frame_ok p sz k f /\ frames_ok p sz (fst (rx_step (k, prefix_upto p sz k) f)) r
  end.

Lemma receiver_prefix : forall p sz fs k, 0 < sz -> 0 <= k -> frames_ok p sz k fs ->
  let st := fold_left rx_step fs (k, prefix_upto p sz k) in
  k <= fst st /\ snd st = prefix_upto p sz (fst st).
Proof.
  intros p sz fs. induction fs as [|f r IH]; intros k Hs Hk Hok; cbn [fold_left].
  - cbn. split; [lia | reflexivity].
  - destruct Hok as (Hf & Hr).
    destruct (rx_step_exact p sz k f Hs Hk Hf) as (H0 & H1 & H2).
    destruct (rx_step (k, prefix_upto p sz k) f) as [k' acc'] eqn:E. cbn [fst snd] in *. subst acc'.
    specialize (IH k' Hs H0 Hr). cbn zeta in IH. destruct IH as (IH1 & IH2). split; [lia | exact IH2].
Qed.

Lemma in_window_spec : forall a b w, 0 <= a < 256 -> 0 <= b < 256 ->
  in_window a b w = true <-> (a - b) mod 256 < w.
Proof.
  intros a b w Ha Hb. unfold in_window. rewrite Z.ltb_lt.
  replace ((a - b + 256) mod 256) with ((a - b) mod 256); [tauto|]. lia.
Qed.

Lemma tr_matches_eq : forall i p t, tr_matches i p t = true -> i = s_invoke t /\ p = s_peer t.
Proof. intros i p t H. unfold tr_matches in H. lia. Qed.

Lemma alloc_id_fresh : forall fuel initial next peer live id next',
  alloc_id fuel initial next peer live = (Ok id, next') -> existsb (tr_matches id peer) live = false.
Proof.
  induction fuel as [|f IH]; intros initial next peer live id next' H; cbn [alloc_id] in H; [discriminate|].
  destruct (initial =? (next + 1) mod 256); [discriminate|].
  destruct (existsb (tr_matches next peer) live) eqn:E.
  - eapply IH; eauto.
  - inversion H; subst. exact E.
Qed.

Lemma alloc_id_range : forall fuel initial next peer live id next',
  0 <= next < 256 -> alloc_id fuel initial next peer live = (Ok id, next') -> 0 <= id < 256 /\ 0 <= next' < 256.
Proof.
  induction fuel as [|f IH]; intros initial next peer live id next' Hr H; cbn [alloc_id] in H; [discriminate|].
  destruct (initial =? (next + 1) mod 256); [discriminate|].
  destruct (existsb (tr_matches next peer) live) eqn:E.
  - eapply IH; [|eauto]. lia.
  - inversion H; subst. lia.
Qed.

(* termination: 257 units of fuel are never used up *)
Lemma alloc_id_fuel : forall fuel initial next peer live,
  0 <= initial < 256 -> 0 <= next < 256 ->
  (Z.to_nat ((initial - next - 1) mod 256) < fuel)%nat ->
  fst (alloc_id fuel initial next peer live) <> Err OutOfFuel.
Proof.
  induction fuel as [|f IH]; intros initial next peer live Hi Hn Hf; [lia|].
  cbn [alloc_id].
  destruct (initial =? (next + 1) mod 256) eqn:E0; [cbn; discriminate|].
  destruct (existsb (tr_matches next peer) live) eqn:E; [|cbn; discriminate].
  apply IH; try lia.
Qed.

(* with fewer than 255 ids live towards the peer the allocator may still refuse (it gives up after one lap that starts
   one past the cursor); what it never does is hand out a live id *)
Lemma get_next_invoke_id_fresh : forall next peer live id next',
  get_next_invoke_id next peer live = (Ok id, next') ->
  forall t, In t live -> ~ (s_invoke t = id /\ s_peer t = peer).
Proof.
  intros next peer live id next' H t Hin (H1 & H2).
  apply alloc_id_fresh in H.
  assert (existsb (tr_matches id peer) live = true); [|congruence].
  apply existsb_exists. exists t. split; [exact Hin|]. unfold tr_matches. lia.
Qed.

Lemma find_tr_spec : forall i p l k j t, find_tr i p l k = Some (j, t) ->
  (k <= j)%nat /\ nth_error l (j - k) = Some t /\ tr_matches i p t = true /\
  forall m t', (m < j - k)%nat -> nth_error l m = Some t' -> tr_matches i p t' = false.
Proof.
  induction l as [|x r IH]; intros k j t H; cbn [find_tr] in H; [discriminate|].
  destruct (tr_matches i p x) eqn:E.
  - inversion H; subst. replace (j - j)%nat with O by lia. cbn. repeat split; auto. intros; lia.
  - apply IH in H. destruct H as (H1 & H2 & H3 & H4).
    repeat split; try lia; auto.
    + replace (j - k)%nat with (S (j - S k)) by lia. exact H2.
    + intros m t' Hm Hn. destruct m; cbn in Hn.
      * inversion Hn; subst. exact E.
      * apply (H4 m t'); [lia | exact Hn].
Qed.

Lemma find_tr_nth : forall i p l j t, find_tr i p l O = Some (j, t) -> nth_error l j = Some t /\ tr_matches i p t = true.
Proof. intros i p l j t H. apply find_tr_spec in H. destruct H as (_ & H2 & H3 & _). rewrite Nat.sub_0_r in H2. auto. Qed.

(* equal invoke ids from different peers never select each other's transaction *)
Lemma find_tr_peer : forall i p l k j t, find_tr i p l k = Some (j, t) -> s_peer t = p /\ s_invoke t = i.
Proof.
  intros i p l k j t H. destruct (find_tr_spec _ _ _ _ _ _ H) as (_ & _ & Hm & _).
  apply tr_matches_eq in Hm. destruct Hm; auto.
Qed.

Lemma find_tr_none : forall i p l k, find_tr i p l k = None -> forall t, In t l -> tr_matches i p t = false.
Proof.
  induction l as [|x r IH]; intros k H t Hin; cbn [find_tr] in H; [destruct Hin|].
  destruct (tr_matches i p x) eqn:E; [discriminate|].
  destruct Hin as [<-|Hin]; [exact E | eapply IH; eauto].
Qed.

Lemma find_tr_snoc i p t : forall l k, find_tr i p l k = None -> tr_matches i p t = true ->
  find_tr i p (l ++ [t]) k = Some ((k + length l)%nat, t).
Proof.
  induction l as [|y r IH]; intros k Hn Hm; cbn [app find_tr length] in *.
  - rewrite Hm. f_equal. f_equal. lia.
  - destruct (tr_matches i p y); [discriminate|]. rewrite (IH (S k) Hn Hm). f_equal. f_equal. lia.
Qed.
