(* PrimFloat.v — round32 / widen32 (struct.pack/unpack('>f') on bit patterns): every binary32 value
   that is not a NaN survives widening to a double and narrowing back. *)
From Bac Require Import Base BytesFacts Prim.
Open Scope N_scope.

Definition b32_not_nan (p : N) : bool :=
  negb (((p / 2^23) mod 256 =? 255) && negb (p mod 2^23 =? 0)).

(* the body of Prim.round32 as a function of the three fields; round32_fields below is proved by `change`, so the
   two texts have to stay the same *)
Definition round32_f (s e m : N) : res N :=
  if e =? 2047 then
    if m =? 0 then Ok (s * 2^31 + 2139095040)
    else Ok (s * 2^31 + 2139095040 + 4194304 + (m / 2^29) mod 4194304)
  else if e =? 0 then Ok (s * 2^31)
  else
    let M := 2^52 + m in
    let sh := if 897 <=? e then 29 else 926 - e in
    let base := if 897 <=? e then (e - 897) * 2^23 else 0 in
    let q := M / 2^sh in
    let r := M mod 2^sh in
    let half := 2^(sh - 1) in
    let q' := if (half <? r) || ((r =? half) && N.odd q) then q + 1 else q in
    let p := base + q' in
    if 2139095040 <=? p then Err OverflowErr else Ok (s * 2^31 + p).

Lemma round32_lt d p : d < 18446744073709551616 -> round32 d = Ok p -> p < 4294967296.
Proof.
  intros D. unfold round32.
  change (2^63) with 9223372036854775808. change (2^31) with 2147483648.
  assert (Hs : d / 9223372036854775808 < 2) by (apply N.div_lt_upper_bound; [discriminate|exact D]).
  set (s := d / 9223372036854775808) in *. clearbody s.
  set (e := (d / 2^52) mod 2048). clearbody e.
  set (m := d mod 2^52). clearbody m.
  destruct (e =? 2047) eqn:E1.
  - destruct (m =? 0) eqn:E2; intros H; injection H as <-.
    + lia.
    + assert (X : (m / 2^29) mod 4194304 < 4194304) by (apply N.mod_upper_bound; discriminate).
      set (x := (m / 2^29) mod 4194304) in *. clearbody x. lia_div.
  - destruct (e =? 0) eqn:E3; [intros H; injection H as <-; lia|].
    match goal with |- context [2139095040 <=? ?x] => set (X := x); clearbody X end.
    destruct (2139095040 <=? X) eqn:E4; [discriminate|].
    intros H; injection H as <-. lia.
Qed.

(* the bit fields of a binary64 pattern given by its sign, exponent and fraction *)
Lemma round32_fields s E X : s < 2 -> E < 2048 -> X < 4503599627370496 ->
  round32 (s * 9223372036854775808 + E * 4503599627370496 + X) = round32_f s E X.
Proof.
  intros Hs HE HX. change (round32 ?d) with (round32_f (d / 2^63) ((d / 2^52) mod 2048) (d mod 2^52)).
  change (2^63) with 9223372036854775808. change (2^52) with 4503599627370496.
  f_equal; lia_div.
Qed.

(* the finite branch when nothing is rounded away: the significand is exactly q * 2^sh *)
Lemma round32_f_exact s E X q sh base : 0 < E < 2047 ->
  (if 897 <=? E then sh = 29 /\ base = (E - 897) * 8388608 else sh = 926 - E /\ base = 0) ->
  0 < sh -> 4503599627370496 + X = q * 2^sh -> base + q < 2139095040 ->
  round32_f s E X = Ok (s * 2147483648 + (base + q)).
Proof.
  intros HE Hsh S0 HM HP. unfold round32_f.
  destruct (E =? 2047) eqn:C1; [lia|]. destruct (E =? 0) eqn:C2; [lia|].
  assert (sh = (if 897 <=? E then 29 else 926 - E) /\ base = (if 897 <=? E then (E - 897) * 2^23 else 0)) as [<- <-]
    by (destruct (897 <=? E); exact Hsh).
  change (2^52) with 4503599627370496. rewrite HM, N.div_mul, N.mod_mul by (apply N.pow_nonzero; discriminate).
  assert (H0 : 2^(sh - 1) <> 0) by (apply N.pow_nonzero; discriminate).
  destruct (2^(sh - 1) <? 0) eqn:C4; [lia|]. destruct (0 =? 2^(sh - 1)) eqn:C5; [lia|]. cbn [orb andb].
  destruct (2139095040 <=? base + q) eqn:C6; [lia|]. reflexivity.
Qed.

Lemma round32_widen32 p : p < 4294967296 -> b32_not_nan p = true -> round32 (widen32 p) = Ok p.
Proof.
  intros P NN. unfold widen32, b32_not_nan in *.
  change (2^31) with 2147483648 in *. change (2^23) with 8388608 in *.
  change (2^63) with 9223372036854775808. change (2^52) with 4503599627370496.
  assert (Hp : p = (p / 2147483648) * 2147483648 + ((p / 8388608) mod 256) * 8388608 + p mod 8388608) by lia_div.
  assert (Hs : p / 2147483648 < 2) by lia_div.
  assert (He : (p / 8388608) mod 256 < 256) by lia_div.
  assert (Hm : p mod 8388608 < 8388608) by lia_div.
  set (s := p / 2147483648) in *. set (e := (p / 8388608) mod 256) in *. set (m := p mod 8388608) in *.
  clearbody s e m. subst p. clear P.
  destruct (e =? 255) eqn:E255; [|destruct (e =? 0) eqn:E0; [destruct (m =? 0) eqn:M0|]].
  - (* infinities *)
    destruct (m =? 0) eqn:M0; [|discriminate].
    rewrite round32_fields by lia. unfold round32_f. cbn [N.eqb Pos.eqb]. change (2^31) with 2147483648. f_equal. lia.
  - (* zeros *)
    replace (s * 9223372036854775808) with (s * 9223372036854775808 + 0 * 4503599627370496 + 0) by lia.
    rewrite round32_fields by lia. unfold round32_f. cbn [N.eqb]. change (2^31) with 2147483648. f_equal. lia.
  - (* subnormals: m = 1.f * 2^k becomes the normal number with fraction f and exponent k + 874 *)
    assert (M1 : 0 < m) by lia.
    pose proof (N.log2_spec m M1) as [LA LB]. rewrite N.pow_succ_r' in LB.
    assert (K : N.log2 m < 23) by (apply N.log2_lt_pow2; [exact M1|exact Hm]).
    set (k := N.log2 m) in *. clearbody k.
    assert (AB : 2^k * 2^(52 - k) = 4503599627370496).
    { rewrite <- N.pow_add_r. replace (k + (52 - k)) with 52 by lia. reflexivity. }
    assert (HM : 4503599627370496 + (m - 2^k) * 2^(52 - k) = m * 2^(52 - k)).
    { rewrite <- AB, N.mul_sub_distr_r. assert (2^k * 2^(52 - k) <= m * 2^(52 - k)) by (apply N.mul_le_mono_r; lia). lia. }
    assert (XB : (m - 2^k) * 2^(52 - k) < 4503599627370496).
    { rewrite <- AB. apply N.mul_lt_mono_pos_r; [|lia]. apply N.neq_0_lt_0, N.pow_nonzero. discriminate. }
    rewrite round32_fields by lia.
    rewrite (round32_f_exact s (k + 874) _ m (52 - k) 0); [f_equal; lia|lia| |lia|exact HM|lia].
    destruct (897 <=? k + 874) eqn:C; lia.
  - (* normal numbers *)
    change (2^29) with 536870912. rewrite round32_fields by lia.
    rewrite (round32_f_exact s (e + 896) _ (8388608 + m) 29 ((e - 1) * 8388608)); [f_equal; lia|lia| |lia| |lia].
    + destruct (897 <=? e + 896) eqn:C; lia.
    + change (2^29) with 536870912. lia.
Qed.
