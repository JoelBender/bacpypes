(* ApciTypes.v — the attribute set and the octets of each of the eight PDU types written out, so that
   the per-type statements (props/C07.v) can be read against apdu.py and clause 20.1 without unfolding
   to_apci / spec20_1; each is an instance of the general header lemmas (ApciHdr.v) through roundtrips_of
   and hdr_layout. *)
From Bac Require Import Base BytesFacts Apci ApciHdr.
Open Scope N_scope.

Ltac wf_hyps := cbn [wf_hdr]; unfold octet; repeat (apply andb_true_intro; split); apply N.ltb_lt; assumption.

Definition roundtrips (a : apci) (hdr_octets : list N) : Prop :=
  forall payload, enc_apdu a payload = Ok (hdr_octets ++ payload) /\
                  dec_apci (hdr_octets ++ payload) = Ok (a, payload).

Lemma roundtrips_of h : wf_hdr h = true -> roundtrips (to_apci h) (spec20_1 h).
Proof. intros W p. split; [apply apdu_layout | apply hdr_decode]; assumption. Qed.

(* 20.1.2 BACnet-Confirmed-Request-PDU *)
Definition confirmed_request_attrs seg mor sa ms mr inv sq wn svc : apci :=
  mkApci (Some 0%Z) (Some seg) (Some mor) (Some sa) None None
         (if seg then zo sq else None) (if seg then zo wn else None)
         (zo ms) (zo mr) (zo svc) (zo inv) None.
Definition confirmed_request_octets (seg mor sa : bool) ms mr inv sq wn svc : list N :=
  [8 * b2n seg + 4 * b2n mor + 2 * b2n sa; 16 * ms + mr; inv] ++ (if seg then [sq; wn] else []) ++ [svc].

(* 20.1.3 BACnet-Unconfirmed-Request-PDU *)
Definition unconfirmed_request_attrs svc : apci :=
  mkApci (Some 1%Z) None None None None None None None None None (zo svc) None None.

(* 20.1.4 BACnet-SimpleACK-PDU *)
Definition simple_ack_attrs inv svc : apci :=
  mkApci (Some 2%Z) None None None None None None None None None (zo svc) (zo inv) None.

(* 20.1.5 BACnet-ComplexACK-PDU *)
Definition complex_ack_attrs seg mor inv sq wn svc : apci :=
  mkApci (Some 3%Z) (Some seg) (Some mor) None None None
         (if seg then zo sq else None) (if seg then zo wn else None) None None (zo svc) (zo inv) None.
Definition complex_ack_octets (seg mor : bool) inv sq wn svc : list N :=
  [48 + 8 * b2n seg + 4 * b2n mor; inv] ++ (if seg then [sq; wn] else []) ++ [svc].

(* 20.1.6 BACnet-SegmentACK-PDU *)
Definition segment_ack_attrs nak srv inv sq wn : apci :=
  mkApci (Some 4%Z) None None None (Some srv) (Some nak) (zo sq) (zo wn) None None None (zo inv) None.

(* 20.1.7 BACnet-Error-PDU *)
Definition error_attrs inv svc : apci :=
  mkApci (Some 5%Z) None None None None None None None None None (zo svc) (zo inv) None.

(* 20.1.8 BACnet-Reject-PDU *)
Definition reject_attrs inv rsn : apci :=
  mkApci (Some 6%Z) None None None None None None None None None None (zo inv) (zo rsn).

(* 20.1.9 BACnet-Abort-PDU *)
Definition abort_attrs srv inv rsn : apci :=
  mkApci (Some 7%Z) None None None (Some srv) None None None None None None (zo inv) (zo rsn).

