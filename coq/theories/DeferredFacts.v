(* DeferredFacts.v — lemmas about Deferred.v: with the per-call guard every function handed to
   the queue is called exactly once, in submission order, and the loop terminates; without it
   (the pinned tree before the fix) the rest of a detached batch is lost. *)
From Bac Require Import Base Deferred.
From Coq Require Import Permutation.
Open Scope Z_scope.

Lemma d_size_eq : forall i r sp a, d_size (DF i r sp a) = S (f_size sp).
Proof.
  intros. reflexivity.
Qed.

Lemma d_all_eq : forall i r sp a, d_all (DF i r sp a) = DF i r sp a :: f_all sp.
Proof.
  intros. reflexivity.
Qed.

Lemma d_size_pos : forall d, (1 <= d_size d)%nat.
Proof. intros [i r sp a]. rewrite d_size_eq. lia. Qed.

Lemma f_size_app : forall a b, f_size (a ++ b) = (f_size a + f_size b)%nat.
Proof. induction a as [|x a IH]; intros; cbn [f_size app]; [reflexivity|]. rewrite IH. lia. Qed.

Lemma f_all_app : forall a b, f_all (a ++ b) = f_all a ++ f_all b.
Proof. induction a as [|x a IH]; intros; cbn [f_all app]; [reflexivity|]. rewrite IH, app_assoc. reflexivity. Qed.

Lemma f_size_spawns : forall q, (f_size (flat_map d_spawns q) + length q = f_size q)%nat.
Proof.
  induction q as [|[i r sp a] q IH]; [reflexivity|].
  cbn [flat_map d_spawns length]. rewrite f_size_app. cbn [f_size]. rewrite d_size_eq. lia.
Qed.

Lemma call_batch_guarded : forall b, call_batch true b = (b, flat_map d_spawns b, false).
Proof.
  induction b as [|d b IH]; [reflexivity|].
  cbn [call_batch negb]. rewrite andb_false_r, IH. reflexivity.
Qed.

Lemma f_size_zero : forall q, (f_size q <= 0)%nat -> q = [].
Proof. intros [|d q] H; [reflexivity|]. cbn [f_size] in H. pose proof (d_size_pos d). lia. Qed.

Lemma f_all_unfold : forall q, Permutation (f_all q) (q ++ f_all (flat_map d_spawns q)).
Proof.
  induction q as [|[i r sp a] q IH]; [constructor|].
  cbn [f_all flat_map d_spawns]. rewrite d_all_eq, f_all_app.
  cbn [app]. constructor.
  rewrite IH. rewrite !app_assoc. apply Permutation_app_tail. apply Permutation_app_comm.
Qed.

(* L = q ++ (what the calls of L submit, in call order) says call order = submission order; the permutation says
   exactly once *)
Lemma drain_guarded : forall fuel q, (f_size q <= fuel)%nat ->
  exists L, drain true fuel q = (L, [], DDone) /\ L = q ++ flat_map d_spawns L /\ Permutation L (f_all q).
Proof.
  induction fuel as [|f IH]; intros q Hq; (destruct q as [|d q]; [exists []; repeat split; constructor|]).
  - discriminate (f_size_zero _ Hq).
  - cbn [drain]. rewrite call_batch_guarded.
    destruct (IH (flat_map d_spawns (d :: q))) as [L' [HL' [Hfix Hperm]]].
    { pose proof (f_size_spawns (d :: q)). cbn [length] in H. lia. }
    rewrite HL'. exists ((d :: q) ++ L'). split; [reflexivity|]. split.
    + rewrite flat_map_app, <- Hfix. reflexivity.
    + rewrite (f_all_unfold (d :: q)). apply Permutation_app_head, Hperm.
Qed.

Lemma drain_all_guarded : forall q,
  exists L, drain_all true q = (L, [], DDone) /\ L = q ++ flat_map d_spawns L /\ Permutation L (f_all q).
Proof. intros q. exact (drain_guarded (f_size q) q (le_n _)). Qed.

Lemma call_batch_noraise : forall g b, forallb (fun d => negb (d_raises d)) b = true ->
  call_batch g b = (b, flat_map d_spawns b, false).
Proof.
  induction b as [|d b IH]; intros H; [reflexivity|].
  cbn [forallb] in H. apply andb_prop in H. destruct H as [H1 H2].
  cbn [call_batch]. destruct (d_raises d); [discriminate|].
  cbn [andb]. rewrite (IH H2). reflexivity.
Qed.

Lemma forallb_perm : forall (f : dfn -> bool) a b, Permutation a b -> forallb f a = true -> forallb f b = true.
Proof.
  intros f a b P H. rewrite forallb_forall in *. intros x Hx. apply H.
  eapply Permutation_in; [apply Permutation_sym; exact P | exact Hx].
Qed.

Lemma drain_noraise : forall g fuel q,
  forallb (fun d => negb (d_raises d)) (f_all q) = true -> drain g fuel q = drain true fuel q.
Proof.
  induction fuel as [|f IH]; intros q H; [reflexivity|].
  destruct q as [|d q]; [reflexivity|].
  pose proof (forallb_perm _ _ _ (f_all_unfold (d :: q)) H) as H'.
  rewrite forallb_app in H'. apply andb_prop in H'. destruct H' as [Ha Hb].
  cbn [drain]. rewrite (call_batch_noraise g _ Ha), call_batch_guarded.
  rewrite (IH _ Hb). reflexivity.
Qed.

(* the defect of the pinned tree: [raising; plain] — plain is neither called nor still queued *)
Lemma drain_unguarded_loses :
  exists q d, In d q /\ (let '(c, r, s) := drain_all false q in ~ In d c /\ ~ In d r /\ s = DRaised).
Proof.
  exists [DF 0 true [] []; DF 1 false [] []], (DF 1 false [] []).
  split; [right; left; reflexivity|].
  vm_compute. repeat split; intros H; repeat (destruct H as [H|H]; try discriminate H); exact H.
Qed.

Lemma no_acts_eq : forall i r sp a,
  no_acts (DF i r sp a) = (match a with [] => true | _ :: _ => false end) && forallb no_acts sp.
Proof. intros. reflexivity. Qed.

Lemma no_acts_spawns : forall d, no_acts d = true -> d_acts d = [] /\ forallb no_acts (d_spawns d) = true.
Proof.
  intros [i r sp a] H. rewrite no_acts_eq in H. apply andb_prop in H. destruct H as [Ha Hs].
  cbn [d_acts d_spawns]. destruct a; [split; [reflexivity | exact Hs] | discriminate].
Qed.
