(* NpciBodyFacts.v — message bodies cut short or followed by more octets; histories. *)
From Bac Require Import Base BytesFacts Npci NpciFacts NpciMsgFacts.
Open Scope N_scope.

(* messages whose decoder reads a fixed sequence of fields (the count octet of a routing table
   included): everything except the three network lists and Who-Is-Router (optional network) *)
Definition fixed_msg (m : msg) : bool :=
  match m with
  | WhoIsRouter _ | IAmRouter _ | RouterBusy _ | RouterAvailable _ => false
  | _ => true
  end.

Lemma fixed_msg_type m : fixed_msg m = true -> In (msg_type m) fixed_types.
Proof. destruct m; cbn; intros H; try discriminate; tauto. Qed.

Lemma msg_trailing_fixed m : wf_msg m = true -> fixed_msg m = true ->
  exists bs, enc_msg m = Ok bs /\ forall x, dec_msg (msg_type m) (bs ++ x) = Ok (m, x).
Proof.
  intros Hw Hf. destruct (msg_roundtrip m Hw) as (bs & Eb & Db). exists bs. split; [exact Eb|].
  intros x. exact (proj1 (dec_msg_reader _ (fixed_msg_type m Hf)) _ _ _ x Db).
Qed.

Lemma msg_truncated_fixed m bs k : wf_msg m = true -> fixed_msg m = true -> enc_msg m = Ok bs ->
  (k < length bs)%nat -> dec_msg (msg_type m) (firstn k bs) = Err DecodingError.
Proof.
  intros Hw Hf Eb Hk. destruct (msg_roundtrip m Hw) as (bs' & Eb' & Db).
  rewrite Eb in Eb'. injection Eb' as <-.
  exact (truncated_refused _ _ _ _ (dec_msg_reader _ (fixed_msg_type m Hf)) Db Hk).
Qed.

Lemma put_nets_length l : length (put_nets l) = (2 * length l)%nat.
Proof.
  induction l as [|n l IH]; [reflexivity|].
  rewrite put_nets_cons, app_length, IH. unfold put_short, be2. cbn [length]. lia.
Qed.

Lemma dec_nets_prefix l : wf_nets l = true -> forall k, (k <= 2 * length l)%nat ->
  dec_nets (firstn k (put_nets l))
  = if Nat.even k then Ok (firstn (Nat.div2 k) l) else Err DecodingError.
Proof.
  induction l as [|n l IH]; intros H k Hk.
  - cbn [length] in Hk. assert (k = 0%nat) as -> by lia. reflexivity.
  - cbn [wf_nets forallb] in H. apply andb_true_iff in H as [Hn Hl].
    rewrite put_nets_cons, put_short_small by lia. cbn [app].
    destruct k as [|[|k]].
    + reflexivity.
    + reflexivity.
    + cbn [firstn dec_nets]. cbn [length] in Hk. rewrite (IH Hl k) by lia.
      change (Nat.even (S (S k))) with (Nat.even k).
      change (Nat.div2 (S (S k))) with (S (Nat.div2 k)).
      destruct (Nat.even k); cbn [bind]; [|reflexivity].
      cbn [firstn]. rewrite div_mod_256. reflexivity.
Qed.

Definition nets_ctor (t : N) : option (list N -> msg) :=
  if t =? 1 then Some IAmRouter else if t =? 4 then Some RouterBusy
  else if t =? 5 then Some RouterAvailable else None.

Lemma nets_ctor_inv t c : nets_ctor t = Some c ->
  t = 1 /\ c = IAmRouter \/ t = 4 /\ c = RouterBusy \/ t = 5 /\ c = RouterAvailable.
Proof.
  unfold nets_ctor.
  destruct (N.eqb_spec t 1); [intros [= <-]; auto|]. destruct (N.eqb_spec t 4); [intros [= <-]; auto|].
  destruct (N.eqb_spec t 5); [intros [= <-]; auto|]. discriminate.
Qed.

Lemma dec_msg_nets t c bs : nets_ctor t = Some c ->
  dec_msg t bs = do l <- dec_nets bs; Ok (c l, []).
Proof. intros H. destruct (nets_ctor_inv t c H) as [[-> ->]|[[-> ->]|[-> ->]]]; reflexivity. Qed.

(* Who-Is-Router-To-Network: the network is optional *)
Lemma who_is_shapes :
  dec_msg 0 [] = Ok (WhoIsRouter None, [])
  /\ (forall a, dec_msg 0 [a] = Err DecodingError)
  /\ (forall a b x, dec_msg 0 (a :: b :: x) = Ok (WhoIsRouter (Some (a * 256 + b)), x)).
Proof. repeat split. Qed.

Lemma who_is_truncated_trailing n : n < 65536 ->
  enc_msg (WhoIsRouter (Some n)) = Ok (put_short n)
  /\ dec_msg 0 (firstn 0 (put_short n)) = Ok (WhoIsRouter None, [])
  /\ dec_msg 0 (firstn 1 (put_short n)) = Err DecodingError
  /\ forall x, dec_msg 0 (put_short n ++ x) = Ok (WhoIsRouter (Some n), x).
Proof.
  intros H. split; [reflexivity|]. rewrite put_short_small by lia.
  split; [reflexivity|]. split; [reflexivity|]. intros x.
  change (dec_msg 0 ((n / 256 :: n mod 256 :: []) ++ x)) with
    (do (n', r) <- get_short (n / 256 :: n mod 256 :: x); Ok (WhoIsRouter (Some n'), r)).
  rewrite get_short_net. reflexivity.
Qed.

Lemma history_app h1 h2 : run_history (h1 ++ h2) = run_history h1 ++ run_history h2.
Proof. apply map_app. Qed.
