(* BvllStable.v — decoding followed by re-encoding (model Bvll.v). *)
From Bac Require Import Base BytesFacts Bvll BvllFacts BvllRound BvllTotal.
Open Scope N_scope.

(* the length field of an accepted datagram is its octet count, so the canonical frame, being no longer, fits it *)
Lemma reencode_stable bs m : bytes_ok bs = true -> dec_frame bs = Ok m ->
  exists bs', enc_frame m = Ok bs' /\ dec_frame bs' = Ok m /\ lenN bs' <= lenN bs.
Proof.
  intros B H. destruct (dec_frame_ok _ _ H) as (hi & lo & body & E & L & Hl & W).
  destruct (frame_roundtrip m (W B)) as (bs' & He & Hd & Hlen).
  { subst bs. rewrite !bytes_ok_cons_andb in B. lia. }
  exists bs'. repeat split; try assumption. lia.
Qed.
