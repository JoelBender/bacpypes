(* ReadPropertyMultiple answers are ReadProperty answers *)
From Bac Require Import Base PyRt Obj ObjFacts.
Open Scope Z_scope.

(* what do_ReadPropertyRequest answers for one reference, in the embedded form: the value of the ack, or the
   class/code of the ExecutionError it raises (sent as an Error PDU); None when it ends in another exception
   (Reject / Abort / Error device:operational-problem) *)
Definition rp_answer (d : device) (oid pid : Z) (idx : option Z) : option rresult :=
  match do_read d oid pid idx with
  | XOk (_, its) => Some (RVal its)
  | XErr (ExecErr c k) => Some (RErr c k)
  | XErr _ => None
  end.

Definition obj_of (d : device) (oid : Z) : option object := find_obj (d_objs d) (map_oid d oid).

Lemma rp_element_iff : forall d oid pid idx e,
  rp_element (obj_of d oid) pid idx = XOk e <-> exists r, rp_answer d oid pid idx = Some r /\ e = (pid, idx, r).
Proof.
  intros d oid pid idx e. unfold rp_answer, do_read, obj_of, rp_element.
  destruct (find_obj (d_objs d) (map_oid d oid)) as [o |].
  - destruct (read_any o pid idx) as [its | [c k | | x]]; cbn [xbind catch_prop];
      (split; [intros H; inversion H; eauto | intros (r & Hr & ->); inversion Hr; reflexivity]).
  - split; [intros H; inversion H; eauto | intros (r & Hr & ->); inversion Hr; reflexivity].
Qed.

(* specification of the expansion, written with rp_answer only *)
Definition answer_elems (d : device) (oid pid : Z) (idx : option Z) (keep_unknown : bool) : list relem :=
  match rp_answer d oid pid idx with
  | Some r => if negb keep_unknown && is_unknown_property (pid, idx, r) then [] else [(pid, idx, r)]
  | None => []
  end.

Definition ref_spec (d : device) (oid : Z) (ref : Z * option Z) : list relem :=
  let (pid, idx) := ref in
  if is_special pid then
    match obj_of d oid with
    | None => [(pid, idx, RErr EC_OBJECT E_UNKNOWN_OBJECT)]
    | Some ob => flat_map (fun pv : pdesc * val =>
                   if selected pid (fst pv) then answer_elems d oid (p_id (fst pv)) idx false else []) ob
    end
  else answer_elems d oid pid idx true.

Definition rpm_spec (d : device) (specs : list (Z * list (Z * option Z))) : list (Z * list relem) :=
  map (fun s : Z * list (Z * option Z) => (map_oid d (fst s), flat_map (ref_spec d (fst s)) (snd s))) specs.

(* the request is acknowledged exactly when every expanded reference has an embeddable answer *)
Definition ref_answerable (d : device) (oid : Z) (ref : Z * option Z) : Prop :=
  let (pid, idx) := ref in
  if is_special pid then
    match obj_of d oid with
    | None => True
    | Some ob => forall pv, In pv ob -> selected pid (fst pv) = true -> rp_answer d oid (p_id (fst pv)) idx <> None
    end
  else rp_answer d oid pid idx <> None.

(* each level of the traversal succeeds exactly when all it visits is answerable, and then with the specified list *)
Lemma rpm_expand_iff : forall d oid ob, obj_of d oid = Some ob -> forall sel idx ps out,
  rpm_expand ob sel idx ps = XOk out <->
  Forall (fun pv => selected sel (fst pv) = true -> rp_answer d oid (p_id (fst pv)) idx <> None) ps /\
  out = flat_map (fun pv : pdesc * val =>
          if selected sel (fst pv) then answer_elems d oid (p_id (fst pv)) idx false else []) ps.
Proof.
  intros d oid ob Hob sel idx ps. induction ps as [| [p v] r IH]; intros out; cbn [rpm_expand flat_map fst].
  - split; [intros H; inversion H; split; [constructor | reflexivity] | intros [_ ->]; reflexivity].
  - rewrite Forall_cons_iff. cbn [fst]. destruct (selected sel p).
    + unfold answer_elems at 1. rewrite <- Hob. (* Some ob back to obj_of d oid, the form rp_element_iff speaks of *)
      split.
      * intros H. apply xbind_ok_inv in H as (e & Ee & H). apply xbind_ok_inv in H as (rest & Er & H).
        inversion H. apply rp_element_iff in Ee. destruct Ee as (res & Hres & ->). apply IH in Er. destruct Er as [Hall ->].
        rewrite Hres. cbn [negb andb]. split; [split; [discriminate | exact Hall] |].
        destruct (is_unknown_property (p_id p, idx, res)); reflexivity.
      * intros [[Hp Hall] ->]. destruct (rp_answer d oid (p_id p) idx) as [res |] eqn:Hres; [| destruct (Hp eq_refl eq_refl)].
        rewrite (proj2 (rp_element_iff d oid (p_id p) idx _) (ex_intro _ res (conj Hres eq_refl))).
        rewrite (proj2 (IH _) (conj Hall eq_refl)). cbn [xbind negb andb].
        destruct (is_unknown_property (p_id p, idx, res)); reflexivity.
    + rewrite IH. split; intros [Hall ->]; (split; [| reflexivity]).
      * split; [discriminate | exact Hall].
      * exact (proj2 Hall).
Qed.

Lemma rpm_ref_iff : forall d oid ref out,
  rpm_ref (obj_of d oid) ref = XOk out <-> ref_answerable d oid ref /\ out = ref_spec d oid ref.
Proof.
  intros d oid [pid idx] out. unfold rpm_ref, ref_spec, ref_answerable. destruct (is_special pid).
  - destruct (obj_of d oid) as [ob |] eqn:Eo.
    + (* the two sides of rpm_expand_iff are, word for word, the Some branches of ref_answerable and ref_spec *)
      rewrite (rpm_expand_iff d oid ob Eo), Forall_forall. reflexivity.
    + split; [intros H; inversion H; split; [exact I | reflexivity] | intros [_ ->]; reflexivity].
  - unfold answer_elems. split.
    + intros H. apply xbind_ok_inv in H as (e & Ee & H). apply rp_element_iff in Ee. destruct Ee as (res & Hres & ->). inversion H. rewrite Hres.
      split; [discriminate | reflexivity].
    + intros [Ha ->]. destruct (rp_answer d oid pid idx) as [res |] eqn:Hres; [| congruence].
      rewrite (proj2 (rp_element_iff d oid pid idx _) (ex_intro _ res (conj Hres eq_refl))). reflexivity.
Qed.

Lemma rpm_refs_iff : forall d oid refs out,
  rpm_refs (obj_of d oid) refs = XOk out <->
  Forall (ref_answerable d oid) refs /\ out = flat_map (ref_spec d oid) refs.
Proof.
  intros d oid refs. induction refs as [| r rs IH]; intros out; cbn [rpm_refs flat_map].
  - split; [intros H; inversion H; split; [constructor | reflexivity] | intros [_ ->]; reflexivity].
  - rewrite Forall_cons_iff. split.
    + intros H. apply xbind_ok_inv in H as (a & Ea & H). apply xbind_ok_inv in H as (b & Eb & H).
      apply rpm_ref_iff in Ea. apply IH in Eb. destruct Ea as [Ha ->]. destruct Eb as [Hb ->].
      inversion H. repeat split; assumption.
    + intros [[Ha Hb] ->]. rewrite (proj2 (rpm_ref_iff d oid r _) (conj Ha eq_refl)), (proj2 (IH _) (conj Hb eq_refl)).
      reflexivity.
Qed.

Lemma do_rpm_iff : forall d specs out,
  do_rpm d specs = XOk out <->
  Forall (fun s => Forall (ref_answerable d (fst s)) (snd s)) specs /\ out = rpm_spec d specs.
Proof.
  intros d specs. induction specs as [| [oid refs] r IH]; intros out; cbn [do_rpm rpm_spec map fst snd].
  - split; [intros H; inversion H; split; [constructor | reflexivity] | intros [_ ->]; reflexivity].
  - rewrite Forall_cons_iff. cbn [fst snd]. fold (obj_of d oid). split.
    + intros H. apply xbind_ok_inv in H as (a & Ea & H). apply xbind_ok_inv in H as (b & Eb & H).
      apply rpm_refs_iff in Ea. apply IH in Eb. destruct Ea as [Ha ->]. destruct Eb as [Hb ->].
      inversion H. repeat split; assumption.
    + intros [[Ha Hb] ->]. rewrite (proj2 (rpm_refs_iff d oid refs _) (conj Ha eq_refl)), (proj2 (IH _) (conj Hb eq_refl)).
      reflexivity.
Qed.
