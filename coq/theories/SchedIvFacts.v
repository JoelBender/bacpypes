(* SchedIvFacts.v — the interval / offset in force of a recurring task after any history *)
From Bac Require Import Base Deferred Sched SchedFacts SchedThms SchedIv.
Open Scope Z_scope.

(* the attributes are a function of the install_task(interval=, offset=) calls alone *)
Lemma step2_attrs : forall guard jit c m s o m' s' ev,
  step2 guard jit c (m, s) o = ((m', s'), ev) -> m' = attr_step c m o.
Proof.
  intros guard jit c m s o m' s' ev H. destruct o as [o|i oiv ooff]; cbn [step2 attr_step] in *.
  - destruct (step guard jit (eff c m) s o) as [s1 ev1]. inversion H; subst. reflexivity.
  - destruct (is_rec c i).
    + destruct (step guard jit (eff c (set_attrs m i oiv ooff)) s (Reinstall i)) as [s1 ev1]. inversion H; subst. reflexivity.
    + inversion H; subst. reflexivity.
Qed.

Lemma run_ops2_attrs : forall guard jit c ops m s m' s' ev,
  run_ops2 guard jit c (m, s) ops = ((m', s'), ev) -> m' = attrs_after c m ops.
Proof.
  intros guard jit c. induction ops as [|o ops IH]; intros m s m' s' ev H; cbn [run_ops2 attrs_after fold_left] in *.
  - inversion H; subst. reflexivity.
  - destruct (step2 guard jit c (m, s) o) as [[m1 s1] ev1] eqn:S.
    destruct (run_ops2 guard jit c (m1, s1) ops) as [[m2 s2] ev2] eqn:R. inversion H; subst.
    apply step2_attrs in S. subst m1. exact (IH _ _ _ _ _ R).
Qed.

Lemma attrs_after_app : forall c a b m, attrs_after c m (a ++ b) = attrs_after c (attrs_after c m a) b.
Proof. intros. unfold attrs_after. apply fold_left_app. Qed.

Lemma attrs_after_other : forall c i ops m,
  (forall j a b, In (InstallIv j a b) ops -> j <> i) -> attrs_after c m ops i = m i.
Proof.
  intros c i. induction ops as [|o ops IH]; intros m H; [reflexivity|].
  unfold attrs_after in *. cbn [fold_left]. rewrite IH.
  - destruct o as [o|j a b]; cbn [attr_step]; [reflexivity|].
    destruct (is_rec c j); [|reflexivity]. unfold set_attrs. apply upd_other.
    intros E. apply (H j a b); [left; reflexivity | symmetry; exact E].
  - intros j a b Hin. apply (H j a b). right. exact Hin.
Qed.

(* the interval in force is the LAST one handed over (refused or not), the offset likewise *)
Lemma attrs_after_last : forall c i pre oiv ooff post m, is_rec c i = true ->
  (forall j a b, In (InstallIv j a b) post -> j <> i) ->
  attrs_after c m (pre ++ InstallIv i oiv ooff :: post) i =
    (merge oiv (fst (attrs_after c m pre i)), merge ooff (snd (attrs_after c m pre i))).
Proof.
  intros c i pre oiv ooff post m Hr Hp. rewrite attrs_after_app.
  change (InstallIv i oiv ooff :: post) with ([InstallIv i oiv ooff] ++ post). rewrite attrs_after_app.
  rewrite attrs_after_other by exact Hp. unfold attrs_after at 1. cbn [fold_left attr_step]. rewrite Hr.
  unfold set_attrs. apply upd_same.
Qed.

Lemma cfg_get_eff_from : forall c n i m, (i < length c)%nat ->
  cfg_get (eff_from n c m) i = eff_one m (n + i) (cfg_get c i).
Proof.
  induction c as [|k r IH]; intros n i m Hi; [cbn in Hi; lia|].
  destruct i as [|i]; cbn [eff_from cfg_get nth].
  - rewrite Nat.add_0_r. reflexivity.
  - unfold cfg_get in IH. rewrite IH by (cbn in Hi; lia). f_equal. lia.
Qed.

Lemma eff_kind : forall c m i, (i < length c)%nat ->
  t_kind (cfg_get (eff c m) i) =
    match t_kind (cfg_get c i) with OneShot => OneShot | Recurring _ _ => Recurring (iv_force m i) (off_force m i) end.
Proof.
  intros c m i Hi. unfold eff. rewrite cfg_get_eff_from by exact Hi. cbn [Nat.add]. unfold eff_one.
  destruct (t_kind (cfg_get c i)) eqn:K; [exact K | reflexivity].
Qed.

Lemma is_rec_lt : forall c i, is_rec c i = true -> (i < length c)%nat.
Proof.
  intros c i H. destruct (Nat.lt_ge_cases i (length c)) as [L|G]; [exact L|].
  unfold is_rec, cfg_get in H. rewrite nth_overflow in H by exact G. discriminate H.
Qed.

Lemma do_reinstall_eff : forall jit c m s i, is_rec c i = true ->
  do_reinstall jit (eff c m) s i =
  if iv_force m i <=? 0 then Err RuntimeErr
  else tm_install (set_ttime s (upd (ttime s) i (Some (next_slot jit (iv_force m i) (off_force m i) (now s))))) i.
Proof.
  intros jit c m s i Hr. unfold do_reinstall. rewrite eff_kind by (apply is_rec_lt, Hr).
  unfold is_rec in Hr. destruct (t_kind (cfg_get c i)); [discriminate | reflexivity].
Qed.

(* install_task(interval=, offset=): the attributes are merged first, even if the call is then refused (interval in
   force unset or <= 0); else the task's entry is the least slot of the interval / offset IN FORCE after now + jitter *)
Lemma installiv_uses_in_force : forall guard jit c m s i oiv ooff m' s' ev, 0 <= jit -> is_rec c i = true ->
  step2 guard jit c (m, s) (InstallIv i oiv ooff) = ((m', s'), ev) ->
  m' = set_attrs m i oiv ooff /\
  (if iv_force m' i <=? 0 then s' = s /\ ev = [EvErr RuntimeErr]
   else let t := next_slot jit (iv_force m' i) (off_force m' i) (now s) in
        ttime s' i = Some t /\ In (t, ctr s, i) (heap s') /\ ev = [EvInst i false] /\
        now s < t /\ (t - off_force m' i) mod (iv_force m' i) = 0).
Proof.
  intros guard jit c m s i oiv ooff m' s' ev Hj Hr H.
  cbn [step2] in H. rewrite Hr in H. set (m1 := set_attrs m i oiv ooff) in *.
  cbn [step do_act] in H. rewrite do_reinstall_eff in H by exact Hr.
  destruct (iv_force m1 i <=? 0) eqn:E.
  - cbn [bind lift] in H. inversion H; subst. split; [reflexivity|]. rewrite E. split; reflexivity.
  - destruct (tm_install_set_time s i (next_slot jit (iv_force m1 i) (off_force m1 i) (now s))) as [s2 [T [Htt Hin]]].
    rewrite T in H. cbn [bind lift] in H. inversion H; subst. split; [reflexivity|]. rewrite E.
    split; [exact Htt|]. split; [exact Hin|]. split; [reflexivity|].
    assert (Hiv : 0 < iv_force m1 i) by lia.
    destruct (next_slot_spec jit (iv_force m1 i) (off_force m1 i) (now s) Hiv) as [Hs Hb].
    split.
    + rewrite Hs. cbv zeta in Hb. lia.
    + rewrite Hs. replace (off_force m1 i + iv_force m1 i * ((now s + jit - off_force m1 i) / iv_force m1 i + 1) - off_force m1 i)
        with (((now s + jit - off_force m1 i) / iv_force m1 i + 1) * iv_force m1 i) by ring.
      apply Z.mod_mul. lia.
Qed.

(* install_task() as history operation, as callback action and the automatic re-install of process_task all run under
   `eff c m`, hence with the attributes in force *)
Lemma reinstall_uses_in_force : forall jit c m s i s', is_rec c i = true ->
  do_reinstall jit (eff c m) s i = Ok s' ->
  0 < iv_force m i /\ ttime s' i = Some (next_slot jit (iv_force m i) (off_force m i) (now s)).
Proof.
  intros jit c m s i s' Hr H. rewrite do_reinstall_eff in H by exact Hr.
  destruct (iv_force m i <=? 0) eqn:E; [discriminate|]. split; [lia|].
  destruct (tm_install_set_time s i (next_slot jit (iv_force m i) (off_force m i) (now s))) as [s2 [T [Htt _]]].
  rewrite T in H. inversion H; subst. exact Htt.
Qed.
