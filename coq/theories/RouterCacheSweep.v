(* RouterCacheSweep.v — a boolean coherence test that implies [Coherent]. *)
From Bac Require Import Base RouterCache RouterCacheFacts.
Open Scope Z_scope.

Definition coh_b (s : cache) : bool :=
  forallb (fun e => match rget s (fst (fst e)) (snd e) with
                    | Some ri => has_dnet ri (snd (fst e))
                    | None => false
                    end) (paths s)
  && forallb (fun e => zmem (fst (fst e)) (nets s)
                       && forallb (fun dv => match pget s (fst (fst e)) (fst dv) with
                                             | Some x => x =? snd (fst e)
                                             | None => false
                                             end) (dnets (snd e))) (routers s).

Lemma coh_b_sound : forall s, coh_b s = true -> Coherent s.
Proof.
  intros s H. unfold coh_b in H. apply andb_true_iff in H. destruct H as [Hp Hr].
  rewrite forallb_forall in Hp, Hr. split.
  - intros sn d a. split.
    + intros Hg. specialize (Hp _ (pget_in s sn d a Hg)). cbn [fst snd] in Hp.
      destruct (rget s sn a) as [ri|] eqn:E; [|discriminate]. exists ri. auto.
    + intros [ri [Hg Hd]]. specialize (Hr _ (rget_in s sn a ri Hg)). cbn [fst snd] in Hr.
      apply andb_true_iff in Hr. destruct Hr as [_ Hr]. rewrite forallb_forall in Hr.
      apply has_dnet_in in Hd. destruct Hd as [v Hv]. specialize (Hr _ Hv). cbn [fst] in Hr.
      apply (leads_iff s sn d a). exact Hr.
  - intros sn a ri Hg. specialize (Hr _ (rget_in s sn a ri Hg)). cbn [fst snd] in Hr. apply andb_true_iff in Hr. tauto.
Qed.
