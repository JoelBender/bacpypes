(* BipDelivTie.v — the swept family of IpNetFacts.v, evaluated: for every member and every
   originating node the network model (IpNet.v, tied to the implementation by the net-*
   correspondence) is run once, and its log is checked twice: it hands the broadcast to every
   other node exactly once (bcast_ok), and it holds the deliveries of the delivery-tree semantics
   (BipDeliv.v) on the member's abstract configuration (same_deliveries), which is well-formed in
   the sense of BipDelivFacts.wf. *)
From Bac Require Import Base Bip BipFacts IpNet IpNetFacts BipDeliv BipDelivFacts.
Open Scope N_scope.

(* the abstract configuration of a family member; node order = IpNetFacts.cfg_world0's *)
Definition abs_sub (c : cfg) (k : nat) (n : nat) : sub :=
  mkSub (bbmd_addr k) (if nth k (c_onehop c) false then m24 else m32)
        (lan_bcast (mkLan (sub_ip k) m24 port))
        (map (fun j => (sub_ip k + 10 + N.of_nat j, port)) (seq 0 n)).
Fixpoint abs_subs (c : cfg) (k : nat) (ss : list nat) : list sub :=
  match ss with [] => [] | n :: r => abs_sub c k n :: abs_subs c (S k) r end.
Definition abs_cfg (c : cfg) : acfg :=
  mkAcfg (abs_subs c 0 (c_simple c))
         (map (fun j => ((fsub + 40 + N.of_nat j, port), bbmd_addr (Nat.modulo j (length (c_simple c))))) (seq 0 (c_foreign c)))
         keep_all.

Definition canon_up (w : world) (x : nat * addr * dest * npdu) : list Z :=
  match x with (i, s, d, p) =>
    canon_addr (match nth_error (w_nodes w) i with Some n => n_addr n | None => (0, 0) end)
    ++ canon_addr s ++ canon_dest d ++ [zN p]
  end.

Definition same_deliveries (c : cfg) : bool :=
  match cfg_world c with
  | Err _ => false
  | Ok w =>
      forallb (fun o =>
        match step w 900%Z (EBcast o 777), nth_error (all_rcvs (abs_cfg c)) o with
        | Ok (_, log), Some r =>
            list_eqb (list_eqb Z.eqb)
                     (IpNet.sort_lex (map (canon_up w) (ups log)))
                     (IpNet.sort_lex (map canon_delivery (broadcast 0 (abs_cfg c) r 777)))
        | _, _ => false
        end) (seq 0 (length (w_nodes w)))
  end.

(* the two checks on the upward deliveries u of one run, so that the run is evaluated once for both:
   ups_ok is bcast_ok's test (bcast_ok_ups_ok), ups_same is same_deliveries' with the tree's
   deliveries taken in closed form (BipDelivFacts.broadcast_closed: much less to evaluate than the
   tree itself) *)
Definition ups_ok (w : world) (o : nat) (no : node) (u : list (nat * addr * dest * npdu)) : bool :=
  forallb (fun x => match x with (_, s, d, p) => addr_eqb s (n_addr no) && dest_is_bcast d && (p =? 777) end) u
  && forallb (fun i => Nat.eqb (length (filter (fun x => match x with (j, _, _, _) => Nat.eqb i j end) u))
                               (if Nat.eqb i o then 0 else 1))
             (seq 0 (length (w_nodes w))).
Definition ups_same (a : acfg) (w : world) (r : rcv) (u : list (nat * addr * dest * npdu)) : bool :=
  list_eqb (list_eqb Z.eqb) (IpNet.sort_lex (map (canon_up w) u))
           (IpNet.sort_lex (map canon_delivery (map (bcast_delivery (rcv_addr r) 777) (reach a r)))).

Definition origin_ok (a : acfg) (w : world) (o : nat) : bool :=
  match step w 900%Z (EBcast o 777), nth_error (w_nodes w) o, nth_error (all_rcvs a) o with
  | Ok (_, log), Some no, Some r => ups_ok w o no (ups log) && ups_same a w r (ups log)
  | _, _, _ => false
  end.
Definition member_ok (c : cfg) : bool :=
  let a := abs_cfg c in
  wf_b a && match cfg_world c with
            | Ok w => forallb (origin_ok a w) (seq 0 (length (w_nodes w)))
            | Err _ => false
            end.

Lemma origin_ok_inv : forall a w o, origin_ok a w o = true ->
  exists w' log no r, step w 900%Z (EBcast o 777) = Ok (w', log) /\ nth_error (w_nodes w) o = Some no /\
    nth_error (all_rcvs a) o = Some r /\ ups_ok w o no (ups log) = true /\ ups_same a w r (ups log) = true.
Proof.
  intros a w o H. unfold origin_ok in H.
  destruct (step w 900%Z (EBcast o 777)) as [[w' log]|]; [|discriminate].
  destruct (nth_error (w_nodes w) o) as [no|]; [|discriminate].
  destruct (nth_error (all_rcvs a) o) as [r|]; [|discriminate].
  apply andb_true_iff in H. exists w', log, no, r. tauto.
Qed.

Lemma bcast_ok_ups_ok : forall w o no w' log,
  nth_error (w_nodes w) o = Some no -> step w 900%Z (EBcast o 777) = Ok (w', log) ->
  bcast_ok w o = ups_ok w o no (ups log).
Proof. intros w o no w' log N S. unfold bcast_ok. rewrite N, S. reflexivity. Qed.

Lemma origin_ok_bcast : forall a w o, origin_ok a w o = true -> bcast_ok w o = true.
Proof.
  intros a w o H. destruct (origin_ok_inv a w o H) as [w' [log [no [r [S [N [_ [U _]]]]]]]].
  rewrite (bcast_ok_ups_ok w o no w' log N S). exact U.
Qed.

Lemma origins_ok_same : forall c w, wf (abs_cfg c) -> cfg_world c = Ok w ->
  forallb (origin_ok (abs_cfg c) w) (seq 0 (length (w_nodes w))) = true -> same_deliveries c = true.
Proof.
  intros c w Wf E H. unfold same_deliveries. rewrite E. apply forallb_forall. intros o Io.
  destruct (origin_ok_inv _ w o (proj1 (forallb_forall _ _) H o Io)) as [w' [log [no [r [S [_ [R [_ U]]]]]]]].
  rewrite S, R, (broadcast_closed _ r 0 777 Wf (nth_error_In _ _ R)). exact U.
Qed.

(* the only evaluation over the family *)
Lemma family_sweep : forallb member_ok family = true.
Proof. vm_compute. reflexivity. Qed.

Lemma member_ok_inv : forall c, In c family ->
  wf_b (abs_cfg c) = true /\
  exists w, cfg_world c = Ok w /\ forallb (origin_ok (abs_cfg c) w) (seq 0 (length (w_nodes w))) = true.
Proof.
  intros c I. pose proof (proj1 (forallb_forall _ _) family_sweep c I) as H.
  apply andb_true_iff in H. destruct H as [H1 H2]. split; [exact H1|].
  destruct (cfg_world c) as [w|e]; [|discriminate]. exists w. split; [reflexivity | exact H2].
Qed.

Theorem family_wf : forall c, In c family -> wf (abs_cfg c).
Proof. intros c I. apply wf_b_sound. apply (member_ok_inv c I). Qed.

Theorem deliv_matches_cascade : forall c, In c family -> same_deliveries c = true.
Proof. intros c I. destruct (member_ok_inv c I) as [_ [w [E H]]]. exact (origins_ok_same c w (family_wf c I) E H). Qed.

Theorem broadcast_once_family : forall c w o,
  In c family -> cfg_world c = Ok w -> (o < length (w_nodes w))%nat -> bcast_ok w o = true.
Proof.
  intros c w o I E L. destruct (member_ok_inv c I) as [_ [w0 [E0 H]]].
  assert (w0 = w) as -> by congruence.
  apply (origin_ok_bcast (abs_cfg c)). apply (proj1 (forallb_forall _ _) H).
  apply in_seq. split; [apply Nat.le_0_l | exact L].
Qed.
