(* SsmC11s.v — C11 for the serving side: a request, a client's segment-ack or a client's abort changes only the server
   transaction with the sender's address and the PDU's invoke id (which may be created, replaced or removed — also by the
   application's answer given inside the same step); every other server transaction, the client table and every other node
   stay exactly as they were. *)
From Bac Require Import Base PyRt Ssm SsmFacts SsmC04s SsmFrame SsmWorld SsmC11.
Open Scope Z_scope.

Definition others (inv peer : Z) (l : list ssm) : list ssm := filter (fun t => negb (tr_matches inv peer t)) l.

Lemma others_app_match : forall iid peer l t, tr_matches iid peer t = true -> others iid peer (l ++ [t]) = others iid peer l.
Proof. intros. unfold others. rewrite filter_app. cbn [filter]. rewrite H. cbn [negb]. apply app_nil_r. Qed.

(* where StateMachineAccessPoint leaves what a handler made of entry i: back in its place, or out of the table *)
Definition put_back (st : hst) (i : nat) (l : list ssm) : list ssm :=
  if h_live st then replace_nth i (h_s st) l else remove_nth i l.

Lemma others_put_back : forall iid peer l i t st, nth_error l i = Some t -> tr_matches iid peer t = true ->
  tr_matches iid peer (h_s st) = true -> others iid peer (put_back st i l) = others iid peer l.
Proof.
  intros iid peer l i t st. unfold put_back. generalize (h_live st) (h_s st). intros b t'. revert i.
  induction l as [|x r IH]; intros i Hn Hm Hm'; destruct i; cbn in Hn; try discriminate.
  - inversion Hn; subst. destruct b; cbn [replace_nth remove_nth others filter]; rewrite Hm, ?Hm'; reflexivity.
  - specialize (IH i Hn Hm Hm').
    destruct b; cbn [replace_nth remove_nth]; unfold others in *; cbn [filter]; rewrite IH; reflexivity.
Qed.

(* the entry is the one appended just before the handler ran *)
Lemma put_back_last : forall st l t, put_back st (length l) (l ++ [t]) = if h_live st then l ++ [h_s st] else l.
Proof.
  intros st l t. unfold put_back. generalize (h_s st). intros t'.
  destruct (h_live st); induction l as [|x r IH]; cbn [length app replace_nth remove_nth]; try reflexivity; rewrite IH; reflexivity.
Qed.

Definition has_key (p i : Z) (st : hst) : Prop := s_peer (h_s st) = p /\ s_invoke (h_s st) = i.
Definition ctx_of (i : Z) (st : hst) : Prop := forall c, s_ctx (h_s st) = Some c -> a_invoke c = i.

Lemma s_indication_busy_inv : forall (I : hst -> Prop) a st, s_state (h_s st) <> IDLE ->
  inv I (s_segmented_request a) -> inv I (s_await_response a) -> inv I (s_segmented_response a) ->
  I st -> I (fst (s_indication a st)).
Proof.
  intros I a st Hn H1 H2 H3 Hi.
  apply (s_indication_cases (fun r => I (fst r))); [contradiction | exact (H1 st Hi) | exact (H2 st Hi) | exact (H3 st Hi) | exact Hi].
Qed.

(* no handler but idle writes the peer or the invoke id *)
Lemma s_indication_keeps_key : forall p i a st, s_state (h_s st) <> IDLE ->
  has_key p i st -> has_key p i (fst (s_indication a st)).
Proof.
  intros p i a st Hn. apply s_indication_busy_inv; [exact Hn | | |];
    unfold s_segmented_request, s_await_response, s_segmented_response, s_abort, fill_window, append_segment; inv_auto fail.
Qed.

Lemma s_confirmation_keeps_key : forall p i a, inv (has_key p i) (s_confirmation a).
Proof. intros p i a. unfold s_confirmation, s_abort, send_seg, fill_window. inv_auto fail. Qed.

Lemma s_process_task_keeps_key : forall p i, inv (has_key p i) s_process_task.
Proof.
  intros p i.
  unfold s_process_task, s_segmented_request_timeout, s_await_response_timeout, s_segmented_response_timeout, s_abort, send_seg,
    fill_window.
  inv_auto fail.
Qed.

(* the context is written by append_segment, which keeps its header, and by confirmation, which stores the answer *)
Ltac ctx_prim :=
  idtac; lazymatch goal with
  | |- inv _ (upd (set_ctx_f (Some _))) => intros ? _ ? [= <-]; unfold ctx_of in *; cbn [a_invoke]; eauto
  end.

Lemma s_indication_keeps_ctx : forall a st, s_state (h_s st) <> IDLE ->
  ctx_of (a_invoke a) st -> ctx_of (a_invoke a) (fst (s_indication a st)).
Proof.
  intros a st Hn. apply s_indication_busy_inv; [exact Hn | | |];
    unfold s_segmented_request, s_await_response, s_segmented_response, s_abort, fill_window, append_segment; inv_auto ctx_prim.
Qed.

Lemma s_confirmation_keeps_ctx : forall a, inv (ctx_of (a_invoke a)) (s_confirmation a).
Proof. intros a. unfold s_confirmation, s_abort, send_seg, fill_window. inv_auto ctx_prim. Qed.

Lemma s_idle_key : forall a st, a_type a = 0 ->
  has_key (s_peer (h_s st)) (a_invoke a) (fst (s_idle a st)) /\
  (s_ctx (h_s st) = None -> ctx_of (a_invoke a) (fst (s_idle a st))).
Proof.
  intros a st Ht. destruct (s_idle_spec a st Ht) as (Hp & Hi & Hc & _). split; [split; assumption|].
  intros Hn c Hcc. destruct Hc as [Hc|Hc]; rewrite Hc in Hcc; [rewrite Hn in Hcc; discriminate Hcc | injection Hcc as <-; reflexivity].
Qed.

Lemma s_idle_takes_key : forall a st, s_state (h_s st) = IDLE -> a_type a = 0 ->
  s_peer (h_s (fst (s_indication a st))) = s_peer (h_s st) /\ s_invoke (h_s (fst (s_indication a st))) = a_invoke a.
Proof. intros a st Hs Ht. rewrite (s_indication_idle a st Hs). exact (proj1 (s_idle_key a st Ht)). Qed.

(* holds along a handler because the context is written by idle, which stores the request, and by append_segment, which
   keeps its header; what goes up is the PDU itself or the context *)
Definition ids_in (J : Z -> Prop) (st : hst) : Prop :=
  forall x, s_ctx (h_s st) = Some x \/ In (ToApp x) (h_outs st) /\ a_type x = 0 -> J (a_invoke x).

Ltac ids_prim :=
  idtac; unfold ids_in in *; lazymatch goal with
  | |- inv _ (upd (set_ctx_f (Some _))) => intros ? ? ? [[= <-]|?]; cbn [a_invoke]; eauto
  | |- inv _ (emit (ToApp _)) => intros ? ? ? [?|[[[= <-]|?] ?]]; [eauto | first [discriminate | eauto] | eauto]
  | |- inv _ (emit (Tx _)) => intros ? ? ? [?|[[[=]|?] ?]]; eauto
  end.

Lemma server_ids : forall (J : Z -> Prop) a, J (a_invoke a) -> inv (ids_in J) (s_indication a).
Proof.
  intros J a Ja.
  unfold s_indication, s_idle, s_segmented_request, s_await_response, s_segmented_response, s_abort, dec_maxsegs, fill_window,
    append_segment.
  inv_auto ids_prim.
Qed.

Lemma s_indication_toapp : forall a st x, h_outs st = [] -> In (ToApp x) (h_outs (fst (s_indication a st))) -> a_type x = 0 ->
  a_invoke x = a_invoke a \/ (exists c, s_ctx (h_s st) = Some c /\ a_invoke x = a_invoke c).
Proof.
  intros a st x Ho Hin Hx.
  apply (server_ids (fun i => i = a_invoke a \/ exists c, s_ctx (h_s st) = Some c /\ i = a_invoke c) a (or_introl eq_refl) st);
    [|right; split; assumption].
  intros c [Hc|[Hc _]]; [right; exists c; split; [exact Hc | reflexivity] | rewrite Ho in Hc; destruct Hc].
Qed.

Definition node_ok_after (inv peer dst : Z) (w w' : world) : Prop :=
  (forall addr, addr <> dst -> get_node addr (w_nodes w') = get_node addr (w_nodes w)) /\
  (forall n, get_node dst (w_nodes w) = Some n ->
     exists n', get_node dst (w_nodes w') = Some n' /\ n_ctr n' = n_ctr n /\ n_cfg n' = n_cfg n /\
                others inv peer (n_str n') = others inv peer (n_str n)).

Lemma node_ok_refl : forall iid peer dst w w', w_nodes w' = w_nodes w -> node_ok_after iid peer dst w w'.
Proof.
  intros iid peer dst w w' H. unfold node_ok_after. rewrite H. split; [auto|].
  intros n Hn. exists n. auto.
Qed.

Lemma node_ok_trans : forall iid peer dst w1 w2 w3,
  node_ok_after iid peer dst w1 w2 -> node_ok_after iid peer dst w2 w3 -> node_ok_after iid peer dst w1 w3.
Proof.
  intros iid peer dst w1 w2 w3 (A1 & A2) (B1 & B2). split.
  - intros addr Hne. rewrite (B1 addr Hne). apply A1. exact Hne.
  - intros n Hn. destruct (A2 n Hn) as (n' & Hn' & C1 & C2 & C3). destruct (B2 n' Hn') as (n'' & Hn'' & D1 & D2 & D3).
    exists n''. repeat split; congruence.
Qed.

Lemma put_str_ok : forall iid peer dst w w' n l',
  get_node dst (w_nodes w) = Some n ->
  w_nodes w' = put_node (mkN (n_cfg n) (n_next n) (n_ctr n) l') (w_nodes w) ->
  others iid peer l' = others iid peer (n_str n) ->
  node_ok_after iid peer dst w w'.
Proof.
  intros iid peer dst w w' n l' Hn Hw Ho. pose proof (get_node_addr _ _ _ Hn) as Ha. split.
  - intros addr Hne. rewrite Hw. apply get_put_other. cbn [n_cfg]. lia.
  - intros n0 Hn0. rewrite Hn in Hn0. inversion Hn0; subst n0.
    exists (mkN (n_cfg n) (n_next n) (n_ctr n) l'). rewrite Hw. split; [eapply get_put_same; [exact Hn | exact Ha]|].
    cbn [n_ctr n_cfg n_str]. auto.
Qed.

Lemma respond_reqs : forall j w, w_reqs (respond j w) = w_reqs w.
Proof.
  intros j w. unfold respond.
  destruct (job_apdu j); [|reflexivity]. destruct (get_node (j_node j) (w_nodes w)); [|reflexivity].
  destruct (find_tr (j_invoke j) (j_to j) (n_str n) 0) as [[i t]|]; [|reflexivity].
  destruct (s_confirmation a _) as [st e].
  destruct e; cbn [w_reqs log]; rewrite (process_tx_static _ static_reqs); reflexivity.
Qed.

(* the hypothesis of the serving-side theorem: no server application gives parked answers of OTHER requests from inside an
   indication (that is the application touching other transactions, not the stack) *)
Definition no_flush (rs : list reqcfg) : Prop := forall r, In r rs -> r_delay r <> -2.

Lemma find_policy_in : forall src dst data rs no0 no r, find_policy src dst data no0 rs = Some (no, r) -> In r rs.
Proof.
  induction rs as [|x rest IH]; intros no0 no r H; cbn [find_policy] in H; [discriminate|].
  destruct ((r_src x =? src) && (r_dst x =? dst) && (zlen data =? r_len x) && list_eqb Z.eqb data (req_payload no0 (r_len x))).
  - inversion H; subst. left. reflexivity.
  - right. eapply IH. exact H.
Qed.

Lemma respond_ok : forall j w, node_ok_after (j_invoke j) (j_to j) (j_node j) w (respond j w).
Proof.
  intros j w. unfold respond.
  destruct (job_apdu j) as [x|]; [|apply node_ok_refl; reflexivity].
  destruct (get_node (j_node j) (w_nodes w)) as [n|] eqn:Hn; [|apply node_ok_refl; reflexivity].
  destruct (find_tr (j_invoke j) (j_to j) (n_str n) O) as [[i t]|] eqn:Hf; [|apply node_ok_refl; reflexivity].
  destruct (find_tr_nth _ _ _ _ _ Hf) as (Hnth & Hm).
  pose proof (s_confirmation_keeps_key _ _ x (fresh_h t (w_tctr w) (w_now w)) (conj eq_refl eq_refl)) as (Hp & Hi).
  destruct (s_confirmation x _) as [st e]. cbn [fst h_s fresh_h] in Hp, Hi.
  assert (Hm' : tr_matches (j_invoke j) (j_to j) (h_s st) = true).
  { unfold tr_matches in *. rewrite Hp, Hi. exact Hm. }
  eapply put_str_ok with (l' := put_back st i (n_str n)); [exact Hn | |].
  - destruct e; cbn [w_nodes log]; rewrite (process_tx_static _ static_nodes); cbn [w_nodes set_tctr set_nodes]; reflexivity.
  - exact (others_put_back _ _ _ _ _ _ Hnth Hm Hm').
Qed.

Lemma app_indication_ok : forall node peer x w, no_flush (w_reqs w) ->
  node_ok_after (a_invoke x) peer node w (app_indication node peer x w) /\ w_reqs (app_indication node peer x w) = w_reqs w.
Proof.
  intros node peer x w Hnf. unfold app_indication.
  destruct (negb (a_type x =? 0)); [split; [apply node_ok_refl; reflexivity | reflexivity]|].
  match goal with |- context [find_policy ?a ?b ?c ?d ?e] => destruct (find_policy a b c d e) as [[no r]|] eqn:Hfp end; cbv beta iota zeta.
  - assert (Hr : r_delay r <> -2) by (apply Hnf; apply find_policy_in in Hfp; exact Hfp).
    destruct (r_delay r =? 0).
    + split; [|rewrite respond_reqs; reflexivity].
      match goal with |- node_ok_after _ _ _ _ (respond ?j ?w0) =>
        eapply node_ok_trans; [apply (node_ok_refl _ _ _ w w0); reflexivity | apply (respond_ok j w0)] end.
    + destruct (r_delay r =? -1); [split; [apply node_ok_refl; reflexivity | reflexivity]|].
      replace (r_delay r =? -2) with false by lia. split; [apply node_ok_refl; reflexivity | reflexivity].
  - cbn [Z.eqb]. split; [|rewrite respond_reqs; reflexivity].
    match goal with |- node_ok_after _ _ _ _ (respond ?j ?w0) =>
      eapply node_ok_trans; [apply (node_ok_refl _ _ _ w w0); reflexivity | apply (respond_ok j w0)] end.
Qed.

Lemma process_outs_server_ok : forall outs iid node peer w, no_flush (w_reqs w) ->
  (forall x, In (ToApp x) outs -> a_type x = 0 -> a_invoke x = iid) ->
  node_ok_after iid peer node w (process_outs false node peer outs w).
Proof.
  induction outs as [|o r IH]; intros iid node peer w Hnf H; cbn [process_outs]; [apply node_ok_refl; reflexivity|].
  destruct o as [x|x].
  - eapply node_ok_trans; [apply node_ok_refl; apply (sent_static _ static_nodes)|].
    apply IH; [rewrite (sent_static _ static_reqs); exact Hnf | intros y Hy; apply H; right; exact Hy].
  - destruct (app_indication_ok node peer x w Hnf) as (Hok & Hrq).
    eapply node_ok_trans; [|apply IH; [rewrite Hrq; exact Hnf | intros y Hy; apply H; right; exact Hy]].
    destruct (a_type x =? 0) eqn:Et.
    + rewrite <- (H x (or_introl eq_refl)) by lia. exact Hok.
    + unfold app_indication. rewrite Et. cbn [negb]. apply node_ok_refl. reflexivity.
Qed.

Lemma put_put : forall a b ns, c_addr (n_cfg a) = c_addr (n_cfg b) -> put_node a (put_node b ns) = put_node a ns.
Proof.
  intros a b ns H. induction ns as [|x r IH]; cbn [put_node]; [reflexivity|].
  destruct (c_addr (n_cfg x) =? c_addr (n_cfg b)) eqn:E; cbn [put_node].
  - replace (c_addr (n_cfg b) =? c_addr (n_cfg a)) with true by lia. replace (c_addr (n_cfg x) =? c_addr (n_cfg a)) with true by lia. reflexivity.
  - replace (c_addr (n_cfg x) =? c_addr (n_cfg a)) with false by lia. rewrite IH. reflexivity.
Qed.

Definition ctx_ok (t : ssm) : Prop := forall c, s_ctx t = Some c -> a_invoke c = s_invoke t.

Lemma run_on_server_ok : forall iid src dst w n i t m wh,
  get_node dst (w_nodes w) = Some n -> nth_error (n_str n) i = Some t -> tr_matches iid src t = true ->
  (let st := fst (m (fresh_h t (w_tctr w) (w_now w))) in
   tr_matches iid src (h_s st) = true /\ forall x, In (ToApp x) (h_outs st) -> a_type x = 0 -> a_invoke x = iid) ->
  no_flush (w_reqs w) ->
  node_ok_after iid src dst w (run_on false n i t m wh w).
Proof.
  intros iid src dst w n i t m wh Hn Hnth Hm Hst Hnf. pose proof (get_node_addr _ _ _ Hn) as Haddr.
  apply tr_matches_eq in Hm as Hm2. destruct Hm2 as (_ & Hp).
  unfold run_on, fresh_h in *. destruct (m _) as [st e]. cbn [fst] in Hst. destruct Hst as (Hm' & Hto).
  fold (put_back st i (n_str n)). set (l' := put_back st i (n_str n)).
  pose proof (others_put_back _ _ _ _ _ _ Hnth Hm Hm' : others iid src l' = others iid src (n_str n)) as Ho.
  set (w1 := set_tctr (h_ctr st) (set_nodes (put_node (mkN (n_cfg n) (n_next n) (n_ctr n) l') (w_nodes w)) w)).
  assert (H1 : node_ok_after iid src dst w w1) by (eapply put_str_ok; [exact Hn | reflexivity | exact Ho]).
  assert (H2 : node_ok_after iid src dst w1 (process_outs false (c_addr (n_cfg n)) (s_peer t) (rev (h_outs st)) w1)).
  { rewrite Haddr, <- Hp. apply process_outs_server_ok; [exact Hnf|]. intros x Hx. apply in_rev in Hx. exact (Hto x Hx). }
  destruct e; [eapply node_ok_trans; [eapply node_ok_trans; [exact H1 | exact H2] | apply node_ok_refl; reflexivity]
              | eapply node_ok_trans; [exact H1 | exact H2]].
Qed.

Lemma s_indication_listed : forall a t ctr now, ctx_ok t -> tr_matches (a_invoke a) (s_peer t) t = true ->
  let st := fst (s_indication a (fresh_h t ctr now)) in
  tr_matches (a_invoke a) (s_peer t) (h_s st) = true /\
  forall x, In (ToApp x) (h_outs st) -> a_type x = 0 -> a_invoke x = a_invoke a.
Proof.
  intros a t ctr now Hctx Hm. apply tr_matches_eq in Hm as Hm2. destruct Hm2 as (Hi & _). cbv zeta. split.
  - assert (Kk : has_key (s_peer t) (s_invoke t) (fst (s_indication a (fresh_h t ctr now)))).
    { destruct (Z.eq_dec (s_state t) IDLE) as [Hst|Hst].
      - rewrite (s_indication_idle a (fresh_h t ctr now) Hst). destruct (Z.eq_dec (a_type a) 0) as [Ht|Ht].
        + rewrite <- Hi. exact (proj1 (s_idle_key a _ Ht)).
        + rewrite (s_idle_not_request a _ Ht). split; reflexivity.
      - exact (s_indication_keeps_key _ _ a (fresh_h t ctr now) Hst (conj eq_refl eq_refl)). }
    destruct Kk as (Kp & Ki). unfold tr_matches. rewrite Kp, Ki. lia.
  - intros x Hx Htx. destruct (s_indication_toapp a (fresh_h t ctr now) x eq_refl Hx Htx) as [H|(c & Hc1 & Hc2)]; [exact H|].
    rewrite Hc2, (Hctx c Hc1). symmetry. exact Hi.
Qed.

Lemma deliver_server_only_match : forall src dst a w n,
  to_client_side a = false -> (a_type a = 0 \/ a_type a = 4 \/ a_type a = 7) ->
  get_node dst (w_nodes w) = Some n ->
  (forall t, In t (n_str n) -> ctx_ok t) -> no_flush (w_reqs w) ->
  node_ok_after (a_invoke a) src dst w (deliver src dst a w).
Proof.
  intros src dst a w n Hc Hty Hn Hctx Hnf. pose proof (get_node_addr _ _ _ Hn) as Haddr.
  unfold deliver. rewrite Hn. destruct (c_raw (n_cfg n)); [apply node_ok_refl; reflexivity|].
  (* a PDU that finds its transaction (i, t) in the table *)
  assert (Hlisted : forall i t, find_tr (a_invoke a) src (n_str n) O = Some (i, t) ->
            node_ok_after (a_invoke a) src dst w (run_on false n i t (s_indication a) 0 w)).
  { intros i t Hf. destruct (find_tr_nth _ _ _ _ _ Hf) as (Hnth & Hm).
    apply (run_on_server_ok _ _ _ _ _ _ _ _ _ Hn Hnth Hm); [|exact Hnf].
    destruct (find_tr_peer _ _ _ _ _ _ Hf) as (<- & _).
    exact (s_indication_listed a t _ _ (Hctx t (nth_error_In _ _ Hnth)) Hm). }
  destruct (a_type a =? 0) eqn:E0.
  - assert (Hat : a_type a = 0) by lia.
    destruct (find_tr (a_invoke a) src (n_str n) O) as [[i t]|] eqn:Hf; [exact (Hlisted i t eq_refl)|].
    (* a new transaction *)
    unfold run_on.
    set (t0 := new_ssm (n_cfg n) src false).
    pose proof (s_idle_takes_key a (fresh_h t0 (w_tctr w) (w_now w)) eq_refl Hat) as (Kp & Ki).
    pose proof (s_indication_toapp a (fresh_h t0 (w_tctr w) (w_now w))) as Hto.
    cbn [w_tctr w_now set_nodes n_str n_ctr n_cfg n_next].
    destruct (s_indication a _) as [st e]. cbn [fst h_outs h_s fresh_h] in *.
    assert (Hm' : tr_matches (a_invoke a) src (h_s st) = true).
    { unfold tr_matches. rewrite Kp, Ki. unfold t0. cbn [new_ssm s_peer]. lia. }
    fold (put_back st (length (n_str n)) (n_str n ++ [t0])). set (l' := put_back st _ _).
    assert (Ho : others (a_invoke a) src l' = others (a_invoke a) src (n_str n)).
    { unfold l'. rewrite put_back_last. destruct (h_live st); [apply others_app_match; exact Hm' | reflexivity]. }
    match goal with |- node_ok_after _ _ _ _ (match ?e0 with Some x => log _ ?W | None => ?W end) =>
      assert (HW : node_ok_after (a_invoke a) src dst w W) end.
    { match goal with |- node_ok_after _ _ _ _ (process_outs false ?nd ?pr ?os ?W1) =>
        assert (H1 : node_ok_after (a_invoke a) src dst w W1) end.
      { eapply put_str_ok with (l' := l'); [exact Hn | | exact Ho].
        cbn [w_nodes set_tctr set_nodes]. rewrite put_put by reflexivity. reflexivity. }
      eapply node_ok_trans; [exact H1|]. rewrite Haddr.
      replace (s_peer t0) with src by reflexivity.
      apply process_outs_server_ok; [exact Hnf|]. intros x Hx Htx. apply in_rev in Hx.
      destruct (Hto x eq_refl Hx Htx) as [H|(c & Hc1 & _)]; [exact H | discriminate Hc1]. }
    destruct e; [eapply node_ok_trans; [exact HW | apply node_ok_refl; reflexivity] | exact HW].
  - replace (a_type a =? 1) with false by lia. rewrite Hc.
    replace ((a_type a =? 4) || (a_type a =? 7)) with true by lia.
    destruct (find_tr (a_invoke a) src (n_str n) O) as [[i t]|] eqn:Hf; [exact (Hlisted i t eq_refl) | apply node_ok_refl; reflexivity].
Qed.

Lemma s_indication_ctx_ok : forall a st, ctx_ok (h_s st) ->
  (s_state (h_s st) = IDLE /\ s_ctx (h_s st) = None) \/ (s_state (h_s st) <> IDLE /\ s_invoke (h_s st) = a_invoke a) ->
  ctx_ok (h_s (fst (s_indication a st))).
Proof.
  intros a st Hok [(Hi & Hn)|(Hn & Hk)].
  - rewrite (s_indication_idle a st Hi). destruct (Z.eq_dec (a_type a) 0) as [Ht|Ht].
    + destruct (s_idle_key a st Ht) as ((_ & Hk) & Hc). unfold ctx_ok. rewrite Hk. exact (Hc Hn).
    + rewrite (s_idle_not_request a st Ht). exact Hok.
  - destruct (s_indication_keeps_key _ _ a st Hn (conj eq_refl eq_refl)) as (_ & Hk').
    unfold ctx_ok in *. rewrite Hk', Hk. rewrite Hk in Hok. exact (s_indication_keeps_ctx a st Hn Hok).
Qed.
