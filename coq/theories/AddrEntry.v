(* AddrEntry.v — refusals at every entry point; int / tuple constructors; the two-argument constructor;
   what "@route" does to == and hash. *)
From Bac Require Import Base Addr AddrFacts AddrParse.
Open Scope N_scope.

Lemma net_refused_text n cs c : digits n = true -> 65535 <= dec_val n -> core_text cs c ->
  decode_str (n ++ 58 :: cs) = Err ValueErr.
Proof.
  intros Hn Hv Hc. rewrite (decode_net_core n cs c Hn Hc). apply matched_net_refused.
  unfold net_check. now replace (65535 <=? Z.of_N (dec_val n))%Z with true by lia.
Qed.

(* "*:<station>" (fix) *)
Lemma star_station_refused cs c : core_text cs c -> c <> CBcast -> decode_str (42 :: 58 :: cs) = Err ValueErr.
Proof. intros Hc Hnb. now rewrite (decode_star_core cs c Hc), (matched_star c Hnb). Qed.

Lemma octets6_ip a b c d p1 p2 :
  exists x i, address1 (ABytes [a; b; c; d; p1; p2]) = Ok x /\ ip x = Some i /\
    ipAddr i = Z.of_N (be_val [a; b; c; d]) /\ ipPort i = Z.of_N (p1 * 256 + p2) /\ ipMask i = M32.
Proof. eexists. eexists. repeat split. Qed.

(* a host text other than '' goes through inet_aton *)
Lemma ip_from_tuple_text s port : s <> [] -> ip_from_tuple (HStr s) port =
  if (port <? 0)%Z || (65535 <? port)%Z then Err ValueErr
  else do a4 <- inet_aton s;
       Ok (a4 ++ be2 (Z.to_N (Z.land port 65535)), mkIp (Z.of_N (be_val a4)) M32 None None port s s).
Proof.
  intro H. unfold ip_from_tuple. destruct s; [congruence|].
  destruct ((port <? 0)%Z || (65535 <? port)%Z); [reflexivity|]. destruct (inet_aton _); reflexivity.
Qed.

Lemma tuple_denotation a b c d a' b' c' d' port :
  digits a = true -> digits b = true -> digits c = true -> digits d = true ->
  aton_part a = Some a' -> aton_part b = Some b' -> aton_part c = Some c' -> aton_part d = Some d' ->
  (0 <= port <= 65535)%Z ->
  exists x, address1 (ATuple (HStr (quad a b c d)) port) = Ok x /\
    key x = (ALocalStation, None, Some ([a'; b'; c'; d'] ++ be2 (Z.to_N port))) /\ route x = None.
Proof.
  intros Ha Hb Hc Hd A B C D Hp. unfold address1, decode_address.
  rewrite (ip_from_tuple_text _ port (quad_nonempty a b c d)).
  rewrite (inet_aton_quad a b c d a' b' c' d' Ha Hb Hc Hd A B C D).
  replace ((port <? 0)%Z || (65535 <? port)%Z) with false by lia.
  cbn [bind fst snd]. eexists. repeat split. unfold key. cbn [ty net mac].
  rewrite <- (Z2N.id port) at 1 by lia. rewrite land_port by lia. reflexivity.
Qed.

Lemma address2_station n z : (0 <= n < 65535)%Z -> (0 <= z < 256)%Z ->
  address2 n (AInt z) = remote_station n (AInt z).
Proof.
  intros Hn Hz. unfold address2, remote_station, decode_address, station_mac.
  replace ((n <? 0)%Z || (65535 <=? n)%Z) with false by lia. now replace ((z <? 0)%Z || (256 <=? z)%Z) with false by lia.
Qed.

(* with routes == is not transitive: "5@6" == "5" == "5@7" but "5@6" != "5@7" *)
Lemma eq_routes_not_transitive :
  exists a b c, decode_str [53; 64; 54] = Ok a /\ decode_str [53] = Ok b /\ decode_str [53; 64; 55] = Ok c /\
                eqb a b = true /\ eqb b c = true /\ eqb a c = false.
Proof. do 3 eexists. vm_compute. repeat split. Qed.

(* and with route_aware on, equal addresses can have different _tuple (hash) *)
Lemma eq_routes_hash_differs :
  exists a b, decode_str [53; 64; 54] = Ok a /\ decode_str [53] = Ok b /\
              eqb a b = true /\ tuple true a <> tuple true b.
Proof. do 2 eexists. vm_compute. repeat split. discriminate. Qed.
