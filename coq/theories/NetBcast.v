(* NetBcast.v — a remote broadcast travelling along a consistent route is heard exactly once by every listening
   station of the target network and by nobody else (lemmas about Net.v, property C06). *)
From Bac Require Import Base ListFacts Net NetFacts NetOnce NetRoute NetArrive NetLocal.
Open Scope N_scope.

Lemma router_forwards_bcast : forall n i ai inet src dst p d j m',
  nth_adapter n i = Some ai -> modelled_config n = true -> is_router n = true ->
  a_net ai = Some inet ->
  n_msg p = None -> n_dadr p = Some (DBcast d) -> n_hop p <> 0 ->
  (forall snet sm, n_sadr p = Some (snet, sm) -> find_net n (Some snet) = None /\ snet <> d) ->
  find_net n (Some d) = None ->
  find_path n d = Some (j, m') ->
  process_npdu n i src dst p =
    (learned n ai src p,
     [Fwd j (LStation m') (mkNpdu (n_dadr p) (Some (fwd_sadr inet src p)) (n_hop p - 1) None (n_data p))]).
Proof. intros n i ai inet src dst p d j m' Ha Hm Hr Hi Hmsg Hd. exact (router_forwards n i ai inet src dst p _ d j m' Ha Hm Hr Hi Hmsg Hd eq_refl). Qed.

Lemma last_router_bcast : forall n i ai inet src dst p d j,
  nth_adapter n i = Some ai -> modelled_config n = true -> is_router n = true -> has_app n = false ->
  a_net ai = Some inet ->
  n_msg p = None -> n_dadr p = Some (DBcast d) -> n_hop p <> 0 ->
  (forall snet sm, n_sadr p = Some (snet, sm) -> find_net n (Some snet) = None) ->
  find_net n (Some d) = Some j -> j <> i -> optN_eqb (Some d) (a_net ai) = false ->
  process_npdu n i src dst p =
    (learned n ai src p,
     [Fwd j LBcast (mkNpdu None (Some (fwd_sadr inet src p)) (n_hop p - 1) None (n_data p))]).
Proof.
  intros n i ai inet src dst p d j Ha Hm Hr Happ Hi Hmsg Hd Hh Hs Hfn Hji Hnai.
  destruct (local_adapter_exists _ _ _ Ha) as [la Hla].
  apply (last_router_forwards n i ai la inet src dst p (DBcast d) d j (optN_eqb (Some d) (a_net la))); try assumption; try reflexivity.
  - apply spoofed_false. assumption.
  - unfold decision. rewrite Hd, Hnai. reflexivity.
  - rewrite Happ. apply andb_false_r.
Qed.

Definition listenerb (ns : list wnode) (f : frame) (x : nat * nat) : bool :=
  match nth_error ns (fst x) with
  | Some w =>
      match nth_error (w_ports w) (snd x), adapters (w_node w), n_sadr (f_npdu f) with
      | Some (_, wmac), [a], Some (sn, _) =>
          Nat.eqb (snd x) 0 && accepts wmac f && has_app (w_node w) && negb (optN_eqb (a_net a) (Some sn))
      | _, _, _ => false
      end
  | None => false
  end.

Definition silentb (ns : list wnode) (x : nat * nat) : bool :=
  match nth_error ns (fst x) with Some w => negb (has_app (w_node w)) | None => true end.

Lemma member_silent : forall ns f x, silentb ns x = true -> hearers (out_obs ns f x) = [].
Proof.
  intros ns f x Hc. unfold out_obs.
  destruct (member_out ns f x) as [[[w'|] fs] os] eqn:Em; cbn [snd];
    [|destruct (member_out_none _ _ _ _ _ Em); subst; reflexivity].
  destruct (member_out_some _ _ _ _ _ _ Em) as (w & lan & wmac & n' & acts & Hw & _ & _ & Hpr & _ & He).
  pose proof (hearers_emit w' (fst x) acts) as Hh. rewrite He in Hh. cbn [snd] in Hh. rewrite Hh.
  unfold silentb in Hc. rewrite Hw in Hc.
  rewrite count_up_none; [reflexivity|]. intros s d y Hin.
  destruct (process_npdu_up _ _ _ _ _ _ _ _ _ _ Hpr Hin) as (? & ? & _ & _ & _ & _ & Hha & _). rewrite Hha in Hc. discriminate.
Qed.

Lemma member_listener : forall ns f x sn sm,
  n_dadr (f_npdu f) = None -> n_msg (f_npdu f) = None -> apdu_ok (n_data (f_npdu f)) = true ->
  n_sadr (f_npdu f) = Some (sn, sm) -> listenerb ns f x = true \/ silentb ns x = true ->
  hearers (out_obs ns f x) = if listenerb ns f x then [fst x] else [].
Proof.
  intros ns f x sn sm Hd Hm Hok Hs Hcl. destruct (listenerb ns f x) eqn:El.
  - unfold listenerb in El. unfold out_obs, member_out.
    destruct (nth_error ns (fst x)) as [w|]; [|discriminate].
    destruct (nth_error (w_ports w) (snd x)) as [[lan wmac]|]; [|discriminate].
    destruct (adapters (w_node w)) as [|a [|b l]] eqn:Ead; try discriminate. rewrite Hs in El.
    apply andb_prop in El. destruct El as [El E4]. apply andb_prop in El. destruct El as [El E3].
    apply andb_prop in El. destruct El as [E1 E2]. apply Nat.eqb_eq in E1. rewrite E1, E2.
    assert (E4' : optN_eqb (a_net a) (Some sn) = false) by (destruct (optN_eqb (a_net a) (Some sn)); [discriminate|reflexivity]).
    rewrite (station_hands_up (w_node w) a (f_src f) (f_dst f) (f_npdu f) sn sm Ead E3 Hm Hd Hok Hs E4'). reflexivity.
  - destruct Hcl as [Hc|Hc]; [discriminate|]. apply member_silent. assumption.
Qed.

Lemma deliver_bcast_exact : forall members ns f q tr ns' q' tr' sn sm,
  deliver ns f members q tr = (ns', q', tr') ->
  n_dadr (f_npdu f) = None -> n_msg (f_npdu f) = None -> apdu_ok (n_data (f_npdu f)) = true ->
  n_sadr (f_npdu f) = Some (sn, sm) ->
  NoDup (map fst members) ->
  (forall x, In x members -> listenerb ns f x = true \/ silentb ns x = true) ->
  q' = q /\ exists osn, tr' = osn ++ tr /\ hearers osn = rev (map fst (filter (listenerb ns f) members)).
Proof.
  intros members ns f q tr ns' q' tr' sn sm H Hd Hm Hok Hs Hnd Hcl.
  destruct (deliver_nodadr _ _ _ _ _ _ _ _ H Hnd Hd Hm) as (A1 & A2).
  split; [assumption|]. eexists. split; [exact A2|]. rewrite hearers_rev, hearers_flat_map. f_equal.
  rewrite <- flat_map_filter. apply flat_map_ext_in. intros x Hx. exact (member_listener ns f x sn sm Hd Hm Hok Hs (Hcl x Hx)).
Qed.

(* `bcast_arrives lns ns f hs`: frame f (a remote broadcast, alone in flight) follows a consistent route to its
   target network, where exactly the nodes hs hear it *)
Inductive bcast_arrives (lns : list (N * list (nat * nat))) : list wnode -> frame -> list nat -> Prop :=
| barr_last_router : forall ns f who i w m ai inet d j lan' mj,
    acceptor lns ns f who i w m ->
    nth_adapter (w_node w) i = Some ai ->
    modelled_config (w_node w) = true -> is_router (w_node w) = true -> has_app (w_node w) = false ->
    a_net ai = Some inet ->
    n_msg (f_npdu f) = None -> n_dadr (f_npdu f) = Some (DBcast d) -> n_hop (f_npdu f) <> 0 ->
    (forall snet sm, n_sadr (f_npdu f) = Some (snet, sm) -> find_net (w_node w) (Some snet) = None) ->
    find_net (w_node w) (Some d) = Some j -> j <> i -> optN_eqb (Some d) (a_net ai) = false ->
    nth_error (w_ports w) j = Some (lan', mj) ->
    apdu_ok (n_data (f_npdu f)) = true ->
    NoDup (map fst (lan_members lns lan')) ->
    (forall x, In x (lan_members lns lan') ->
       listenerb (set_nth ns who (mkW (learned (w_node w) ai (f_src f) (f_npdu f)) (w_ports w)))
                 (mkFrame lan' mj LBcast
                    (mkNpdu None (Some (fwd_sadr inet (f_src f) (f_npdu f))) (n_hop (f_npdu f) - 1) None (n_data (f_npdu f)))) x = true
       \/ silentb (set_nth ns who (mkW (learned (w_node w) ai (f_src f) (f_npdu f)) (w_ports w))) x = true) ->
    bcast_arrives lns ns f
      (rev (map fst (filter
         (listenerb (set_nth ns who (mkW (learned (w_node w) ai (f_src f) (f_npdu f)) (w_ports w)))
                    (mkFrame lan' mj LBcast
                       (mkNpdu None (Some (fwd_sadr inet (f_src f) (f_npdu f))) (n_hop (f_npdu f) - 1) None (n_data (f_npdu f)))))
         (lan_members lns lan'))))
| barr_router : forall ns f who i w m ai inet d j m' lan' mj hs,
    acceptor lns ns f who i w m ->
    nth_adapter (w_node w) i = Some ai ->
    modelled_config (w_node w) = true -> is_router (w_node w) = true -> a_net ai = Some inet ->
    n_msg (f_npdu f) = None -> n_dadr (f_npdu f) = Some (DBcast d) -> n_hop (f_npdu f) <> 0 ->
    (forall snet sm, n_sadr (f_npdu f) = Some (snet, sm) -> find_net (w_node w) (Some snet) = None /\ snet <> d) ->
    find_net (w_node w) (Some d) = None -> find_path (w_node w) d = Some (j, m') ->
    nth_error (w_ports w) j = Some (lan', mj) ->
    bcast_arrives lns (set_nth ns who (mkW (learned (w_node w) ai (f_src f) (f_npdu f)) (w_ports w)))
            (mkFrame lan' mj (LStation m')
               (mkNpdu (n_dadr (f_npdu f)) (Some (fwd_sadr inet (f_src f) (f_npdu f))) (n_hop (f_npdu f) - 1) None
                       (n_data (f_npdu f))))
            hs ->
    bcast_arrives lns ns f hs.

Theorem bcast_route_arrives : forall lns ns f hs,
  bcast_arrives lns ns f hs ->
  forall w, lans w = lns -> nodes w = ns -> queue w = [f] ->
  exists k osn, queue (run k w) = [] /\ trace (run k w) = osn ++ trace w /\ hearers osn = hs.
Proof.
  intros lns ns f hs H. induction H; intros w0 Hl Hn Hq; subst lns ns.
  - (* the last router, then the target LAN *)
    pose proof (last_router_bcast (w_node w) i ai inet (f_src f) (f_dst f) (f_npdu f) d j) as Hpr. feed Hpr.
    pose proof (step_single_fwd w0 f who i w m _ _ _ _ lan' mj Hq H Hpr ltac:(assumption)) as Hs1.
    match type of Hs1 with step _ = Some ?ww => set (w1 := ww) in * end.
    match goal with Hc : forall x, In x (lan_members (lans w0) lan') -> _ |- _ => rename Hc into Hcl end.
    set (g := mkFrame lan' mj LBcast
                (mkNpdu None (Some (fwd_sadr inet (f_src f) (f_npdu f))) (n_hop (f_npdu f) - 1) None (n_data (f_npdu f)))) in *.
    apply (run_after_step (fun osn _ => hearers osn = _) _ _ f Hs1 eq_refl);
      [intros osn _ E; rewrite hearers_app, E; apply app_nil_r|].
    destruct (deliver (nodes w1) g (lan_members (lans w1) (f_lan g)) [] [OFrame g]) as [[ns2 q2] os2] eqn:Ed.
    assert (Hgs : n_sadr (f_npdu g) = Some (fst (fwd_sadr inet (f_src f) (f_npdu f)), snd (fwd_sadr inet (f_src f) (f_npdu f))))
      by (subst g; cbn [f_npdu n_sadr]; destruct (fwd_sadr inet (f_src f) (f_npdu f)); reflexivity).
    destruct (deliver_bcast_exact _ _ g _ _ _ _ _ _ _ Ed eq_refl eq_refl ltac:(assumption) Hgs
                ltac:(assumption) Hcl) as (Hq2 & osn & Htr & Hh).
    exists 1%nat, (osn ++ [OFrame g]). cbn [run]. rewrite (step_cons w1 g [] eq_refl), Ed.
    cbn [queue trace]. subst q2 os2. split; [reflexivity|]. split; [rewrite <- app_assoc; reflexivity|].
    rewrite hearers_app, Hh. apply app_nil_r.
  - pose proof (router_forwards_bcast (w_node w) i ai inet (f_src f) (f_dst f) (f_npdu f) d j m') as Hpr. feed Hpr.
    pose proof (step_single_fwd w0 f who i w m _ _ _ _ lan' mj Hq H Hpr ltac:(assumption)) as Hs.
    apply (run_after_step (fun osn _ => hearers osn = hs) _ _ f Hs eq_refl); [|apply IHbcast_arrives; reflexivity].
    intros osn _ E. rewrite hearers_app, E. apply app_nil_r.
Qed.
