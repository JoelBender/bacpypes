(* BytesFacts.v — lemmas about the octet writers and readers of Base.v (comm.PDUData): lengths and octet
   lists, big-endian fields, what a reader that succeeded has read, and how a reader behaves along a
   longer or a shorter buffer. *)
From Bac Require Import Base.
From Coq Require Import ZifyBool.
Open Scope N_scope.

(* `lia` takes `/` and `mod` for unknown functions; this hands it their defining equations first.  Not set as
   Zify.zify_post_hook (importing ZifyN / ZifyNat would, for every importing file): it slows each `lia`. *)
Ltac lia_div := zify; Z.to_euclidean_division_equations; lia.

Lemma lenN_app {A} (a b : list A) : lenN (a ++ b) = lenN a + lenN b.
Proof. unfold lenN. rewrite app_length. lia. Qed.

Lemma lenN_cons {A} (x : A) l : lenN (x :: l) = 1 + lenN l.
Proof. unfold lenN. cbn [length]. lia. Qed.

Lemma lenN_0 {A} (d : list A) : lenN d = 0 -> d = [].
Proof. destruct d; [reflexivity|unfold lenN; cbn; lia]. Qed.

Lemma split_at_length {A} (l r : list A) : firstn (length l) (l ++ r) = l /\ skipn (length l) (l ++ r) = r.
Proof.
  induction l as [|x l [F S]]; [split; reflexivity|]. cbn [length app firstn skipn]. rewrite F.
  split; [reflexivity|exact S].
Qed.

Lemma list_eqb_N_eq (a b : list N) : list_eqb N.eqb a b = true <-> a = b.
Proof.
  revert b. induction a as [|x r IH]; intros [|y s]; cbn [list_eqb]; split; try congruence; try discriminate.
  - intros H. apply andb_true_iff in H as [H1 H2]. apply N.eqb_eq in H1. apply IH in H2. congruence.
  - intros H. injection H as -> ->. rewrite N.eqb_refl. apply IH. reflexivity.
Qed.

Lemma list_ind2 {A} (P : list A -> Prop) :
  P [] -> (forall a, P [a]) -> (forall a b r, P r -> P (a :: b :: r)) -> forall l, P l.
Proof.
  intros H0 H1 H2. fix IH 1. intros [|a [|b r]]; [exact H0|apply H1|apply H2, IH].
Qed.

Lemma bytes_ok_app a b : bytes_ok (a ++ b) = bytes_ok a && bytes_ok b.
Proof. unfold bytes_ok. apply forallb_app. Qed.

Lemma bytes_ok_cons x q : bytes_ok (x :: q) = true <-> x < 256 /\ bytes_ok q = true.
Proof. unfold bytes_ok, byte_ok. cbn [forallb]. rewrite andb_true_iff, N.ltb_lt. reflexivity. Qed.

Lemma bytes_ok_firstn k l : bytes_ok l = true -> bytes_ok (firstn k l) = true.
Proof.
  revert k; induction l as [|x l IH]; intros [|k] H; cbn in *; try reflexivity.
  apply andb_true_iff in H as [H1 H2]. rewrite H1, IH; auto.
Qed.
Lemma bytes_ok_skipn k l : bytes_ok l = true -> bytes_ok (skipn k l) = true.
Proof.
  revert k; induction l as [|x l IH]; intros [|k] H; cbn in *; try reflexivity; auto.
  apply andb_true_iff in H as [H1 H2]. auto.
Qed.

Lemma byte_sweep (P : N -> bool) :
  forallb P (map N.of_nat (seq 0 256)) = true -> forall c, c < 256 -> P c = true.
Proof.
  intros H c Hc. apply (proj1 (forallb_forall _ _) H), in_map_iff.
  exists (N.to_nat c). split; [apply N2Nat.id|]. apply in_seq. lia.
Qed.

Lemma land_ones_lt c k : N.land c (N.ones k) < 2 ^ k.
Proof. rewrite N.land_ones. apply N.mod_lt, N.pow_nonzero. discriminate. Qed.

Lemma div_mod_256 n : n / 256 * 256 + n mod 256 = n.
Proof. rewrite N.mul_comm. symmetry. apply N.div_mod. discriminate. Qed.

Lemma byte_ok_mod n : byte_ok (n mod 256) = true.
Proof. apply N.ltb_lt, N.mod_lt. discriminate. Qed.

Lemma be2_bytes n : bytes_ok (be2 n) = true.
Proof. unfold be2, bytes_ok; cbn [forallb]. rewrite !byte_ok_mod. reflexivity. Qed.
Lemma be4_bytes n : bytes_ok (be4 n) = true.
Proof. unfold be4, bytes_ok; cbn [forallb]. rewrite !byte_ok_mod. reflexivity. Qed.

Lemma be2_small n : n < 65536 -> be2 n = [n / 256; n mod 256].
Proof.
  intros H. unfold be2. rewrite (N.mod_small (n / 256)); [reflexivity|].
  apply N.div_lt_upper_bound; [discriminate|exact H].
Qed.

Lemma be4_small n : n < 4294967296 -> be4 n = [n / 16777216; (n / 65536) mod 256; (n / 256) mod 256; n mod 256].
Proof.
  intros H. unfold be4. rewrite (N.mod_small (n / 16777216)); [reflexivity|].
  apply N.div_lt_upper_bound; [discriminate|exact H].
Qed.

Lemma bytes_ok_short n r : n < 65536 -> bytes_ok (n / 256 :: n mod 256 :: r) = bytes_ok r.
Proof.
  intros H. change (bytes_ok ([n / 256; n mod 256] ++ r) = bytes_ok r).
  rewrite bytes_ok_app, <- be2_small, be2_bytes by exact H. reflexivity.
Qed.

Lemma put_short_small n : n < 65536 -> put_short n = [n / 256; n mod 256].
Proof. intros H. unfold put_short. rewrite N.mod_small by exact H. apply be2_small, H. Qed.

Lemma get_short_net n r : get_short (n / 256 :: n mod 256 :: r) = Ok (n, r).
Proof. cbn [get_short]. rewrite div_mod_256. reflexivity. Qed.

Lemma get_short_be2 n r : n < 65536 -> get_short (be2 n ++ r) = Ok (n, r).
Proof. intros H. rewrite be2_small by exact H. apply get_short_net. Qed.

Lemma get_short_put_short n r : n < 65536 -> get_short (put_short n ++ r) = Ok (n, r).
Proof. intros H. rewrite put_short_small by exact H. apply get_short_net. Qed.

Lemma short_halves a b : b < 256 -> (a * 256 + b) / 256 = a /\ (a * 256 + b) mod 256 = b.
Proof.
  intros H. split.
  - rewrite N.div_add_l, (N.div_small b) by (assumption || discriminate). apply N.add_0_r.
  - rewrite N.add_comm, N.mod_add by discriminate. apply N.mod_small, H.
Qed.

Lemma get_long_be4 n r : n < 4294967296 -> get_long (be4 n ++ r) = Ok (n, r).
Proof.
  intros H. unfold be4; cbn [app get_long]. do 2 f_equal.
  replace (n / 65536) with (n / 256 / 256) by (rewrite N.div_div by discriminate; reflexivity).
  replace (n / 16777216) with (n / 256 / 256 / 256) by (rewrite !N.div_div by discriminate; reflexivity).
  rewrite (N.mod_small (n / 256 / 256 / 256)) by (repeat apply N.div_lt_upper_bound; try discriminate; exact H).
  pose proof (div_mod_256 n). pose proof (div_mod_256 (n / 256)). pose proof (div_mod_256 (n / 256 / 256)). lia.
Qed.

Lemma put_ok n : n < 256 -> put n = Ok [n].
Proof. intros H. unfold put. destruct (n <? 256) eqn:E; [reflexivity|lia]. Qed.

Lemma put_inv n l : put n = Ok l -> n < 256 /\ l = [n].
Proof. unfold put. destruct (n <? 256) eqn:E; [|discriminate]. intros [= <-]. split; [lia|reflexivity]. Qed.

Lemma get_data_app d r : get_data (lenN d) (d ++ r) = Ok (d, r).
Proof.
  unfold get_data. rewrite lenN_app.
  destruct (lenN d + lenN r <? lenN d) eqn:E; [lia|].
  unfold lenN. rewrite Nat2N.id. destruct (split_at_length d r) as [-> ->]. reflexivity.
Qed.

Lemma get_data_all l : get_data (lenN l) l = Ok (l, []).
Proof. rewrite <- (app_nil_r l) at 2. apply get_data_app. Qed.

Lemma get_data_ok k bs d r :
  get_data k bs = Ok (d, r) -> bs = d ++ r /\ lenN d = k.
Proof.
  unfold get_data. destruct (lenN bs <? k) eqn:E; [discriminate|].
  intros H; injection H as <- <-. split.
  - symmetry; apply firstn_skipn.
  - unfold lenN in *. rewrite firstn_length. lia.
Qed.

Lemma get_inv bs x r : get bs = Ok (x, r) -> bs = x :: r.
Proof. destruct bs; cbn; intros H; [discriminate|]. injection H as <- <-. reflexivity. Qed.

Lemma get_short_inv bs n r : bytes_ok bs = true -> get_short bs = Ok (n, r) ->
  bs = n / 256 :: n mod 256 :: r /\ n < 65536 /\ bytes_ok r = true.
Proof.
  destruct bs as [|a [|b bs]]; cbn [get_short]; intros B H; try discriminate. injection H as <- <-.
  apply bytes_ok_cons in B as [Ha B]. apply bytes_ok_cons in B as [Hb B].
  destruct (short_halves a b Hb) as [-> ->]. repeat split; [lia|exact B].
Qed.

(* A reader that succeeded does the same on a longer buffer and leaves the extra octets (extensible), and its
   only error is DecodingError (only_dec).  Both pass through sequencing, so a decoder written as a chain of
   binds is shown to be a reader by walking its text with the lemmas below. *)
Definition extensible {A} (f : list N -> res (A * list N)) : Prop :=
  forall a x r y, f a = Ok (x, r) -> f (a ++ y) = Ok (x, r ++ y).
Definition only_dec {A} (f : list N -> res A) : Prop :=
  forall bs e, f bs = Err e -> e = DecodingError.
Definition reader {A} (f : list N -> res (A * list N)) : Prop := extensible f /\ only_dec f.

Lemma reader_ret {A} (x : A) : reader (fun bs => Ok (x, bs)).
Proof. split; [intros a x' r y [= <- <-]; reflexivity|intros bs e; discriminate]. Qed.

Lemma reader_err {A} : reader (fun _ => @Err (A * list N) DecodingError).
Proof. split; [intros a x r y; discriminate|intros bs e [= <-]; reflexivity]. Qed.

Lemma reader_bind {A B} (f : list N -> res (A * list N)) (g : A -> list N -> res (B * list N)) :
  reader f -> (forall x, reader (g x)) -> reader (fun bs => do (x, r) <- f bs; g x r).
Proof.
  intros [Fe Fo] G. split.
  - intros a z r y H. destruct (f a) as [[x q]|] eqn:E; [|discriminate].
    rewrite (Fe _ _ _ y E). exact (proj1 (G x) _ _ _ y H).
  - intros bs e H. destruct (f bs) as [[x q]|e'] eqn:E; [exact (proj2 (G x) _ _ H)|].
    injection H as <-. exact (Fo _ _ E).
Qed.

Lemma reader_if {A} (c : bool) (f g : list N -> res (A * list N)) :
  reader f -> reader g -> reader (fun bs => if c then f bs else g bs).
Proof. destruct c; auto. Qed.

(* `if len(pduData) < k: raise DecodingError` in front of a reader *)
Lemma reader_min_len {A} k (f : list N -> res (A * list N)) :
  reader f -> reader (fun bs => if lenN bs <? k then Err DecodingError else f bs).
Proof.
  intros [Fe Fo]. split.
  - intros a x r y H. rewrite lenN_app. destruct (lenN a <? k) eqn:E; [discriminate|].
    destruct (lenN a + lenN y <? k) eqn:E'; [lia|]. exact (Fe _ _ _ y H).
  - intros bs e H. destruct (lenN bs <? k); [congruence|exact (Fo _ _ H)].
Qed.

Lemma get_reader : reader get.
Proof.
  split; [intros [|b a] x r y H; [discriminate|]; injection H as <- <-; reflexivity|].
  intros [|b a] e H; cbn in H; congruence.
Qed.

Lemma get_short_reader : reader get_short.
Proof.
  split; [intros [|b [|c a]] x r y H; try discriminate; injection H as <- <-; reflexivity|].
  intros [|b [|c a]] e H; cbn in H; congruence.
Qed.

Lemma get_data_reader k : reader (get_data k).
Proof.
  split.
  - intros a x r y H. unfold get_data in *. rewrite lenN_app.
    destruct (lenN a <? k) eqn:E; [discriminate|].
    destruct (lenN a + lenN y <? k) eqn:E'; [lia|].
    injection H as <- <-.
    assert (Hk : (N.to_nat k - length a = 0)%nat) by (unfold lenN in E; lia).
    rewrite firstn_app, skipn_app, Hk. cbn [firstn skipn]. rewrite app_nil_r. reflexivity.
  - intros a e H. unfold get_data in H. destruct (lenN a <? k); congruence.
Qed.

(* had it accepted a proper prefix, it would accept the whole buffer the same way and leave the octets cut off *)
Lemma truncated_refused {A} (f : list N -> res (A * list N)) full (x : A) k :
  reader f -> f full = Ok (x, []) -> (k < length full)%nat -> f (firstn k full) = Err DecodingError.
Proof.
  intros [Fe Fo] S Hk. destruct (f (firstn k full)) as [[x' r]|e] eqn:E.
  - exfalso. apply (Fe _ _ _ (skipn k full)) in E. rewrite firstn_skipn, S in E.
    injection E as _ E. symmetry in E. apply app_eq_nil in E as [_ E].
    apply (f_equal (@length N)) in E. rewrite skipn_length in E. cbn [length] in E. lia.
  - f_equal. exact (Fo _ _ E).
Qed.
