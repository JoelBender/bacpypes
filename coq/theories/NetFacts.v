(* NetFacts.v — lemmas about the network-layer model Net.v (property C06). *)
From Bac Require Import Base ListFacts Net.
Open Scope N_scope.

Definition is_fwd (a : action) : bool := match a with Fwd _ _ _ => true | _ => false end.
Definition is_up (a : action) : bool := match a with Up _ _ _ => true | _ => false end.

Lemma filter_len_le : forall {A} (f : A -> bool) l, (length (filter f l) <= length l)%nat.
Proof. induction l as [|a l IH]; cbn; [lia|]. destruct (f a); cbn; lia. Qed.

Lemma nth_error_in_seq : forall {A} (l : list A) i x, nth_error l i = Some x -> In i (seq 0 (length l)).
Proof.
  intros A l i x H. apply in_seq. assert (Hn : nth_error l i <> None) by congruence. apply nth_error_Some in Hn. lia.
Qed.

Lemma forall_lt_forallb : forall (P : nat -> bool) m,
  forallb P (seq 0 m) = true -> forall b, (b < m)%nat -> P b = true.
Proof.
  intros P m H b Hb. rewrite forallb_forall in H. apply H. apply in_seq. lia.
Qed.

Lemma set_nth_nth_same : forall {X} (l : list X) i x y, nth_error l i = Some y -> nth_error (set_nth l i x) i = Some x.
Proof. induction l as [|a l IH]; intros [|i] x y H; cbn in *; try discriminate; [reflexivity|eapply IH; eauto]. Qed.

Lemma set_nth_nth_other : forall {X} (l : list X) i j x, i <> j -> nth_error (set_nth l i x) j = nth_error l j.
Proof.
  induction l as [|a l IH]; intros [|i] [|j] x H; cbn; try reflexivity; try congruence.
  apply IH. congruence.
Qed.

Lemma set_nth_Forall : forall {X} (P : X -> Prop) l i x, Forall P l -> P x -> Forall P (set_nth l i x).
Proof.
  intros X P. induction l as [|a l IH]; intros i x Hl Hx; cbn; [constructor|].
  inversion Hl; subst. destruct i; constructor; auto.
Qed.

Lemma set_nth_In : forall {X} (l : list X) i x y, In y (set_nth l i x) -> y = x \/ In y l.
Proof.
  intros X l i x y H. revert y H. apply Forall_forall. apply set_nth_Forall; [apply Forall_forall|]; auto.
Qed.

Lemma nodup_sub_flat_map : forall {A B} (g g' : A -> list B) l,
  (forall x, g' x = [] \/ g' x = g x) -> NoDup (flat_map g l) -> NoDup (flat_map g' l).
Proof.
  intros A B g g' l Hs. induction l as [|a l IH]; intro H; cbn in *; [constructor|].
  assert (Hsub : forall e, In e (flat_map g' l) -> In e (flat_map g l)).
  { intros e He. apply in_flat_map in He. destruct He as [y [Hy Hey]]. apply in_flat_map. exists y. split; [assumption|].
    destruct (Hs y) as [E|E]; rewrite E in Hey; [contradiction|assumption]. }
  destruct (nodup_app_inv _ _ H) as (Ha & Hb & Hd).
  destruct (Hs a) as [E|E]; rewrite E; [apply IH; assumption|].
  apply nodup_app_intro; [assumption|apply IH; assumption|].
  intros e He Hq. apply (Hd e He). apply Hsub. assumption.
Qed.

Lemma flat_map_rev_single : forall {A B} (g : A -> list B), (forall a, (length (g a) <= 1)%nat) ->
  forall l, flat_map g (rev l) = rev (flat_map g l).
Proof.
  intros A B g Hg. induction l as [|a l IH]; [reflexivity|]. cbn [rev flat_map].
  rewrite flat_map_app, IH, rev_app_distr. cbn [flat_map]. rewrite app_nil_r. f_equal.
  specialize (Hg a). destruct (g a) as [|b [|c r]]; [reflexivity|reflexivity|cbn in Hg; lia].
Qed.

Lemma list_eqb_eq : forall {A} (eqb : A -> A -> bool), (forall x y, eqb x y = true -> x = y) ->
  forall a b, list_eqb eqb a b = true -> a = b.
Proof.
  intros A eqb Heq. induction a as [|x a IH]; destruct b as [|y b]; cbn; intro H; try discriminate; [reflexivity|].
  apply andb_prop in H. destruct H as [H1 H2]. f_equal; auto.
Qed.

Lemma mac_eqb_eq : forall a b, mac_eqb a b = true -> a = b.
Proof. apply list_eqb_eq. intros x y. apply N.eqb_eq. Qed.

Lemma mac_eqb_refl : forall m, mac_eqb m m = true.
Proof. induction m as [|x m IH]; cbn; [reflexivity|]. rewrite N.eqb_refl. exact IH. Qed.

Lemma mac_eqb_neq : forall a b, a <> b -> mac_eqb a b = false.
Proof. intros a b H. destruct (mac_eqb a b) eqn:E; [apply mac_eqb_eq in E; contradiction|reflexivity]. Qed.

Lemma optN_eqb_eq : forall a b, optN_eqb a b = true -> a = b.
Proof. intros [x|] [y|]; cbn; intro H; try discriminate; [apply N.eqb_eq in H; subst|]; reflexivity. Qed.

Lemma optN_eqb_refl : forall o, optN_eqb o o = true.
Proof. intros [x|]; cbn; [apply N.eqb_refl|reflexivity]. Qed.

Lemma optN_eqb_some : forall x o, optN_eqb (Some x) o = true -> o = Some x.
Proof. intros x o H. symmetry. apply optN_eqb_eq. exact H. Qed.

Lemma optN_eqb_sym : forall a b, optN_eqb a b = optN_eqb b a.
Proof. intros [x|] [y|]; cbn; try reflexivity. apply N.eqb_sym. Qed.

Lemma key_eqb_spec : forall a b, reflect (a = b) (key_eqb a b).
Proof.
  intros [[x|] u] [[y|] v]; unfold key_eqb; cbn;
    try destruct (N.eqb_spec x y); try destruct (N.eqb_spec u v); cbn; constructor; congruence.
Qed.

Lemma cache_get_set : forall c k m s d,
  cache_get (cache_set c k m) s d = if key_eqb k (s, d) then Some m else cache_get c s d.
Proof.
  induction c as [|[k0 m0] r IH]; intros k m s d; cbn [cache_set cache_get]; [reflexivity|].
  destruct (key_eqb_spec k0 k) as [E|E]; cbn [cache_get].
  - subst k0. destruct (key_eqb k (s, d)); reflexivity.
  - rewrite IH. destruct (key_eqb_spec k0 (s, d)) as [E1|E1]; [|reflexivity].
    destruct (key_eqb_spec k (s, d)); [congruence|reflexivity].
Qed.

Lemma cache_get_update : forall dn c s m x d,
  cache_get (cache_update c s m dn) x d =
  if optN_eqb s x && existsb (N.eqb d) dn then Some m else cache_get c x d.
Proof.
  unfold cache_update. induction dn as [|d0 r IH]; intros c s m x d; cbn [fold_left existsb].
  - rewrite andb_false_r. reflexivity.
  - rewrite IH, cache_get_set. unfold key_eqb; cbn [fst snd]. rewrite (N.eqb_sym d0 d).
    destruct (optN_eqb s x), (d =? d0), (existsb (N.eqb d) r); reflexivity.
Qed.

Lemma cache_learn_one : forall c s d m, cache_get (cache_update c s m [d]) s d = Some m.
Proof. intros. rewrite cache_get_update. cbn [existsb]. rewrite optN_eqb_refl, N.eqb_refl. reflexivity. Qed.

Lemma other_ports_neq : forall n i j, In j (other_ports n i) -> j <> i.
Proof.
  unfold other_ports; intros n i j H. apply filter_In in H. destruct H as [_ H].
  destruct (Nat.eqb_spec j i); [discriminate | assumption].
Qed.

Lemma other_ports_lt : forall n i j, In j (other_ports n i) -> (j < length (adapters n))%nat.
Proof.
  unfold other_ports; intros n i j H. apply filter_In in H. destruct H as [H _].
  apply in_seq in H. lia.
Qed.

Lemma other_ports_length : forall n i, (length (other_ports n i) <= length (adapters n))%nat.
Proof.
  intros. unfold other_ports.
  etransitivity; [apply filter_len_le|]. rewrite seq_length. lia.
Qed.

Section SameAdapters.
Context (n n' : node) (Had : adapters n' = adapters n).

Lemma is_router_same : is_router n' = is_router n.
Proof. unfold is_router. rewrite Had. reflexivity. Qed.
Lemma local_idx_same : local_idx n' = local_idx n.
Proof. unfold local_idx. rewrite Had. reflexivity. Qed.
Lemma nth_adapter_same : forall i, nth_adapter n' i = nth_adapter n i.
Proof. intro i. unfold nth_adapter. rewrite Had. reflexivity. Qed.
Lemma modelled_config_same : modelled_config n' = modelled_config n.
Proof. unfold modelled_config. rewrite Had. reflexivity. Qed.
Lemma find_net_same : forall x, find_net n' x = find_net n x.
Proof. intro x. unfold find_net. rewrite Had. reflexivity. Qed.
Lemma other_ports_same : forall i, other_ports n' i = other_ports n i.
Proof. intro i. unfold other_ports. rewrite Had. reflexivity. Qed.
Lemma find_path_same : rcache n' = rcache n -> forall d, find_path n' d = find_path n d.
Proof. intros Hc d. unfold find_path. rewrite Had, Hc. reflexivity. Qed.
End SameAdapters.

(* a node without any adapter counts as a router *)
Lemma is_router_false_iff : forall n, is_router n = false <-> exists a, adapters n = [a].
Proof.
  intro n. unfold is_router. destruct (adapters n) as [|a [|b r]]; cbn; split; intro H; try discriminate; eauto;
    destruct H as [a' H]; discriminate.
Qed.

(* the sender's identity attached by a forwarding router *)
Definition fwd_sadr (inet : N) (src : mac) (p : npdu) : N * mac :=
  match n_sadr p with Some s => s | None => (inet, src) end.

Definition dadr_net (dd : dadr) : option N :=
  match dd with DGlobal => None | DBcast d | DStation d _ => Some d end.
Definition dadr_final (dd : dadr) : ldest := match dd with DStation _ m => LStation m | _ => LBcast end.

Definition fwd_copy (inet : N) (src : mac) (p : npdu) : npdu :=
  mkNpdu (n_dadr p) (Some (fwd_sadr inet src p)) (n_hop p - 1) (n_msg p) (n_data p).
Definition fwd_lastleg (inet : N) (src : mac) (p : npdu) : npdu :=
  mkNpdu None (Some (fwd_sadr inet src p)) (n_hop p - 1) (n_msg p) (n_data p).

Lemma forward_cases : forall n i ai src p dd,
  forward n i ai src p dd = [] \/ forward n i ai src p dd = [Unmodelled] \/
  exists inet, is_router n = true /\ n_hop p <> 0 /\ a_net ai = Some inet /\
    ((dd = DGlobal /\
      forward n i ai src p dd = map (fun j => Fwd j LBcast (fwd_copy inet src p)) (other_ports n i)) \/
     exists dnet, dadr_net dd = Some dnet /\
       ((exists j, find_net n (Some dnet) = Some j /\ j <> i /\
                   forward n i ai src p dd = [Fwd j (dadr_final dd) (fwd_lastleg inet src p)]) \/
        (exists j m, find_net n (Some dnet) = None /\ find_path n dnet = Some (j, m) /\
                     forward n i ai src p dd = [Fwd j (LStation m) (fwd_copy inet src p)]) \/
        (find_net n (Some dnet) = None /\ find_path n dnet = None /\
         forward n i ai src p dd = map (fun j => Tx j LBcast (who_is dnet None)) (other_ports n i)))).
Proof.
  intros n i ai src p dd. unfold forward.
  destruct (is_router n); [|left; reflexivity]. cbn [negb].
  destruct (N.eqb_spec (n_hop p) 0) as [|Eh]; [left; reflexivity|].
  destruct (a_net ai) as [inet|]; [|right; left; reflexivity].
  fold (fwd_sadr inet src p). fold (fwd_copy inet src p). fold (fwd_lastleg inet src p).
  destruct dd as [|dnet|dnet dm]; [right; right; exists inet; auto 6|..].
  (* DBcast and DStation differ only in the link destination on the last leg *)
  all: destruct (find_net n (Some dnet)) as [j|] eqn:Ef; [destruct (Nat.eqb_spec j i); [left; reflexivity|]|].
  all: right; right; exists inet; do 3 (split; [auto|]); right; exists dnet; split; [reflexivity|].
  1,3: left; eauto.
  all: right; destruct (find_path n dnet) as [[j m]|] eqn:Ep; [left; eauto|right; auto].
Qed.

Lemma forward_in : forall n i ai src p dd a, In a (forward n i ai src p dd) ->
  a = Unmodelled \/
  exists inet, n_hop p <> 0 /\ a_net ai = Some inet /\
    ((exists j, j <> i /\ a = Fwd j LBcast (fwd_copy inet src p)) \/
     exists dnet, dadr_net dd = Some dnet /\
       ((exists j, j <> i /\ a = Fwd j (dadr_final dd) (fwd_lastleg inet src p)) \/
        (exists j m, find_net n (Some dnet) = None /\ find_path n dnet = Some (j, m) /\
                     a = Fwd j (LStation m) (fwd_copy inet src p)) \/
        (exists j, j <> i /\ is_router n = true /\ find_net n (Some dnet) = None /\ find_path n dnet = None /\
                   a = Tx j LBcast (who_is dnet None)))).
Proof.
  intros n i ai src p dd a H.
  destruct (forward_cases n i ai src p dd)
    as [E|[E|(inet & Hr & Hh & Hi & [[_ E]|(dnet & Hd & [(j & _ & Hj & E)|[(j & m & Hf & Hp & E)|(Hf & Hp & E)]])])]];
    rewrite E in H.
  - inversion H.
  - destruct H as [H|[]]. auto.
  - apply in_map_iff in H. destruct H as (j & Ha & Hj). apply other_ports_neq in Hj. right. exists inet. eauto 7.
  - destruct H as [H|[]]. right. exists inet. do 2 (split; [assumption|]). right. exists dnet. eauto 7.
  - destruct H as [H|[]]. right. exists inet. do 2 (split; [assumption|]). right. exists dnet. eauto 9.
  - apply in_map_iff in H. destruct H as (j & Ha & Hj). apply other_ports_neq in Hj.
    right. exists inet. do 2 (split; [assumption|]). right. exists dnet. split; [assumption|]. right; right. eauto 8.
Qed.

(* a copy leaves by the arrival port only towards a cached next hop *)
Lemma forward_fwd : forall n i ai src p dd j d q,
  In (Fwd j d q) (forward n i ai src p dd) ->
  exists inet, n_hop p <> 0 /\ a_net ai = Some inet /\ (q = fwd_copy inet src p \/ q = fwd_lastleg inet src p) /\
    (j <> i \/ exists dnet m, dadr_net dd = Some dnet /\ find_net n (Some dnet) = None /\
                              find_path n dnet = Some (i, m) /\ d = LStation m /\ q = fwd_copy inet src p).
Proof.
  intros n i ai src p dd j d q H.
  destruct (forward_in _ _ _ _ _ _ _ H)
    as [E|(inet & Hh & Hi & [(j0 & Hj & E)|(dnet & Hd & [(j0 & Hj & E)|[(j0 & m & Hf & Hp & E)|(j0 & _ & _ & _ & _ & E)]])])];
    inversion E; subst; exists inet; do 2 (split; [assumption|]); auto.
  split; [auto|]. destruct (Nat.eq_dec j0 i); [right; subst; eauto 8|left; assumption].
Qed.

Lemma forward_no_up : forall n i ai src p dd s d x, ~ In (Up s d x) (forward n i ai src p dd).
Proof.
  intros n i ai src p dd s d x H.
  destruct (forward_in _ _ _ _ _ _ _ H)
    as [E|(inet & _ & _ & [(j & _ & E)|(dnet & _ & [(j & _ & E)|[(j & m & _ & _ & E)|(j & _ & _ & _ & _ & E)]])])];
    discriminate.
Qed.

Lemma forward_tx : forall n i ai src p dd j d q,
  In (Tx j d q) (forward n i ai src p dd) -> n_msg q = Some 0 /\ j <> i /\ d = LBcast.
Proof.
  intros n i ai src p dd j d q H.
  destruct (forward_in _ _ _ _ _ _ _ H)
    as [E|(inet & _ & _ & [(j0 & _ & E)|(dnet & _ & [(j0 & _ & E)|[(j0 & m & _ & _ & E)|(j0 & Hj & _ & _ & _ & E)]])])];
    try discriminate.
  inversion E; subst. auto.
Qed.

Lemma forward_fanout : forall n i ai src p dd, (length (forward n i ai src p dd) <= S (length (adapters n)))%nat.
Proof.
  intros. pose proof (other_ports_length n i) as Ho.
  destruct (forward_cases n i ai src p dd)
    as [E|[E|(inet & _ & _ & _ & [[_ E]|(dnet & _ & [(j & _ & _ & E)|[(j & m & _ & _ & E)|(_ & _ & E)]])])]];
    rewrite E, ?map_length; cbn [length]; lia.
Qed.

Definition no_fwd (l : list action) : Prop := forall j d q, ~ In (Fwd j d q) l.

Lemma no_fwd_filter : forall l, no_fwd l -> filter is_fwd l = [].
Proof. intros l H. apply filter_none. intros [] Ha; try reflexivity. exfalso. eapply H; eauto. Qed.

(* case analysis on every match and if of a hypothesis that unfolds a definition of the model *)
Ltac dmatch H :=
  repeat match type of H with
  | context [match ?x with _ => _ end] => destruct x eqn:?
  | context [if ?x then _ else _] => destruct x eqn:?
  end.

Lemma nse_who_is_spec : forall n i ai src p w n' acts,
  nse_who_is n i ai src p w = (n', acts) -> n' = n /\ no_fwd acts /\ (forall s d x, ~ In (Up s d x) acts).
Proof.
  intros n i ai src p w n' acts H. unfold nse_who_is in H.
  (* in every branch the actions are [], one Tx, or a map of Tx *)
  dmatch H; inversion H; subst; clear H; (split; [reflexivity|]); split; intros ? ? ? Hin;
    try (apply in_map_iff in Hin; destruct Hin as [? [? _]]; discriminate);
    try (destruct Hin as [Hin|[]]; discriminate); inversion Hin.
Qed.

Lemma pending_get_in : forall p d l, pending_get p d = Some l -> In (d, l) p.
Proof.
  induction p as [|[k kl] r IH]; cbn; intros d l H; [discriminate|].
  destruct (N.eqb_spec k d).
  - inversion H; subst. left; reflexivity.
  - right. apply IH; assumption.
Qed.

Lemma pending_del_in : forall p d x, In x (pending_del p d) -> In x p.
Proof.
  induction p as [|[k kl] r IH]; cbn; intros d x H; [assumption|].
  destruct (k =? d); [right; assumption|].
  destruct H as [H|H]; [left; assumption|right; eapply IH; eauto].
Qed.

Lemma release_spec : forall nets pend i src pend' acts,
  release pend i src nets = (pend', acts) ->
  forall a, In a acts -> exists q, a = Tx i (LStation src) q /\ exists d l, In (d, l) pend /\ In q l.
Proof.
  induction nets as [|d r IH]; intros pend i src pend' acts H a Ha.
  - inversion H; subst. inversion Ha.
  - cbn [release] in H. destruct (pending_get pend d) as [l|] eqn:Eg.
    + destruct (release (pending_del pend d) i src r) as [pe ac] eqn:Er. inversion H; subst; clear H.
      apply in_app_or in Ha. destruct Ha as [Ha|Ha].
      * apply in_map_iff in Ha. destruct Ha as [q [Hq Hin]]. exists q. split; [auto|]. exists d, l.
        split; [apply pending_get_in; assumption|assumption].
      * destruct (IH _ _ _ _ _ Er a Ha) as [q [Hq [d' [l' [Hg Hin]]]]].
        exists q. split; [auto|]. exists d', l'. split; [eapply pending_del_in; eauto|assumption].
    + eapply IH; eauto.
Qed.

Lemma release_no_fwd : forall nets pend i src pend' acts,
  release pend i src nets = (pend', acts) -> no_fwd acts /\ (forall s d x, ~ In (Up s d x) acts).
Proof.
  intros nets pend i src pend' acts H.
  split; intros ? ? ? Hin; destruct (release_spec _ _ _ _ _ _ H _ Hin) as [q' [Hq _]]; discriminate.
Qed.

Lemma nse_i_am_spec : forall n i ai src nets n' acts,
  nse_i_am n i ai src nets = (n', acts) ->
  adapters n' = adapters n /\ has_app n' = has_app n /\
  rcache n' = cache_update (rcache n) (a_net ai) src nets /\
  no_fwd acts /\ (forall s d x, ~ In (Up s d x) acts).
Proof.
  intros n i ai src nets n' acts H. unfold nse_i_am in H.
  destruct (release (pending (set_cache n (cache_update (rcache n) (a_net ai) src nets))) i src nets)
    as [pe ac] eqn:Er.
  inversion H; subst; clear H. cbn. destruct (release_no_fwd _ _ _ _ _ _ Er) as [Rf Ru].
  repeat split; intros ? ? ? Hin; apply in_app_or in Hin; destruct Hin as [Hin|Hin];
    try (eapply Rf; eassumption); try (eapply Ru; eassumption);
    (destruct (is_router n); [|inversion Hin]); apply in_map_iff in Hin; destruct Hin as [? [? _]]; discriminate.
Qed.

Lemma last_with_addr_range : forall l i acc k,
  last_with_addr l i acc = Some k -> acc = Some k \/ (i <= k < i + length l)%nat.
Proof.
  induction l as [|a r IH]; cbn [last_with_addr length]; intros i acc k H; [left; assumption|].
  apply IH in H. destruct H as [H|H]; [|right; lia].
  destruct (a_mac a); [inversion H; subst; right; lia|left; assumption].
Qed.

Lemma local_idx_lt : forall n, adapters n <> [] -> (local_idx n < length (adapters n))%nat.
Proof.
  intros n Hne. unfold local_idx.
  destruct (last_with_addr (adapters n) 0 None) as [k|] eqn:E.
  - apply last_with_addr_range in E. destruct E as [E|E]; [discriminate|lia].
  - destruct (adapters n); [congruence|cbn; lia].
Qed.

Lemma local_adapter_exists : forall n i ai, nth_adapter n i = Some ai ->
  exists la, nth_adapter n (local_idx n) = Some la.
Proof.
  intros n i ai H. unfold nth_adapter in *.
  assert (adapters n <> []) by (intro E; rewrite E in H; destruct i; discriminate).
  destruct (nth_error (adapters n) (local_idx n)) eqn:E; [eauto|].
  apply nth_error_None in E. pose proof (local_idx_lt n H0). lia.
Qed.

Definition shown_source (n : node) (i : nat) (ai : adapter) (src : mac) (p : npdu) : addr :=
  match n_sadr p with
  | Some (sn, sm) => ARS sn sm
  | None => if is_router n && negb (Nat.eqb i (local_idx n))
            then match a_net ai with Some inet => ARS inet src | None => ANone end
            else ALS src
  end.

(* netservice.py:468-478 *)
Definition learn_sadr (n : node) (ai : adapter) (src : mac) (p : npdu) : node :=
  match n_sadr p with
  | Some (snet, _) => set_cache n (cache_update (rcache n) (a_net ai) src [snet])
  | None => n
  end.

Definition spoofed (n : node) (p : npdu) : bool :=
  match n_sadr p with
  | Some (snet, _) => match find_net n (Some snet) with Some _ => true | None => false end
  | None => false
  end.

(* (processLocally, forwardMessage) of netservice.py:480-516; i the arrival adapter, li the local one *)
Definition decision (i li : nat) (ai la : adapter) (p : npdu) : res (option (bool * bool)) :=
  match n_dadr p with
  | None => Ok (Some (Nat.eqb i li || match n_msg p with Some _ => true | None => false end, false))
  | Some (DBcast dnet) =>
      if optN_eqb (Some dnet) (a_net ai) then Ok None
      else Ok (Some (optN_eqb (Some dnet) (a_net la), true))
  | Some (DStation dnet m) =>
      if optN_eqb (Some dnet) (a_net ai) then Ok None
      else if optN_eqb (Some dnet) (a_net la) then
             match a_mac la with
             | None => Err AttrErr
             | Some lm => let pl := mac_eqb m lm in Ok (Some (pl, negb pl))
             end
           else Ok (Some (false, true))
  | Some DGlobal => Ok (Some (true, true))
  end.

Definition fwd_tail (nx : node) (i : nat) (ai : adapter) (src : mac) (p : npdu) (fw : bool) : list action :=
  match n_dadr p with Some dd => if fw then forward nx i ai src p dd else [] | None => [] end.

Definition shown_dest (n : node) (i : nat) (la : adapter) (dst : ldest) (p : npdu) : addr :=
  if is_router n && negb (Nat.eqb i (local_idx n)) then
    match n_dadr p with Some DGlobal => AGB | Some (DBcast _) => ALB | _ => opt_mac_addr (a_mac la) end
  else match n_dadr p with Some DGlobal => AGB | _ => ldest_to_addr dst end.

Lemma process_npdu_unfold : forall n i src dst p,
  process_npdu n i src dst p =
  match nth_adapter n i with
  | None => (n, [Raise OtherErr])
  | Some ai =>
    if negb (modelled_config n) then (n, [Unmodelled]) else
    let la := match nth_adapter n (local_idx n) with Some a => a | None => ai end in
    if spoofed n p then (n, []) else
    let n1 := learn_sadr n ai src p in
    match decision i (local_idx n) ai la p with
    | Err e => (n1, [Raise e])
    | Ok None => (n1, [])
    | Ok (Some (pl, fw)) =>
      match n_msg p with
      | None =>
          if pl && has_app n1 then
            if negb (apdu_ok (n_data p)) then (n1, [Raise DecodingError])
            else (n1, Up (shown_source n i ai src p) (shown_dest n i la dst p) (n_data p) :: fwd_tail n1 i ai src p fw)
          else (n1, fwd_tail n1 i ai src p fw)
      | Some t =>
          if pl then
            if negb (known_msg t) then (n1, [])
            else if t =? 0 then
              match dec_who_is (n_data p) with
              | Err e => (n1, [Raise e])
              | Ok w => let '(n2, acts) := nse_who_is n1 i ai src p w in (n2, acts ++ fwd_tail n2 i ai src p fw)
              end
            else if t =? 1 then
              match dec_i_am (n_data p) with
              | Err e => (n1, [Raise e])
              | Ok nets => let '(n2, acts) := nse_i_am n1 i ai src nets in (n2, acts ++ fwd_tail n2 i ai src p fw)
              end
            else (n1, [Unmodelled])
          else (n1, fwd_tail n1 i ai src p fw)
      end
    end
  end.
Proof.
  intros. unfold process_npdu, spoofed, learn_sadr, decision, fwd_tail, shown_dest, shown_source.
  destruct (nth_adapter n i); [|reflexivity].
  destruct (n_sadr p) as [[? ?]|]; reflexivity.
Qed.

(* a frame claiming to come from a directly connected network via a router is dropped whole: this is what stops
   application traffic that has gone round a cycle *)
Lemma spoof_dropped : forall n i src dst p snet sm j,
  n_sadr p = Some (snet, sm) -> find_net n (Some snet) = Some j ->
  modelled_config n = true -> nth_adapter n i <> None ->
  process_npdu n i src dst p = (n, []).
Proof.
  intros n i src dst p snet sm j Hs Hf Hm Ha. rewrite process_npdu_unfold.
  destruct (nth_adapter n i); [|congruence]. unfold spoofed. rewrite Hm, Hs, Hf. reflexivity.
Qed.

Lemma spoofed_false : forall n p,
  (forall snet sm, n_sadr p = Some (snet, sm) -> find_net n (Some snet) = None) -> spoofed n p = false.
Proof. intros n p H. unfold spoofed. destruct (n_sadr p) as [[snet sm]|]; [rewrite (H snet sm eq_refl)|]; reflexivity. Qed.

Lemma spoofed_false_inv : forall n p snet sm,
  spoofed n p = false -> n_sadr p = Some (snet, sm) -> find_net n (Some snet) = None.
Proof. intros n p snet sm H E. unfold spoofed in H. rewrite E in H. destruct (find_net n (Some snet)); [discriminate|reflexivity]. Qed.

Lemma learn_sadr_adapters : forall n ai src p, adapters (learn_sadr n ai src p) = adapters n.
Proof. intros. unfold learn_sadr. destruct (n_sadr p) as [[? ?]|]; reflexivity. Qed.

Lemma learn_sadr_has_app : forall n ai src p, has_app (learn_sadr n ai src p) = has_app n.
Proof. intros. unfold learn_sadr. destruct (n_sadr p) as [[? ?]|]; reflexivity. Qed.

Lemma learn_sadr_pending : forall n ai src p, pending (learn_sadr n ai src p) = pending n.
Proof. intros. unfold learn_sadr. destruct (n_sadr p) as [[? ?]|]; reflexivity. Qed.

Lemma fwd_tail_cases : forall nx i ai src p fw,
  fwd_tail nx i ai src p fw = [] \/ exists dd, n_dadr p = Some dd /\ fwd_tail nx i ai src p fw = forward nx i ai src p dd.
Proof. intros. unfold fwd_tail. destruct (n_dadr p) as [dd|]; [destruct fw|]; eauto. Qed.

Lemma fwd_tail_false : forall nx i ai src p, fwd_tail nx i ai src p false = [].
Proof. intros. unfold fwd_tail. destruct (n_dadr p); reflexivity. Qed.

Definition plain_head (n : node) (i : nat) (ai la : adapter) (src : mac) (dst : ldest) (p : npdu) (fw : bool)
  (head : list action) : Prop :=
  head = [] \/ (exists e, head = [Raise e]) \/ head = [Unmodelled] \/
  (n_msg p = None /\ has_app n = true /\ decision i (local_idx n) ai la p = Ok (Some (true, fw)) /\
   head = [Up (shown_source n i ai src p) (shown_dest n i la dst p) (n_data p)]).

(* a frame that passed the configuration and spoofing checks: the node's own actions, then the forwarded copies *)
Definition handled (n : node) (i : nat) (ai la : adapter) (src : mac) (dst : ldest) (p : npdu)
  (n' : node) (acts : list action) : Prop :=
  exists head fw, acts = head ++ fwd_tail n' i ai src p fw /\
    ((n' = learn_sadr n ai src p /\ plain_head n i ai la src dst p fw head) \/
     (exists w, n_msg p = Some 0 /\ dec_who_is (n_data p) = Ok w /\
                nse_who_is (learn_sadr n ai src p) i ai src p w = (n', head)) \/
     (exists nets, n_msg p = Some 1 /\ dec_i_am (n_data p) = Ok nets /\
                   nse_i_am (learn_sadr n ai src p) i ai src nets = (n', head))).

Lemma handled_plain : forall n i ai la src dst p fw head,
  plain_head n i ai la src dst p fw head ->
  handled n i ai la src dst p (learn_sadr n ai src p) (head ++ fwd_tail (learn_sadr n ai src p) i ai src p fw).
Proof. intros. exists head, fw. auto. Qed.

Lemma handled_stop : forall n i ai la src dst p head,
  head = [] \/ (exists e, head = [Raise e]) \/ head = [Unmodelled] ->
  handled n i ai la src dst p (learn_sadr n ai src p) head.
Proof.
  intros n i ai la src dst p head H. exists head, false. rewrite fwd_tail_false, app_nil_r.
  split; [reflexivity|]. left. split; [reflexivity|]. unfold plain_head. tauto.
Qed.

Lemma process_npdu_shape : forall n i src dst p n' acts,
  process_npdu n i src dst p = (n', acts) ->
  (n' = n /\ (acts = [] \/ acts = [Unmodelled] \/ acts = [Raise OtherErr])) \/
  exists ai la, nth_adapter n i = Some ai /\ nth_adapter n (local_idx n) = Some la /\
    modelled_config n = true /\ spoofed n p = false /\ handled n i ai la src dst p n' acts.
Proof.
  intros n i src dst p n' acts H. rewrite process_npdu_unfold in H.
  destruct (nth_adapter n i) as [ai|] eqn:Ea; [|inversion H; subst; left; auto].
  destruct (local_adapter_exists _ _ _ Ea) as [la Hla]. rewrite Hla in H.
  destruct (modelled_config n); cbn [negb] in H; [|inversion H; subst; left; auto].
  cbv zeta in H. destruct (spoofed n p); [inversion H; subst; left; auto|].
  right. exists ai, la. split; [reflexivity|]. split; [exact Hla|]. do 2 (split; [reflexivity|]).
  destruct (decision i (local_idx n) ai la p) as [[[pl fw]|]|e] eqn:Edec;
    [|inversion H; subst; apply handled_stop; auto|inversion H; subst; apply handled_stop; eauto].
  destruct (n_msg p) as [t|] eqn:Emsg.
  - destruct pl; [|inversion H; subst; apply (handled_plain _ _ _ _ _ _ _ _ []); left; reflexivity].
    destruct (negb (known_msg t)); [inversion H; subst; apply handled_stop; auto|].
    destruct (N.eqb_spec t 0) as [E0|E0].
    + subst t. destruct (dec_who_is (n_data p)) as [w|e] eqn:Edw; [|inversion H; subst; apply handled_stop; eauto].
      destruct (nse_who_is (learn_sadr n ai src p) i ai src p w) as [n2 ac] eqn:Ew. inversion H; subst.
      exists ac, fw. split; [reflexivity|]. right; left. exists w. auto.
    + destruct (N.eqb_spec t 1) as [E1|E1]; [|inversion H; subst; apply handled_stop; auto].
      subst t. destruct (dec_i_am (n_data p)) as [nets|e] eqn:Edi; [|inversion H; subst; apply handled_stop; eauto].
      destruct (nse_i_am (learn_sadr n ai src p) i ai src nets) as [n2 ac] eqn:Ew. inversion H; subst.
      exists ac, fw. split; [reflexivity|]. right; right. exists nets. auto.
  - rewrite learn_sadr_has_app in H.
    destruct pl; cbn [andb] in H; [|inversion H; subst; apply (handled_plain _ _ _ _ _ _ _ _ []); left; reflexivity].
    destruct (has_app n) eqn:Eapp; [|inversion H; subst; apply (handled_plain _ _ _ _ _ _ _ _ []); left; reflexivity].
    destruct (negb (apdu_ok (n_data p))); [inversion H; subst; apply handled_stop; eauto|].
    inversion H; subst. apply (handled_plain _ _ _ _ _ _ _ _ [_]). right; right; right. auto.
Qed.

Lemma fwd_tail_no_up : forall nx i ai src p fw s d x, ~ In (Up s d x) (fwd_tail nx i ai src p fw).
Proof.
  intros nx i ai src p fw s d x H.
  destruct (fwd_tail_cases nx i ai src p fw) as [E|(dd & _ & E)]; rewrite E in H; [inversion H|].
  eapply forward_no_up; eauto.
Qed.

Lemma decision_local : forall i li ai la p fw,
  decision i li ai la p = Ok (Some (true, fw)) -> n_msg p = None ->
  match n_dadr p with
  | None => i = li
  | Some (DStation dnet m) => a_net la = Some dnet /\ a_mac la = Some m
  | Some (DBcast dnet) => a_net la = Some dnet
  | Some DGlobal => True
  end.
Proof.
  intros i li ai la p fw H Hm. unfold decision in H. rewrite Hm, orb_false_r in H.
  destruct (n_dadr p) as [[|dnet|dnet m]|].
  - exact I.
  - destruct (optN_eqb (Some dnet) (a_net ai)); [discriminate|]. inversion H. apply optN_eqb_some. assumption.
  - destruct (optN_eqb (Some dnet) (a_net ai)); [discriminate|].
    destruct (optN_eqb (Some dnet) (a_net la)) eqn:El; [|discriminate].
    destruct (a_mac la) as [lm|]; [|discriminate]. inversion H.
    split; [apply optN_eqb_some; assumption|]. f_equal. symmetry. apply mac_eqb_eq. assumption.
  - inversion H. apply Nat.eqb_eq. assumption.
Qed.

Lemma process_npdu_up : forall n i src dst p n' acts s d x,
  process_npdu n i src dst p = (n', acts) -> In (Up s d x) acts ->
  exists ai la, nth_adapter n i = Some ai /\ nth_adapter n (local_idx n) = Some la /\
    x = n_data p /\ n_msg p = None /\ has_app n = true /\ s = shown_source n i ai src p /\
    match n_dadr p with
    | None => i = local_idx n
    | Some (DStation dnet m) => a_net la = Some dnet /\ a_mac la = Some m
    | Some (DBcast dnet) => a_net la = Some dnet
    | Some DGlobal => True
    end /\
    n' = learn_sadr n ai src p /\ d = shown_dest n i la dst p.
Proof.
  intros n i src dst p n' acts s d x H Hin.
  destruct (process_npdu_shape _ _ _ _ _ _ _ H)
    as [[_ Ha]|(ai & la & Hai & Hla & _ & _ & head & fw & Ea & Hc)].
  - destruct Ha as [Ha|[Ha|Ha]]; subst acts; cbn in Hin; intuition discriminate.
  - exists ai, la. subst acts. apply in_app_or in Hin.
    destruct Hin as [Hin|Hin]; [|exfalso; eapply fwd_tail_no_up; eauto].
    destruct Hc as [[En Hp]|[(w & _ & _ & Ew)|(nets & _ & _ & Ew)]].
    + destruct Hp as [Hp|[[e Hp]|[Hp|(Hm & Happ & Hdec & Hp)]]]; subst head; cbn in Hin; try solve [intuition discriminate].
      destruct Hin as [Hin|[]]. inversion Hin; subst. repeat split; auto. exact (decision_local _ _ _ _ _ _ Hdec Hm).
    + exfalso. eapply (proj2 (proj2 (nse_who_is_spec _ _ _ _ _ _ _ _ Ew))); eauto.
    + exfalso. eapply (proj2 (proj2 (proj2 (proj2 (nse_i_am_spec _ _ _ _ _ _ _ Ew))))); eauto.
Qed.

Definition parked (n : node) (q : npdu) : Prop := exists d l, In (d, l) (pending n) /\ In q l.

Lemma nse_who_is_tx : forall n i ai src p w n' acts j d q,
  nse_who_is n i ai src p w = (n', acts) -> In (Tx j d q) acts -> n_msg q <> None.
Proof.
  intros n i ai src p w n' acts j d q H Hin. unfold nse_who_is in H.
  dmatch H; inversion H; subst; clear H;
  try (apply in_map_iff in Hin; destruct Hin as [x [Hx _]]; inversion Hx; subst; cbn; discriminate);
  try (destruct Hin as [Hin|[]]; inversion Hin; subst; cbn; discriminate); inversion Hin.
Qed.

Lemma nse_i_am_tx : forall n i ai src nets n' acts j d q,
  nse_i_am n i ai src nets = (n', acts) -> In (Tx j d q) acts -> n_msg q <> None \/ parked n q.
Proof.
  intros n i ai src nets n' acts j d q H Hin. unfold nse_i_am in H.
  destruct (release (pending (set_cache n (cache_update (rcache n) (a_net ai) src nets))) i src nets)
    as [pe ac] eqn:Er.
  inversion H; subst; clear H. apply in_app_or in Hin. destruct Hin as [Hin|Hin].
  - left. destruct (is_router n); [|inversion Hin].
    apply in_map_iff in Hin. destruct Hin as [x [Hx _]]. inversion Hx; subst. cbn. discriminate.
  - right. destruct (release_spec _ _ _ _ _ _ Er _ Hin) as [q' [Hq [d' [l [Hl Hql]]]]].
    inversion Hq; subst. exists d', l. split; assumption.
Qed.

Definition count_up (l : list action) : nat := length (filter is_up l).

Lemma count_up_app : forall a b, count_up (a ++ b) = (count_up a + count_up b)%nat.
Proof. intros. unfold count_up. rewrite filter_app, app_length. reflexivity. Qed.

Lemma count_up_none : forall l, (forall s d x, ~ In (Up s d x) l) -> count_up l = 0%nat.
Proof.
  intros l H. unfold count_up. rewrite filter_none; [reflexivity|].
  intros [] Ha; try reflexivity. exfalso. eapply H; eauto.
Qed.

(* the actions of process_npdu are the node's own, which satisfy head_ok, then whatever `forward` makes *)
Definition head_ok (n : node) (head : list action) : Prop :=
  no_fwd head /\ (count_up head <= 1)%nat /\
  (forall j d q, In (Tx j d q) head -> n_msg q <> None \/ parked n q).

Lemma head_ok_nil : forall n, head_ok n [].
Proof. intro n. split; [intros j d q []|]. split; [cbn; lia|]. intros j d q []. Qed.

Definition frameless_action (a : action) : Prop :=
  match a with Tx _ _ _ | Fwd _ _ _ => False | _ => True end.

Lemma head_ok_one : forall n a, frameless_action a -> head_ok n [a].
Proof.
  intros n a Ha. split; [|split].
  - intros j d q [E|[]]. subst a. contradiction.
  - destruct a; cbn; lia.
  - intros j d q [E|[]]. subst a. contradiction.
Qed.

Lemma process_npdu_split : forall n i src dst p n' acts,
  process_npdu n i src dst p = (n', acts) ->
  adapters n' = adapters n /\ has_app n' = has_app n /\
  exists head tail, acts = head ++ tail /\ head_ok n head /\
    (tail = [] \/ exists ai dd, nth_adapter n i = Some ai /\ n_dadr p = Some dd /\
                                tail = forward n' i ai src p dd).
Proof.
  intros n i src dst p n' acts H.
  destruct (process_npdu_shape _ _ _ _ _ _ _ H)
    as [[En Ha]|(ai & la & Hai & _ & _ & _ & head & fw & Ea & Hc)].
  - subst n'. do 2 (split; [reflexivity|]). exists acts, []. rewrite app_nil_r. split; [reflexivity|]. split; [|auto].
    destruct Ha as [Ha|[Ha|Ha]]; subst acts; [apply head_ok_nil|apply head_ok_one; exact I|apply head_ok_one; exact I].
  - pose proof (learn_sadr_adapters n ai src p) as L1. pose proof (learn_sadr_has_app n ai src p) as L2.
    pose proof (learn_sadr_pending n ai src p) as L3.
    assert (Hfacts : adapters n' = adapters n /\ has_app n' = has_app n /\ head_ok n head).
    { destruct Hc as [[En Hp]|[(w & _ & _ & Ew)|(nets & _ & _ & Ew)]].
      - subst n'. do 2 (split; [assumption|]).
        destruct Hp as [Hp|[[e Hp]|[Hp|(_ & _ & _ & Hp)]]]; subst head;
          [apply head_ok_nil|apply head_ok_one; exact I..].
      - destruct (nse_who_is_spec _ _ _ _ _ _ _ _ Ew) as (En & Hnf & Hnu). subst n'.
        do 2 (split; [assumption|]). split; [exact Hnf|]. split; [rewrite (count_up_none _ Hnu); lia|].
        intros j d q Hin. left. eapply nse_who_is_tx; eauto.
      - destruct (nse_i_am_spec _ _ _ _ _ _ _ Ew) as (A1 & A2 & _ & Hnf & Hnu).
        do 2 (split; [congruence|]). split; [exact Hnf|]. split; [rewrite (count_up_none _ Hnu); lia|].
        intros j d q Hin. destruct (nse_i_am_tx _ _ _ _ _ _ _ _ _ _ Ew Hin) as [Hx|(d' & l & Hl & Hq)]; [left; assumption|].
        right. exists d', l. rewrite L3 in Hl. auto. }
    destruct Hfacts as (F1 & F2 & F3). do 2 (split; [assumption|]).
    exists head, (fwd_tail n' i ai src p fw). do 2 (split; [assumption|]).
    destruct (fwd_tail_cases n' i ai src p fw) as [E|(dd & Hd & E)]; [left; exact E|right; exists ai, dd; auto].
Qed.

Lemma process_npdu_adapters : forall n i src dst p n' acts,
  process_npdu n i src dst p = (n', acts) -> adapters n' = adapters n.
Proof. intros n i src dst p n' acts H. exact (proj1 (process_npdu_split _ _ _ _ _ _ _ H)). Qed.

Lemma process_npdu_fwd_origin : forall n i src dst p n' acts j d q,
  process_npdu n i src dst p = (n', acts) -> In (Fwd j d q) acts ->
  exists ai dd, nth_adapter n i = Some ai /\ n_dadr p = Some dd /\
                In (Fwd j d q) (forward n' i ai src p dd).
Proof.
  intros n i src dst p n' acts j d q H Hin.
  destruct (process_npdu_split _ _ _ _ _ _ _ H) as (_ & _ & head & tail & E & (Hnf & _) & Ht). subst acts.
  apply in_app_or in Hin. destruct Hin as [Hin|Hin]; [exfalso; eapply Hnf; eauto|].
  destruct Ht as [Ht|(ai & dd & A & B & C)]; subst tail; [inversion Hin|eauto].
Qed.

Lemma process_npdu_up_once : forall n i src dst p n' acts,
  process_npdu n i src dst p = (n', acts) -> (count_up acts <= 1)%nat.
Proof.
  intros n i src dst p n' acts H.
  destruct (process_npdu_split _ _ _ _ _ _ _ H) as (_ & _ & head & tail & E & (_ & Hc & _) & Ht). subst acts.
  rewrite count_up_app. enough (count_up tail = 0%nat) by lia.
  destruct Ht as [Ht|(ai & dd & A & B & C)]; subst tail; [reflexivity|]. apply count_up_none. apply forward_no_up.
Qed.

Lemma process_npdu_tx : forall n i src dst p n' acts j d q,
  process_npdu n i src dst p = (n', acts) -> In (Tx j d q) acts -> n_msg q <> None \/ parked n q.
Proof.
  intros n i src dst p n' acts j d q H Hin.
  destruct (process_npdu_split _ _ _ _ _ _ _ H) as (_ & _ & head & tail & E & (_ & _ & Htx) & Ht). subst acts.
  apply in_app_or in Hin. destruct Hin as [Hin|Hin]; [eauto|].
  destruct Ht as [Ht|(ai & dd & A & B & C)]; subst tail; [inversion Hin|].
  left. apply forward_tx in Hin. destruct Hin as [Hx _]. rewrite Hx. discriminate.
Qed.

Lemma thm_fanout : forall n i src dst p n' acts,
  process_npdu n i src dst p = (n', acts) -> (length (filter is_fwd acts) <= S (length (adapters n)))%nat.
Proof.
  intros n i src dst p n' acts H.
  destruct (process_npdu_split _ _ _ _ _ _ _ H) as (Had & _ & head & tail & E & (Hnf & _) & Ht). subst acts.
  rewrite filter_app, (no_fwd_filter _ Hnf). cbn [app].
  destruct Ht as [Ht|(ai & dd & _ & _ & Ht)]; subst tail; [cbn; lia|].
  etransitivity; [apply filter_len_le|]. rewrite <- Had. apply forward_fanout.
Qed.

Definition act_frames (w : wnode) (a : action) : list frame :=
  match a with
  | Tx j d p | Fwd j d p =>
      match nth_error (w_ports w) j with Some (lan, m) => [mkFrame lan m d p] | None => [] end
  | _ => []
  end.
Definition act_obs (who : nat) (a : action) : list obs :=
  match a with
  | Up s d x => [OUp who s d x] | Raise e => [ORaise who e] | Unmodelled => [OUnmodelled who] | _ => []
  end.

Lemma emit_flat_map : forall w who acts,
  emit w who acts = (flat_map (act_frames w) acts, flat_map (act_obs who) acts).
Proof.
  intros w who. induction acts as [|a r IH]; cbn [emit flat_map]; [reflexivity|]. rewrite IH.
  destruct a; cbn [act_frames act_obs app]; try reflexivity;
    destruct (nth_error (w_ports w) port) as [[lan m]|]; reflexivity.
Qed.

Lemma emit_cons : forall w who a r,
  emit w who (a :: r) = (act_frames w a ++ fst (emit w who r), act_obs who a ++ snd (emit w who r)).
Proof. intros. rewrite !emit_flat_map. reflexivity. Qed.

Lemma submit_one_frame : forall w who wn dest data n' j d p lan m,
  nth_error (nodes w) who = Some wn -> indication (w_node wn) dest data = (n', [Tx j d p]) ->
  nth_error (w_ports wn) j = Some (lan, m) ->
  submit w who dest data =
  mkWorld (set_nth (nodes w) who (mkW n' (w_ports wn))) (lans w) (queue w ++ [mkFrame lan m d p]) (trace w).
Proof.
  intros w who wn dest data n' j d p lan m Hw Hi Hj. unfold submit. rewrite Hw, Hi. cbn [emit w_ports]. rewrite Hj. reflexivity.
Qed.

(* what one member of the LAN does with a frame: the body of the loop of deliver *)
Definition member_out (ns : list wnode) (f : frame) (x : nat * nat) : option wnode * list frame * list obs :=
  match nth_error ns (fst x) with
  | None => (None, [], [])
  | Some w =>
      match nth_error (w_ports w) (snd x) with
      | None => (None, [], [])
      | Some (_, wmac) =>
          if accepts wmac f then
            let '(n', acts) := process_npdu (w_node w) (snd x) (f_src f) (f_dst f) (f_npdu f) in
            let '(fs, os) := emit (mkW n' (w_ports w)) (fst x) acts in
            (Some (mkW n' (w_ports w)), fs, os)
          else (None, [], [])
      end
  end.

Lemma deliver_cons : forall ns f x r q tr,
  deliver ns f (x :: r) q tr =
  match member_out ns f x with
  | (Some w', fs, os) => deliver (set_nth ns (fst x) w') f r (q ++ fs) (rev_append os tr)
  | (None, _, _) => deliver ns f r q tr
  end.
Proof.
  intros ns f [who port] r q tr. cbn [deliver]. unfold member_out. cbn [fst snd].
  destruct (nth_error ns who) as [w|]; [|reflexivity].
  destruct (nth_error (w_ports w) port) as [[lan wmac]|]; [|reflexivity].
  destruct (accepts wmac f); [|reflexivity].
  destruct (process_npdu (w_node w) port (f_src f) (f_dst f) (f_npdu f)) as [n' acts].
  destruct (emit (mkW n' (w_ports w)) who acts) as [fs os]. reflexivity.
Qed.

Lemma member_out_some : forall ns f x w' fs os, member_out ns f x = (Some w', fs, os) ->
  exists w lan wmac n' acts, nth_error ns (fst x) = Some w /\ nth_error (w_ports w) (snd x) = Some (lan, wmac) /\
    accepts wmac f = true /\ process_npdu (w_node w) (snd x) (f_src f) (f_dst f) (f_npdu f) = (n', acts) /\
    w' = mkW n' (w_ports w) /\ emit w' (fst x) acts = (fs, os).
Proof.
  intros ns f x w' fs os H. unfold member_out in H.
  destruct (nth_error ns (fst x)) as [w|] eqn:En; [|discriminate].
  destruct (nth_error (w_ports w) (snd x)) as [[lan wmac]|] eqn:Epo; [|discriminate].
  destruct (accepts wmac f) eqn:Eacc; [|discriminate].
  destruct (process_npdu (w_node w) (snd x) (f_src f) (f_dst f) (f_npdu f)) as [n' acts] eqn:Ep.
  destruct (emit (mkW n' (w_ports w)) (fst x) acts) as [fs0 os0] eqn:Ee. inversion H; subst.
  exists w, lan, wmac, n', acts. repeat split; auto.
Qed.

Definition out_frames (ns : list wnode) (f : frame) (x : nat * nat) : list frame := snd (fst (member_out ns f x)).
Definition out_obs (ns : list wnode) (f : frame) (x : nat * nat) : list obs := snd (member_out ns f x).

Lemma member_out_other : forall ns who w' f x, fst x <> who ->
  member_out (set_nth ns who w') f x = member_out ns f x.
Proof. intros. unfold member_out. rewrite set_nth_nth_other by auto. reflexivity. Qed.

Lemma member_out_none : forall ns f x fs os, member_out ns f x = (None, fs, os) -> fs = [] /\ os = [].
Proof.
  intros ns f x fs os H. unfold member_out in H.
  destruct (nth_error ns (fst x)) as [w|]; [|inversion H; auto].
  destruct (nth_error (w_ports w) (snd x)) as [[lan wmac]|]; [|inversion H; auto].
  destruct (accepts wmac f); [|inversion H; auto].
  destruct (process_npdu (w_node w) (snd x) (f_src f) (f_dst f) (f_npdu f)) as [n' acts].
  destruct (emit (mkW n' (w_ports w)) (fst x) acts). discriminate.
Qed.

Lemma deliver_as_map : forall members ns f q tr ns' q' tr',
  deliver ns f members q tr = (ns', q', tr') -> NoDup (map fst members) ->
  q' = q ++ flat_map (out_frames ns f) members /\
  tr' = rev (flat_map (out_obs ns f) members) ++ tr /\
  (forall who, ~ In who (map fst members) -> nth_error ns' who = nth_error ns who) /\
  (forall x, In x members ->
     nth_error ns' (fst x) = match fst (fst (member_out ns f x)) with Some w' => Some w' | None => nth_error ns (fst x) end).
Proof.
  induction members as [|x r IH]; intros ns f q tr ns' q' tr' H Hnd.
  - inversion H; subst. cbn. rewrite app_nil_r. repeat split; auto. intros x [].
  - rewrite deliver_cons in H. cbn [map] in Hnd. inversion Hnd as [|? ? Hnotin Hnd']; subst.
    assert (Hrest : forall y, In y r -> fst y <> fst x).
    { intros y Hy E. apply Hnotin. rewrite <- E. apply in_map. assumption. }
    cbn [flat_map]. unfold out_frames at 1, out_obs at 1.
    destruct (member_out ns f x) as [[[w'|] fs] os] eqn:Em; cbn [fst snd];
      destruct (IH _ _ _ _ _ _ _ H Hnd') as (A1 & A2 & A3 & A4).
    + (* x accepts the frame: the others see the same nodes as before, except x's *)
      rewrite (flat_map_ext_in (out_frames (set_nth ns (fst x) w') f) (out_frames ns f)) in A1
        by (intros y Hy; unfold out_frames; rewrite member_out_other by (apply Hrest; assumption); reflexivity).
      rewrite (flat_map_ext_in (out_obs (set_nth ns (fst x) w') f) (out_obs ns f)) in A2
        by (intros y Hy; unfold out_obs; rewrite member_out_other by (apply Hrest; assumption); reflexivity).
      destruct (member_out_some _ _ _ _ _ _ Em) as (w & _ & _ & _ & _ & En & _).
      repeat split.
      * rewrite A1, app_assoc. reflexivity.
      * rewrite A2, rev_append_rev, rev_app_distr, <- app_assoc. reflexivity.
      * intros z Hz. rewrite A3 by (intro Hin; apply Hz; right; assumption).
        apply set_nth_nth_other. intro E. apply Hz. left. auto.
      * intros y [Hy|Hy].
        -- subst y. rewrite Em. cbn [fst]. rewrite A3 by assumption. apply (set_nth_nth_same _ _ _ _ En).
        -- rewrite (A4 y Hy), member_out_other by (apply Hrest; assumption).
           destruct (fst (fst (member_out ns f y))); [reflexivity|].
           apply set_nth_nth_other. intro E. apply (Hrest y Hy). auto.
    + destruct (member_out_none _ _ _ _ _ Em); subst fs os. cbn [app]. repeat split; auto.
      * intros z Hz. apply A3. intro Hin. apply Hz. right. assumption.
      * intros y [Hy|Hy]; [subst y; rewrite Em; cbn [fst]; apply A3; assumption|apply A4; assumption].
Qed.

Lemma run_core : forall k w,
  (nodes (run k w), queue (run k w)) = erun (lans w) k (nodes w, queue w) /\ lans (run k w) = lans w.
Proof.
  induction k as [|k IH]; intro w; cbn [run erun]; [split; reflexivity|].
  unfold step. cbn [fst snd]. destruct (step_core (lans w) (nodes w) (queue w)) as [[[ns q'] os]|] eqn:E.
  - specialize (IH (mkWorld ns (lans w) q' (os ++ trace w))). cbn in IH. exact IH.
  - split; reflexivity.
Qed.

Lemma run_stuck : forall k w, step w = None -> run k w = w.
Proof. intros [|k] w H; cbn [run]; [reflexivity|rewrite H; reflexivity]. Qed.

Lemma run_quiet : forall k w, queue w = [] -> run k w = w.
Proof. intros k w H. apply run_stuck. unfold step, step_core. rewrite H. reflexivity. Qed.

Lemma run_add : forall a b w, run (a + b) w = run b (run a w).
Proof.
  induction a as [|a IH]; intros b w; cbn [run Nat.add]; [reflexivity|].
  destruct (step w) as [w'|] eqn:E; [apply IH|]. symmetry. apply run_stuck. assumption.
Qed.

Lemma quiet_forever : forall k w, queue (run k w) = [] -> forall k', (k <= k')%nat -> run k' w = run k w.
Proof. intros k w Hq k' Hk. replace k' with (k + (k' - k))%nat by lia. rewrite run_add. apply run_quiet. assumption. Qed.

Lemma step_cons : forall w f q,
  queue w = f :: q ->
  step w = let '(ns, q', os) := deliver (nodes w) f (lan_members (lans w) (f_lan f)) q [OFrame f] in
           Some (mkWorld ns (lans w) q' (os ++ trace w)).
Proof. intros w f q H. unfold step, step_core. rewrite H. destruct (deliver _ _ _ _ _) as [[ns q'] os]. reflexivity. Qed.

Lemma erun_stuck : forall lns k c, step_core lns (fst c) (snd c) = None -> erun lns k c = c.
Proof. intros lns [|k] c H; cbn [erun]; [reflexivity|rewrite H; reflexivity]. Qed.

Lemma erun_add : forall lns a b c, erun lns (a + b) c = erun lns b (erun lns a c).
Proof.
  induction a as [|a IH]; intros b c; cbn [erun Nat.add]; [reflexivity|].
  destruct (step_core lns (fst c) (snd c)) as [[[ns q'] os]|] eqn:E.
  - apply IH.
  - symmetry. apply erun_stuck. assumption.
Qed.

Lemma erun_period : forall lns m c, erun lns m c = c -> forall k, erun lns (k * m) c = c.
Proof.
  intros lns m c H. induction k as [|k IH]; [reflexivity|].
  cbn [Nat.mul]. rewrite erun_add, H. exact IH.
Qed.

Lemma lasso_never_quiet : forall lns m c,
  (0 < m)%nat -> erun lns m c = c ->
  (forall b, (b < m)%nat -> snd (erun lns b c) <> []) ->
  forall k, snd (erun lns k c) <> [].
Proof.
  intros lns m c Hm Hp Hq k.
  rewrite (Nat.div_mod k m) by lia. rewrite (Nat.mul_comm m (k / m)).
  rewrite erun_add, erun_period by assumption.
  apply Hq. apply Nat.mod_upper_bound. lia.
Qed.

(* three routers in a ring (networks 1,2,3; one station each); station 3 = the one on network 1 *)
Definition ring3 : world :=
  mkWorld
    [mkW (mkNode [mkAd (Some 1) (Some [101]); mkAd (Some 2) (Some [101])] false [] []) [(1, [101]); (2, [101])];
     mkW (mkNode [mkAd (Some 2) (Some [102]); mkAd (Some 3) (Some [102])] false [] []) [(2, [102]); (3, [102])];
     mkW (mkNode [mkAd (Some 3) (Some [103]); mkAd (Some 1) (Some [103])] false [] []) [(3, [103]); (1, [103])];
     mkW (mkNode [mkAd (Some 1) (Some [1])] true [] []) [(1, [1])];
     mkW (mkNode [mkAd (Some 2) (Some [1])] true [] []) [(2, [1])];
     mkW (mkNode [mkAd (Some 3) (Some [1])] true [] []) [(3, [1])]]
    [(1, [(0, 0); (2, 1); (3, 0)]%nat); (2, [(0, 1); (1, 0); (4, 0)]%nat); (3, [(1, 1); (2, 0); (5, 0)]%nat)]
    [] [].

Definition ring3_send : world := submit ring3 3 (ARS 3 [1]) [16; 99; 7].

Lemma ring3_lasso :
  let c9 := erun (lans ring3) 9 (nodes ring3_send, queue ring3_send) in
  erun (lans ring3) 3 c9 = c9 /\
  forallb (fun b => negb (Nat.eqb (length (snd (erun (lans ring3) b c9))) 0)) (seq 0 3) = true /\
  forallb (fun b => negb (Nat.eqb (length (snd (erun (lans ring3) b (nodes ring3_send, queue ring3_send)))) 0)) (seq 0 9) = true.
Proof. vm_compute. repeat split; reflexivity. Qed.

Lemma ring3_never_quiet : forall k, queue (run k ring3_send) <> [].
Proof.
  intro k. destruct (run_core k ring3_send) as [Hc _].
  assert (Hq : queue (run k ring3_send) = snd (erun (lans ring3_send) k (nodes ring3_send, queue ring3_send)))
    by (rewrite <- Hc; reflexivity).
  rewrite Hq. change (lans ring3_send) with (lans ring3).
  destruct ring3_lasso as (Hp & Hb & Ha).
  destruct (Nat.lt_ge_cases k 9) as [Hk|Hk].
  - pose proof (forall_lt_forallb _ _ Ha k Hk) as H. cbn beta in H.
    intro E. rewrite E in H. discriminate.
  - replace k with (9 + (k - 9))%nat by lia. rewrite erun_add.
    apply (lasso_never_quiet (lans ring3) 3); [lia|exact Hp|].
    intros b Hb'. pose proof (forall_lt_forallb _ _ Hb b Hb') as H. cbn beta in H.
    intro E. rewrite E in H. discriminate.
Qed.

(* the payload itself is delivered exactly once, to the addressee, during the first steps *)
Lemma ring3_payload_delivered :
  filter (fun o => match o with OUp _ _ _ _ => true | _ => false end) (trace (run 12 ring3_send))
  = [OUp 5 (ARS 1 [1]) (ALS [1]) [16; 99; 7]].
Proof. vm_compute. reflexivity. Qed.

Definition pending_wf (p : list (N * list npdu)) : Prop := NoDup (map fst p).

Lemma pending_add_keys : forall p d x k, In k (map fst (pending_add p d x)) <-> k = d \/ In k (map fst p).
Proof.
  induction p as [|[k0 l0] r IH]; cbn; intros d x k.
  - split; [intros [H|[]]; auto|intros [H|[]]; auto].
  - destruct (N.eqb_spec k0 d); cbn.
    + subst. split; [intros [H|H]; auto|intros [H|[H|H]]; auto].
    + rewrite IH. split; [intros [H|[H|H]]; auto|intros [H|[H|H]]; auto].
Qed.

Lemma pending_add_wf : forall p d x, pending_wf p -> pending_wf (pending_add p d x).
Proof.
  unfold pending_wf. induction p as [|[k0 l0] r IH]; cbn; intros d x H.
  - constructor; [intros []|constructor].
  - inversion H; subst. destruct (N.eqb_spec k0 d); cbn.
    + constructor; assumption.
    + constructor; [|apply IH; assumption].
      intro Hin. apply pending_add_keys in Hin. destruct Hin as [Hin|Hin]; [congruence|contradiction].
Qed.

Lemma pending_del_keys : forall p d k, In k (map fst (pending_del p d)) -> In k (map fst p).
Proof.
  induction p as [|[k0 l0] r IH]; cbn; intros d k H; [assumption|].
  destruct (k0 =? d); cbn in *; [right; assumption|].
  destruct H as [H|H]; [left; assumption|right; eapply IH; eauto].
Qed.

Lemma pending_del_wf : forall p d, pending_wf p -> pending_wf (pending_del p d).
Proof.
  unfold pending_wf. induction p as [|[k0 l0] r IH]; cbn; intros d H; [constructor|].
  inversion H; subst. destruct (k0 =? d); cbn; [assumption|].
  constructor; [|apply IH; assumption]. intro Hin. apply pending_del_keys in Hin. contradiction.
Qed.

Lemma pending_get_none : forall p d, ~ In d (map fst p) -> pending_get p d = None.
Proof.
  induction p as [|[k0 l0] r IH]; cbn; intros d H; [reflexivity|].
  destruct (N.eqb_spec k0 d); [exfalso; apply H; left; assumption|].
  apply IH. intro Hin. apply H. right. assumption.
Qed.

Lemma pending_get_del_same : forall p d, pending_wf p -> pending_get (pending_del p d) d = None.
Proof.
  unfold pending_wf. induction p as [|[k0 l0] r IH]; cbn; intros d H; [reflexivity|].
  inversion H; subst. destruct (N.eqb_spec k0 d); cbn.
  - subst. apply pending_get_none. assumption.
  - destruct (N.eqb_spec k0 d); [contradiction|]. apply IH. assumption.
Qed.

Lemma release_wf : forall nets pend i src pend' acts,
  release pend i src nets = (pend', acts) -> pending_wf pend -> pending_wf pend'.
Proof.
  induction nets as [|d r IH]; intros pend i src pend' acts H Hwf; cbn [release] in H.
  - inversion H; subst. assumption.
  - destruct (pending_get pend d) as [l|].
    + destruct (release (pending_del pend d) i src r) as [pe ac] eqn:Er. inversion H; subst.
      eapply IH; eauto. apply pending_del_wf. assumption.
    + eapply IH; eauto.
Qed.

Lemma dec_i_am_many : forall nets, Forall (fun d => d < 65536) nets -> dec_i_am (flat_map put_short nets) = Ok nets.
Proof.
  induction nets as [|d r IH]; intro H; [reflexivity|]. inversion H; subst.
  cbn [flat_map]. unfold put_short at 1, be2. cbn [app dec_i_am]. rewrite (IH H3). cbn [bind]. f_equal. f_equal.
  rewrite (N.mod_small d 65536), (N.mod_small (d / 256)) by (try apply N.div_lt_upper_bound; lia).
  rewrite N.mul_comm. symmetry. apply N.div_mod. discriminate.
Qed.

Lemma process_npdu_i_am : forall n i ai src dst nets,
  nth_adapter n i = Some ai -> modelled_config n = true -> Forall (fun d => d < 65536) nets ->
  process_npdu n i src dst (i_am nets) = nse_i_am n i ai src nets.
Proof.
  intros n i ai src dst nets Ha Hm Hn. rewrite process_npdu_unfold, Ha, Hm.
  unfold spoofed, decision, learn_sadr, fwd_tail. cbn [negb i_am n_sadr n_dadr n_msg n_data].
  rewrite orb_true_r, (dec_i_am_many nets Hn). cbn [known_msg N.leb N.compare negb orb N.eqb Pos.eqb].
  destruct (nse_i_am n i ai src nets) as [n2 acts]. rewrite app_nil_r. reflexivity.
Qed.

Lemma release_nil : forall nets i src, release [] i src nets = ([], []).
Proof. induction nets as [|d r IH]; intros; cbn [release pending_get]; [reflexivity|apply IH]. Qed.

Lemma process_npdu_i_am_none_parked : forall n i ai src dst nets,
  nth_adapter n i = Some ai -> modelled_config n = true -> pending n = [] -> Forall (fun d => d < 65536) nets ->
  process_npdu n i src dst (i_am nets) =
    (set_pending (set_cache n (cache_update (rcache n) (a_net ai) src nets)) [],
     if is_router n then map (fun j => Tx j LBcast (i_am nets)) (other_ports n i) else []).
Proof.
  intros n i ai src dst nets Ha Hm Hp Hn. rewrite (process_npdu_i_am _ _ _ _ _ _ Ha Hm Hn).
  unfold nse_i_am. cbn [pending set_cache]. rewrite Hp, release_nil, app_nil_r. reflexivity.
Qed.

Lemma i_am_releases_parked : forall n i ai src dst d l n' acts,
  nth_adapter n i = Some ai -> modelled_config n = true -> d < 65536 ->
  pending_wf (pending n) -> pending_get (pending n) d = Some l ->
  process_npdu n i src dst (i_am [d]) = (n', acts) ->
  acts = (if is_router n then map (fun j => Tx j LBcast (i_am [d])) (other_ports n i) else [])
         ++ map (fun q => Tx i (LStation src) q) l
  /\ pending_get (pending n') d = None /\ pending_wf (pending n').
Proof.
  intros n i ai src dst d l n' acts Ha Hm Hd Hwf Hg H.
  rewrite (process_npdu_i_am _ _ _ _ _ _ Ha Hm) in H by (constructor; [exact Hd|constructor]).
  unfold nse_i_am in H. cbn [release pending set_cache] in H. rewrite Hg in H.
  inversion H; subst; clear H. cbn [pending set_pending].
  rewrite !app_nil_r. repeat split.
  - apply pending_get_del_same. assumption.
  - apply pending_del_wf. assumption.
Qed.

Lemma find_path_from_sound : forall l k c dnet j m,
  find_path_from l k c dnet = Some (j, m) ->
  exists a, nth_error l (j - k) = Some a /\ (k <= j)%nat /\ cache_get c (a_net a) dnet = Some m.
Proof.
  induction l as [|a r IH]; cbn; intros k c dnet j m H; [discriminate|].
  destruct (cache_get c (a_net a) dnet) as [m'|] eqn:E.
  - inversion H; subst. exists a. rewrite Nat.sub_diag. cbn. auto.
  - apply IH in H. destruct H as [a' [H1 [H2 H3]]]. exists a'.
    replace (j - k)%nat with (S (j - S k)) by lia. cbn. split; [assumption|split; [lia|assumption]].
Qed.

Lemma find_path_sound : forall n dnet j m, find_path n dnet = Some (j, m) ->
  exists a, nth_adapter n j = Some a /\ cache_get (rcache n) (a_net a) dnet = Some m.
Proof.
  intros n dnet j m H. apply find_path_from_sound in H. destruct H as [a [H1 [_ H3]]].
  rewrite Nat.sub_0_r in H1. exists a. split; assumption.
Qed.

Lemma thm_hop_decrement : forall n i src dst p n' acts j d q,
  process_npdu n i src dst p = (n', acts) -> In (Fwd j d q) acts ->
  n_hop p <> 0 /\ n_hop q + 1 = n_hop p /\ n_data q = n_data p /\ n_msg q = n_msg p.
Proof.
  intros. destruct (process_npdu_fwd_origin _ _ _ _ _ _ _ _ _ _ H H0) as (ai & dd & _ & _ & Hf).
  apply forward_fwd in Hf. destruct Hf as (inet & Hh & _ & [Hq|Hq] & _); subst q; cbn; repeat split; auto; lia.
Qed.

Lemma thm_not_back : forall n i src dst p n' acts j d q,
  process_npdu n i src dst p = (n', acts) -> In (Fwd j d q) acts ->
  j <> i \/
  exists ai dnet m, nth_adapter n' i = Some ai /\
    (n_dadr p = Some (DBcast dnet) \/ exists mm, n_dadr p = Some (DStation dnet mm)) /\
    find_net n' (Some dnet) = None /\ cache_get (rcache n') (a_net ai) dnet = Some m /\
    d = LStation m /\ n_dadr q = n_dadr p.
Proof.
  intros. destruct (process_npdu_fwd_origin _ _ _ _ _ _ _ _ _ _ H H0) as (ai & dd & Ha & Hd & Hf).
  apply forward_fwd in Hf. destruct Hf as (inet & _ & _ & _ & [Hj|Hj]); [left; assumption|right].
  destruct Hj as (dnet & m & Ht & Hn & Hp & Hdd & Hq).
  apply find_path_sound in Hp. destruct Hp as [a [Hna Hc]].
  exists a, dnet, m. subst q. repeat split; auto.
  destruct dd as [|x|x mm]; inversion Ht; subst; [left; assumption|right; exists mm; assumption].
Qed.

Lemma thm_lan_unicast : forall wmac f m, f_dst f = LStation m -> accepts wmac f = true -> wmac = m.
Proof. intros wmac f m Hd H. unfold accepts in H. rewrite Hd in H. apply mac_eqb_eq in H. congruence. Qed.

Lemma thm_lan_no_echo : forall wmac f, f_dst f = LBcast -> f_src f = wmac -> accepts wmac f = false.
Proof. intros wmac f Hd Hs. unfold accepts. rewrite Hd, Hs, mac_eqb_refl. reflexivity. Qed.
