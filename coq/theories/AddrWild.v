(* AddrWild.v — which constructor ARGUMENTS denote the two route-free wildcard addresses.
   The tests `addr == "*"` / `addr == "*:*"` at the head of decode_address (pdu.py:99-107) are reached
   by every argument type.  Here: only the literal texts "*" / "*:*" (optionally followed by the one
   newline `$` tolerates) and an Address object that already IS that broadcast are read as the
   local / global broadcast; ints, raw octets and (host, port) tuples never are — whatever their
   content, in particular the octets 0x2A ("*") and 0x2A 0x3A 0x2A ("*:*"). *)
From Bac Require Import Base Addr AddrFacts AddrParse.
Open Scope N_scope.

Definition non_text (a : arg) : bool :=
  match a with AInt _ | ABytes _ | ATuple _ _ => true | _ => false end.

Lemma non_text_station a x : non_text a = true -> decode_address a = Ok x ->
  ty x = ALocalStation /\ net x = None /\ route x = None /\ exists m, mac x = Some m.
Proof.
  destruct a as [z|l|s|h port|y|]; cbn [non_text]; try discriminate; intros _ H; cbn [decode_address] in H.
  - destruct ((z <? 0)%Z || (256 <=? z)%Z); [discriminate|]. injection H as <-. cbn. eauto.
  - injection H as <-. cbn. eauto.
  - destruct (ip_from_tuple h port) as [p|e]; cbn [bind] in H; [|discriminate]. injection H as <-. cbn. eauto.
Qed.

Lemma octets_key l x : decode_address (ABytes l) = Ok x -> key x = (ALocalStation, None, Some l) /\ route x = None.
Proof. cbn [decode_address]. intro H. injection H as <-. split; reflexivity. Qed.

Lemma addr_object_inv y x : decode_address (AAddr y) = Ok x ->
  (x = bcast_local \/ x = bcast_global) /\ key y = key x /\ eqb y x = true.
Proof.
  cbn [decode_address]. intro H.
  destruct (eqb y bcast_local) eqn:E1.
  - injection H as <-. split; [now left|]. split; [|exact E1]. apply eqb_key; [now right|exact E1].
  - destruct (eqb y bcast_global) eqn:E2; [|discriminate].
    injection H as <-. split; [now right|]. split; [|exact E2]. apply eqb_key; [now right|exact E2].
Qed.
Lemma addr_object_refused y : ty y <> ALocalBroadcast -> ty y <> AGlobalBroadcast ->
  decode_address (AAddr y) = Err TypeErr.
Proof.
  intros H1 H2. cbn [decode_address].
  destruct (eqb y bcast_local) eqn:E1.
  { apply eqb_key in E1; [|now right]. apply key_eq in E1 as [T _]. destruct (H1 T). }
  destruct (eqb y bcast_global) eqn:E2; [|reflexivity].
  apply eqb_key in E2; [|now right]. apply key_eq in E2 as [T _]. destruct (H2 T).
Qed.

Lemma addr_kind_bcast p c tn : addr_kind p c = Ok tn ->
  (fst tn = ALocalBroadcast -> p = PNone /\ c = CBcast) /\ (fst tn = AGlobalBroadcast -> p = PStar /\ c = CBcast).
Proof.
  destruct p as [|n|], c as [|f|h m pp]; cbn [addr_kind]; try (destruct (net_check n); cbn [bind]); try discriminate;
    intro H; injection H as <-; cbn [fst]; split; (discriminate || auto).
Qed.

Lemma route_of_none r : route_of r = Ok None -> r = RNone.
Proof.
  destruct r as [|f|h pp]; cbn [route_of]; [reflexivity| |].
  - destruct (field_mac f); cbn [bind]; discriminate.
  - destruct (ip_from_tuple _ _); cbn [bind]; discriminate.
Qed.

Lemma matched_bcast p c r x : decode_matched p c r = Ok x -> route x = None ->
  (ty x = ALocalBroadcast -> p = PNone /\ c = CBcast /\ r = RNone) /\
  (ty x = AGlobalBroadcast -> p = PStar /\ c = CBcast /\ r = RNone).
Proof.
  unfold decode_matched. destruct (addr_kind p c) as [tn|e] eqn:Etn; cbn [bind]; [|discriminate].
  destruct (core_mac c) as [mi|e]; cbn [bind]; [|discriminate].
  destruct (route_of r) as [ro|e] eqn:Ero; cbn [bind]; [|discriminate].
  intro H. injection H as <-. cbn [route ty]. intros ->. apply route_of_none in Ero.
  destruct (addr_kind_bcast p c tn Etn) as [L G]. split; intro Ht; [destruct (L Ht)|destruct (G Ht)]; auto.
Qed.

Lemma legacy_not_bcast s x : decode_legacy s = Ok x -> ty x = ALocalStation \/ ty x = ARemoteStation.
Proof.
  unfold decode_legacy. cbv zeta. destruct (is_ethernet (strip_nl s)).
  { destruct (xtob s); cbn [bind]; [|discriminate]. intro H. injection H as <-. now left. }
  destruct (is_oldhex (strip_nl s)).
  { destruct (xtob _); cbn [bind]; [|discriminate]. intro H. injection H as <-. now left. }
  destruct (split_at 58 (strip_nl s)) as [[n y]|]; [|discriminate].
  destruct (split_at 58 s) as [[n' xs]|]; [|discriminate].
  destruct (digits n && is_oldhex y); [|discriminate].
  destruct (net_check n); cbn [bind]; [|discriminate].
  destruct (xtob _); cbn [bind]; [|discriminate]. intro H. injection H as <-. now right.
Qed.

(* a text is read as the route-free local broadcast only if it is "*" (or "*\n"), as the route-free
   global broadcast only if it is "*:*" (or "*:*\n") *)
Lemma text_bcast_inv s x : decode_str s = Ok x -> route x = None ->
  (ty x = ALocalBroadcast -> s = [42] \/ s = [42; 10]) /\
  (ty x = AGlobalBroadcast -> s = [42; 58; 42] \/ s = [42; 58; 42; 10]).
Proof.
  rewrite decode_str_combined. destruct (match_combined (strip_nl s)) as [[[p c] r]|] eqn:Em.
  - intros H Hr. destruct (matched_bcast p c r x H Hr) as [L G].
    split; intro Ht; [destruct (L Ht) as (-> & -> & ->)|destruct (G Ht) as (-> & -> & ->)];
      apply match_combined_inv in Em as (cs & E & Hc); apply match_core_bcast in Hc; subst cs; cbn [with_pfx] in E;
      destruct (strip_nl_cases s) as [Es|Es]; rewrite E in Es; auto.
  - intros H _. apply legacy_not_bcast in H. split; intro Ht; destruct H as [H|H]; congruence.
Qed.

(* every argument: the route-free local (global) broadcast is denoted only by the text "*" ("*:*"),
   optionally followed by one newline, or by an Address object that == it *)
Definition is_wild_text (w : str) (a : arg) : Prop := a = AStr w \/ a = AStr (w ++ [10]).
Lemma broadcast_arguments a x : decode_address a = Ok x -> route x = None ->
  (ty x = ALocalBroadcast -> is_wild_text [42] a \/ exists y, a = AAddr y /\ key y = key bcast_local) /\
  (ty x = AGlobalBroadcast -> is_wild_text [42; 58; 42] a \/ exists y, a = AAddr y /\ key y = key bcast_global).
Proof.
  intros H Hr. destruct a as [z|l|s|h port|y|].
  - destruct (non_text_station (AInt z) x eq_refl H) as (T & _). split; congruence.
  - destruct (non_text_station (ABytes l) x eq_refl H) as (T & _). split; congruence.
  - cbn [decode_address] in H. destruct (text_bcast_inv s x H Hr) as [L G]. unfold is_wild_text.
    split; intro Ht; left; [destruct (L Ht) as [->| ->]|destruct (G Ht) as [->| ->]]; auto.
  - destruct (non_text_station (ATuple h port) x eq_refl H) as (T & _). split; congruence.
  - destruct (addr_object_inv y x H) as ([->| ->] & K & _); split; intro Ht; try discriminate; right; eauto.
  - discriminate.
Qed.

Lemma wild_texts_accepted :
  decode_address (AStr [42]) = Ok bcast_local /\ decode_address (AStr [42; 10]) = Ok bcast_local /\
  decode_address (AStr [42; 58; 42]) = Ok bcast_global /\ decode_address (AStr [42; 58; 42; 10]) = Ok bcast_global.
Proof. vm_compute. repeat split. Qed.
Lemma wild_objects_accepted y :
  (key y = key bcast_local -> decode_address (AAddr y) = Ok bcast_local) /\
  (key y = key bcast_global -> decode_address (AAddr y) = Ok bcast_global).
Proof.
  split; intro K; cbn [decode_address].
  - assert (E : eqb y bcast_local = true) by (apply eqb_key; [now right|exact K]). now rewrite E.
  - assert (E : eqb y bcast_global = true) by (apply eqb_key; [now right|exact K]).
    destruct (eqb y bcast_local) eqn:E1; [|now rewrite E].
    apply eqb_key in E1; [|now right]. rewrite K in E1. discriminate.
Qed.
