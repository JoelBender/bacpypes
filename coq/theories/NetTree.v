(* NetTree.v — loop-free internetworks with warm caches: a unicast / remote broadcast follows a consistent route
   there (the link between "tree with correct routing tables" and NetArrive.arrives / NetBcast.bcast_arrives), hence
   is delivered exactly once (tree_remote_broadcast_once here, tree_unicast_once in NetRound.v).  Lemmas about
   Net.v (property C06). *)
From Bac Require Import Base ListFacts Net NetFacts NetOnce NetRoute NetArrive NetLocal NetBcast.
Open Scope N_scope.

Definition ad_of (pm : N * mac) : adapter := mkAd (Some (fst pm)) (Some (snd pm)).

Definition router_shape (w : wnode) : Prop :=
  (2 <= length (w_ports w))%nat /\ NoDup (map fst (w_ports w)) /\
  adapters (w_node w) = map ad_of (w_ports w) /\ has_app (w_node w) = false.

Definition station_shape (w : wnode) : Prop :=
  exists lan m a, w_ports w = [(lan, m)] /\ adapters (w_node w) = [a] /\
                  (a_net a = None \/ a_net a = Some lan) /\ has_app (w_node w) = true.

Record station_at (ns : list wnode) (who : nat) (w : wnode) (lan : N) (m : mac) (a : adapter) : Prop := {
  sa_node : nth_error ns who = Some w;
  sa_ports : w_ports w = [(lan, m)];
  sa_adapters : adapters (w_node w) = [a];
  sa_net : a_net a = None \/ a_net a = Some lan;
  sa_app : has_app (w_node w) = true
}.

Lemma station_at_shape : forall ns who w lan m a, station_at ns who w lan m a -> station_shape w.
Proof. intros ns who w lan m a [_ Hp Ha Hn Hh]. exists lan, m, a. auto. Qed.

Lemma router_nth_adapter : forall w p lan m, router_shape w -> nth_error (w_ports w) p = Some (lan, m) ->
  nth_adapter (w_node w) p = Some (mkAd (Some lan) (Some m)).
Proof.
  intros w p lan m (_ & _ & Ha & _) Hp. unfold nth_adapter. rewrite Ha, nth_error_map, Hp. reflexivity.
Qed.

Lemma router_is_router : forall w, router_shape w -> is_router (w_node w) = true.
Proof.
  intros w (Hl & _ & Ha & _). unfold is_router. rewrite Ha, map_length.
  destruct (length (w_ports w)) as [|[|k]]; try lia; try reflexivity.
Qed.

Lemma router_modelled : forall w, router_shape w -> modelled_config (w_node w) = true.
Proof.
  intros w (Hl & _ & Ha & _). unfold modelled_config. rewrite Ha.
  destruct (w_ports w) as [|a [|b l]]; cbn [length] in Hl; try lia. cbn [map].
  change (forallb (fun a0 => match a_net a0 with Some _ => true | None => false end) (map ad_of (a :: b :: l)) = true).
  apply forallb_forall. intros x Hx. apply in_map_iff in Hx. destruct Hx as [pm [E _]]. subst x. reflexivity.
Qed.

Lemma find_net_from_map_none : forall ports k L, ~ In L (map fst ports) ->
  find_net_from (map ad_of ports) k (Some L) = None.
Proof.
  induction ports as [|[l m] r IH]; intros k L H; cbn; [reflexivity|].
  destruct (N.eqb_spec l L); [exfalso; apply H; left; assumption|]. apply IH. intro Hin. apply H. right. assumption.
Qed.

Lemma find_net_from_map_some : forall ports k L j m, NoDup (map fst ports) -> nth_error ports j = Some (L, m) ->
  find_net_from (map ad_of ports) k (Some L) = Some (k + j)%nat.
Proof.
  induction ports as [|[l m0] r IH]; intros k L j m Hnd Hj; [destruct j; discriminate|].
  cbn [map fst] in Hnd. inversion Hnd; subst. cbn [map find_net_from ad_of fst snd a_net optN_eqb].
  destruct j as [|j]; cbn in Hj.
  - inversion Hj; subst. rewrite N.eqb_refl. f_equal. lia.
  - destruct (N.eqb_spec l L).
    + exfalso. subst l. apply H1. apply nth_error_In in Hj. apply (in_map fst) in Hj. exact Hj.
    + rewrite (IH (S k) L j m H2 Hj). f_equal. lia.
Qed.

Lemma router_find_net_some : forall w j L m, router_shape w -> nth_error (w_ports w) j = Some (L, m) ->
  find_net (w_node w) (Some L) = Some j.
Proof.
  intros w j L m (_ & Hnd & Ha & _) Hj. unfold find_net. rewrite Ha.
  rewrite (find_net_from_map_some _ 0 L j m Hnd Hj). reflexivity.
Qed.

Lemma router_find_net_none : forall w L, router_shape w -> ~ In L (map fst (w_ports w)) ->
  find_net (w_node w) (Some L) = None.
Proof. intros w L (_ & _ & Ha & _) H. unfold find_net. rewrite Ha. apply find_net_from_map_none. assumption. Qed.

Lemma router_local_adapter : forall w, router_shape w ->
  exists x lan m, nth_error (w_ports w) x = Some (lan, m) /\
                  nth_adapter (w_node w) (local_idx (w_node w)) = Some (mkAd (Some lan) (Some m)).
Proof.
  intros w Hr. pose proof Hr as (Hl & _ & Ha & _).
  assert (Hne : adapters (w_node w) <> []).
  { rewrite Ha. destruct (w_ports w); cbn in *; [lia|discriminate]. }
  pose proof (local_idx_lt (w_node w) Hne) as Hlt. rewrite Ha, map_length in Hlt.
  destruct (nth_error (w_ports w) (local_idx (w_node w))) as [[lan m]|] eqn:E.
  - exists (local_idx (w_node w)), lan, m. split; [assumption|]. apply router_nth_adapter; assumption.
  - apply nth_error_None in E. lia.
Qed.

Definition port_of (ns : list wnode) (x : nat * nat) : option (N * mac) :=
  match nth_error ns (fst x) with Some w => nth_error (w_ports w) (snd x) | None => None end.

Lemma port_of_intro : forall {ns who p w y},
  nth_error ns who = Some w -> nth_error (w_ports w) p = Some y -> port_of ns (who, p) = Some y.
Proof. intros ns who p w y Hw Hp. unfold port_of. cbn [fst snd]. rewrite Hw. exact Hp. Qed.

Lemma port_of_station : forall {ns who w y}, nth_error ns who = Some w -> w_ports w = [y] -> port_of ns (who, 0%nat) = Some y.
Proof. intros ns who w y Hw Hp. apply (port_of_intro Hw). rewrite Hp. reflexivity. Qed.

Lemma port_of_inv : forall {ns x y}, port_of ns x = Some y ->
  exists w, nth_error ns (fst x) = Some w /\ nth_error (w_ports w) (snd x) = Some y.
Proof. intros ns x y H. unfold port_of in H. destruct (nth_error ns (fst x)) as [w|]; [eauto|discriminate]. Qed.

Definition inhabited (ns : list wnode) (L : N) : Prop := exists x m, port_of ns x = Some (L, m).

Lemma port_mac_of : forall ns x, port_mac ns x = option_map snd (port_of ns x).
Proof.
  intros ns x. unfold port_mac, port_of. destruct (nth_error ns (fst x)) as [w|]; [|reflexivity].
  destruct (nth_error (w_ports w) (snd x)) as [[lan m]|]; reflexivity.
Qed.

Lemma port_of_mac : forall ns x lan m, port_of ns x = Some (lan, m) -> port_mac ns x = Some m.
Proof. intros ns x lan m H. rewrite port_mac_of, H. reflexivity. Qed.

Record internet_ok (lns : list (N * list (nat * nat))) (ns : list wnode) : Prop := {
  io_members : forall lan x, In x (lan_members lns lan) -> exists m, port_of ns x = Some (lan, m);
  io_listed : forall x lan m, port_of ns x = Some (lan, m) -> In x (lan_members lns lan);
  io_macs : forall lan, NoDup (map (port_mac ns) (lan_members lns lan));
  io_once : forall lan, NoDup (map fst (lan_members lns lan));
  io_shape : forall who w, nth_error ns who = Some w -> router_shape w \/ station_shape w
}.

Arguments io_members {lns ns}.
Arguments io_listed {lns ns}.
Arguments io_macs {lns ns}.
Arguments io_once {lns ns}.
Arguments io_shape {lns ns}.

(* loop-free, seen from network d: every LAN has a level (router hops to d), every router has exactly one port
   towards d (`up`), its other ports lead one level away from d, and every LAN other than d has a router port
   (`par`) leading towards d.  warm towards d: every router not attached to d has, as its path to d, the `par`
   port of its up-network. *)
Record tree_to (lns : list (N * list (nat * nat))) (ns : list wnode) (d : N)
               (lv : N -> nat) (up : nat -> nat) (par : N -> nat * nat) : Prop := {
  tt_root : lv d = 0%nat;
  tt_router : forall who w, nth_error ns who = Some w -> router_shape w ->
      exists lu mu, nth_error (w_ports w) (up who) = Some (lu, mu) /\
        (lv lu = 0%nat -> lu = d) /\
        (forall p lp mp, nth_error (w_ports w) p = Some (lp, mp) -> p <> up who -> lv lp = S (lv lu)) /\
        (lv lu <> 0%nat -> exists pm, port_mac ns (par lu) = Some pm /\ find_path (w_node w) d = Some (up who, pm));
  tt_parent : forall L, (exists x m, port_of ns x = Some (L, m)) -> lv L <> 0%nat ->
      In (par L) (lan_members lns L) /\
      exists w, nth_error ns (fst (par L)) = Some w /\ router_shape w /\ snd (par L) <> up (fst (par L))
}.

Arguments tt_root {lns ns d lv up par}.
Arguments tt_router {lns ns d lv up par}.
Arguments tt_parent {lns ns d lv up par}.

(* node states that differ only in what was learned about networks other than d *)
Definition node_sim (d : N) (w w' : wnode) : Prop :=
  w_ports w' = w_ports w /\ adapters (w_node w') = adapters (w_node w) /\
  has_app (w_node w') = has_app (w_node w) /\ find_path (w_node w') d = find_path (w_node w) d.

Definition sim (d : N) (ns ns' : list wnode) : Prop :=
  forall who, match nth_error ns who, nth_error ns' who with
              | Some w, Some w' => node_sim d w w'
              | None, None => True
              | _, _ => False
              end.

(* most of what follows needs less: whatever was learned *)
Definition node_shape (w w' : wnode) : Prop :=
  w_ports w' = w_ports w /\ adapters (w_node w') = adapters (w_node w) /\ has_app (w_node w') = has_app (w_node w).

Definition shape_sim (ns ns' : list wnode) : Prop :=
  forall who, match nth_error ns who, nth_error ns' who with
              | Some w, Some w' => node_shape w w'
              | None, None => True
              | _, _ => False
              end.

Lemma sim_shape : forall d ns ns', sim d ns ns' -> shape_sim ns ns'.
Proof.
  intros d ns ns' H who. specialize (H who).
  destruct (nth_error ns who), (nth_error ns' who); try exact H. destruct H as (A & B & C & _). repeat split; assumption.
Qed.

Lemma sim_refl : forall d ns, sim d ns ns.
Proof. intros d ns who. destruct (nth_error ns who); [repeat split|exact I]. Qed.

Lemma shape_refl : forall ns, shape_sim ns ns.
Proof. intros ns who. destruct (nth_error ns who); [repeat split|exact I]. Qed.

Lemma shape_nth : forall ns ns' who w, shape_sim ns ns' -> nth_error ns who = Some w ->
  exists w', nth_error ns' who = Some w' /\ node_shape w w'.
Proof.
  intros ns ns' who w H Hw. specialize (H who). rewrite Hw in H.
  destruct (nth_error ns' who) as [w'|]; [eauto|contradiction].
Qed.

Lemma shape_port_of : forall ns ns' x, shape_sim ns ns' -> port_of ns' x = port_of ns x.
Proof.
  intros ns ns' x H. unfold port_of. specialize (H (fst x)).
  destruct (nth_error ns (fst x)) as [w|], (nth_error ns' (fst x)) as [w'|]; try contradiction; [|reflexivity].
  destruct H as [Hp _]. rewrite Hp. reflexivity.
Qed.

Lemma sim_port_of : forall d ns ns' x, sim d ns ns' -> port_of ns' x = port_of ns x.
Proof. intros d ns ns' x H. exact (shape_port_of ns ns' x (sim_shape d ns ns' H)). Qed.

Lemma shape_port_mac : forall ns ns' x, shape_sim ns ns' -> port_mac ns' x = port_mac ns x.
Proof. intros ns ns' x H. rewrite !port_mac_of, (shape_port_of ns ns' x H). reflexivity. Qed.

Lemma router_shape_node_shape : forall w w', node_shape w w' -> router_shape w -> router_shape w'.
Proof.
  intros w w' (Hp & Ha & Hh) (H1 & H2 & H3 & H4). unfold router_shape. rewrite Hp, Ha, Hh. auto.
Qed.

Lemma station_shape_sim : forall d w w', node_sim d w w' -> station_shape w -> station_shape w'.
Proof.
  intros d w w' (Hp & Ha & Hh & _) (lan & m & a & H1 & H2 & H3 & H4).
  exists lan, m, a. rewrite Hp, Ha, Hh. auto.
Qed.

Lemma node_shape_trans : forall a b c, node_shape a b -> node_shape b c -> node_shape a c.
Proof. intros a b c (A1 & A2 & A3) (B1 & B2 & B3). repeat split; congruence. Qed.

Lemma shape_set : forall ns0 ns who w w2, shape_sim ns0 ns -> nth_error ns who = Some w -> node_shape w w2 ->
  shape_sim ns0 (set_nth ns who w2).
Proof.
  intros ns0 ns who w w2 H Hw Hs x. specialize (H x). destruct (Nat.eq_dec who x) as [E|E].
  - subst x. rewrite (set_nth_nth_same _ _ _ _ Hw). rewrite Hw in H.
    destruct (nth_error ns0 who) as [w0|]; [|contradiction]. exact (node_shape_trans _ _ _ H Hs).
  - rewrite set_nth_nth_other by assumption. exact H.
Qed.

Lemma learned_shape : forall w ai src p, node_shape w (mkW (learned (w_node w) ai src p) (w_ports w)).
Proof.
  intros. split; [reflexivity|]. split; [apply learned_adapters|apply learned_has_app].
Qed.

Lemma sim_step : forall d ns0 ns who w ai src p,
  sim d ns0 ns -> nth_error ns who = Some w ->
  (forall snet sm, n_sadr p = Some (snet, sm) -> snet <> d) ->
  sim d ns0 (set_nth ns who (mkW (learned (w_node w) ai src p) (w_ports w))).
Proof.
  intros d ns0 ns who w ai src p H Hw Hs x. specialize (H x).
  destruct (Nat.eq_dec who x) as [E|E].
  - subst x. rewrite (set_nth_nth_same _ _ _ _ Hw). rewrite Hw in H.
    destruct (nth_error ns0 who) as [w0|]; [|contradiction].
    destruct H as (Hp & Ha & Hh & Hf). destruct (learned_shape w ai src p) as (Lp & La & Lh).
    unfold node_sim. rewrite Lp, La, Lh. cbn [w_node]. rewrite (learned_find_path _ _ _ _ _ Hs). auto.
  - rewrite set_nth_nth_other by assumption. exact H.
Qed.

Lemma sim_find_path : forall d ns ns' who w w', sim d ns ns' -> nth_error ns who = Some w -> nth_error ns' who = Some w' ->
  find_path (w_node w') d = find_path (w_node w) d.
Proof. intros d ns ns' who w w' H Hw Hw'. specialize (H who). rewrite Hw, Hw' in H. apply H. Qed.

Lemma router_not_station : forall w, router_shape w -> station_shape w -> False.
Proof. intros w (Hl & _) (lan & m & a & Hp & _). rewrite Hp in Hl. cbn in Hl. lia. Qed.

Lemma in_map_fst_nth : forall (ports : list (N * mac)) L, In L (map fst ports) ->
  exists p m, nth_error ports p = Some (L, m).
Proof.
  intros ports L H. apply in_map_iff in H. destruct H as [[l m] [E Hin]]. cbn in E. subst l.
  apply In_nth_error in Hin. destruct Hin as [p Hp]. eauto.
Qed.

Lemma fwd_sadr_level : forall (lv : N -> nat) L src p k,
  lv L = S k -> (forall sn sm, n_sadr p = Some (sn, sm) -> (S k < lv sn)%nat) ->
  (S k <= lv (fst (fwd_sadr L src p)))%nat.
Proof.
  intros lv L src p k HL Hs. unfold fwd_sadr. destruct (n_sadr p) as [[sn sm]|] eqn:E; cbn [fst].
  - specialize (Hs sn sm eq_refl). lia.
  - lia.
Qed.

Lemma router_find_net_none_lv : forall w (lv : N -> nat) a x, router_shape w ->
  (forall L, In L (map fst (w_ports w)) -> lv L = a \/ lv L = S a) -> lv x <> a -> lv x <> S a ->
  find_net (w_node w) (Some x) = None.
Proof.
  intros w lv a x Hr Hl H1 H2. apply router_find_net_none; [assumption|]. intro Hin. destruct (Hl _ Hin); congruence.
Qed.

Lemma acceptor_of_sim : forall lns ns0 ns f who i w m lan,
  internet_ok lns ns0 -> shape_sim ns0 ns -> f_dst f = LStation m ->
  In (who, i) (lan_members lns (f_lan f)) -> nth_error ns who = Some w ->
  nth_error (w_ports w) i = Some (lan, m) -> acceptor lns ns f who i w m.
Proof.
  intros lns ns0 ns f who i w m lan Hio Hsim Hd Hin Hw Hp. split; [assumption|]. split.
  - rewrite (map_ext _ _ (fun x => shape_port_mac ns0 ns x Hsim)). apply (io_macs Hio).
  - split; [assumption|]. split; [assumption|eexists; eassumption].
Qed.

Lemma accepts_other : forall lns ns L x y m my f,
  internet_ok lns ns -> In x (lan_members lns L) -> In y (lan_members lns L) ->
  port_of ns x = Some (L, m) -> port_of ns y = Some (L, my) -> x <> y ->
  f_dst f = LBcast -> f_src f = my -> accepts m f = true.
Proof.
  intros lns ns L x y m my f Hio Hx Hy Hpx Hpy Hne Hd Hs. unfold accepts. rewrite Hd, Hs.
  rewrite mac_eqb_neq; [reflexivity|]. intro E. apply Hne.
  apply (nodup_map_inj (port_mac ns) (lan_members lns L)); [apply (io_macs Hio)|assumption|assumption|].
  rewrite (port_of_mac _ _ _ _ Hpx), (port_of_mac _ _ _ _ Hpy), E. reflexivity.
Qed.

Lemma station_port : forall w p L m, station_shape w -> nth_error (w_ports w) p = Some (L, m) ->
  p = 0%nat /\ w_ports w = [(L, m)].
Proof.
  intros w p L m (l0 & m1 & a & Hp & _) H. rewrite Hp in H |- *.
  destruct p as [|[|p]]; cbn in H; [|discriminate..]. inversion H. auto.
Qed.

Lemma port_eq_or : forall x y : nat * nat, x = y \/ x <> y.
Proof. intros [a b] [c d]. destruct (Nat.eq_dec a c), (Nat.eq_dec b d); [left|right..]; congruence. Qed.

(* link addresses are distinct on each LAN (io_macs) *)
Lemma router_not_for_station : forall lns ns0 pw w0 x lanx mx tgt wtgt d dm,
  internet_ok lns ns0 -> nth_error ns0 pw = Some w0 -> router_shape w0 ->
  nth_error (w_ports w0) x = Some (lanx, mx) -> nth_error ns0 tgt = Some wtgt -> w_ports wtgt = [(d, dm)] ->
  not_for_me (mkAd (Some lanx) (Some mx)) d dm = true.
Proof.
  intros lns ns0 pw w0 x lanx mx tgt wt d dm Hio Hw0 Hsh0 Hx Hwt Hwtp.
  unfold not_for_me. cbn [a_net a_mac optN_eqb].
  destruct (N.eqb_spec d lanx) as [E|E]; [|reflexivity]. subst lanx.
  destruct (mac_eqb dm mx) eqn:Em; [|reflexivity]. exfalso. apply mac_eqb_eq in Em. subst mx.
  assert (Hx0 : port_of ns0 (pw, x) = Some (d, dm)) by (exact (port_of_intro Hw0 Hx)).
  assert (Ht0 : port_of ns0 (tgt, 0%nat) = Some (d, dm)) by (exact (port_of_station Hwt Hwtp)).
  assert (E : (pw, x) = (tgt, 0%nat)).
  { apply (nodup_map_inj (port_mac ns0) (lan_members lns d)); [apply (io_macs Hio)|eapply io_listed; eauto..|].
    rewrite (port_of_mac _ _ _ _ Hx0), (port_of_mac _ _ _ _ Ht0). reflexivity. }
  inversion E; subst. rewrite Hwt in Hw0. inversion Hw0; subst.
  destruct Hsh0 as (Hl & _). rewrite Hwtp in Hl. cbn in Hl. lia.
Qed.

(* what climb, climb_b and NetRound.fwd_back share: a frame towards d on a network other than d, link-addressed to
   the port `par` of that network, is taken by the router there (w0 as it was, w' as it is now) *)
Lemma hop_ctx : forall lns ns0 d lv up par ns f mL k,
  internet_ok lns ns0 -> tree_to lns ns0 d lv up par -> shape_sim ns0 ns ->
  lv (f_lan f) = S k -> inhabited ns0 (f_lan f) ->
  port_mac ns0 (par (f_lan f)) = Some mL -> f_dst f = LStation mL ->
  (S k <= N.to_nat (n_hop (f_npdu f)))%nat ->
  (forall sn sm, n_sadr (f_npdu f) = Some (sn, sm) -> (S k < lv sn)%nat) ->
  exists pw pp w0 w' lu mu,
    par (f_lan f) = (pw, pp) /\ nth_error ns0 pw = Some w0 /\ router_shape w0 /\
    nth_error ns pw = Some w' /\ node_shape w0 w' /\ router_shape w' /\
    acceptor lns ns f pw pp w' mL /\
    nth_adapter (w_node w') pp = Some (mkAd (Some (f_lan f)) (Some mL)) /\
    nth_error (w_ports w') pp = Some (f_lan f, mL) /\ nth_error (w_ports w') (up pw) = Some (lu, mu) /\
    pp <> up pw /\ port_of ns0 (pw, up pw) = Some (lu, mu) /\
    lv lu = k /\ (k = 0%nat -> lu = d) /\
    (forall Lx, In Lx (map fst (w_ports w')) -> lv Lx = k \/ lv Lx = S k) /\
    (k <> 0%nat -> exists pm, port_mac ns0 (par lu) = Some pm /\ find_path (w_node w0) d = Some (up pw, pm)) /\
    modelled_config (w_node w') = true /\ is_router (w_node w') = true /\ n_hop (f_npdu f) <> 0 /\
    (forall snet sm, n_sadr (f_npdu f) = Some (snet, sm) -> find_net (w_node w') (Some snet) = None /\ snet <> d) /\
    shape_sim ns0 (set_nth ns pw (mkW (learned (w_node w') (mkAd (Some (f_lan f)) (Some mL)) (f_src f) (f_npdu f))
                                      (w_ports w'))).
Proof.
  intros lns ns0 d lv up par ns f mL k Hio Htt Hsim HlvL Hinh HparM Hdst Hhop Hsadr.
  destruct (tt_parent Htt (f_lan f) Hinh ltac:(lia)) as (Hpin & w0 & Hw0 & Hsh0 & Hnotup).
  destruct (par (f_lan f)) as [pw pp] eqn:Epar. cbn [fst snd] in *.
  destruct (io_members Hio _ _ Hpin) as [m0 Hport0].
  assert (m0 = mL) by (apply port_of_mac in Hport0; congruence). subst m0.
  destruct (shape_nth _ _ _ _ Hsim Hw0) as (w' & Hw' & Hns).
  pose proof (router_shape_node_shape _ _ Hns Hsh0) as Hsh'.
  assert (Hports : w_ports w' = w_ports w0) by (destruct Hns; assumption).
  unfold port_of in Hport0. cbn [fst snd] in Hport0. rewrite Hw0, <- Hports in Hport0.
  destruct (tt_router Htt pw w0 Hw0 Hsh0) as (lu & mu & Hup & Hroot & Hchild & Hwarm).
  assert (Hlu : lv lu = k) by (specialize (Hchild pp (f_lan f) mL); rewrite <- Hports in Hchild; specialize (Hchild Hport0 Hnotup); lia).
  assert (Hlevels : forall Lx, In Lx (map fst (w_ports w')) -> lv Lx = k \/ lv Lx = S k).
  { intros Lx HLx. rewrite Hports in HLx. apply in_map_fst_nth in HLx. destruct HLx as (p & mp & Hp).
    destruct (Nat.eq_dec p (up pw)) as [E|E]; [subst p; rewrite Hup in Hp; inversion Hp; subst; left; reflexivity|].
    right. rewrite <- Hlu. exact (Hchild p Lx mp Hp E). }
  assert (Hsrc : forall snet sm, n_sadr (f_npdu f) = Some (snet, sm) ->
                   find_net (w_node w') (Some snet) = None /\ snet <> d).
  { intros snet sm Es. pose proof (Hsadr snet sm Es) as Hs. split.
    - apply (router_find_net_none_lv w' lv k); auto; lia.
    - intro E. subst snet. rewrite (tt_root Htt) in Hs. lia. }
  exists pw, pp, w0, w', lu, mu. rewrite Hlu.
  do 6 (split; [first [reflexivity|assumption]|]).
  split; [exact (acceptor_of_sim _ _ _ _ _ _ _ _ _ Hio Hsim Hdst Hpin Hw' Hport0)|].
  split; [exact (router_nth_adapter _ _ _ _ Hsh' Hport0)|]. split; [assumption|].
  split; [rewrite Hports; exact Hup|]. split; [assumption|].
  split; [exact (port_of_intro Hw0 Hup)|]. split; [reflexivity|].
  split; [intro E; apply Hroot; lia|]. split; [assumption|]. split; [intro E; apply Hwarm; lia|].
  split; [apply router_modelled; assumption|]. split; [apply router_is_router; assumption|]. split; [lia|].
  split; [assumption|].
  exact (shape_set _ _ _ _ _ Hsim Hw' (learned_shape w' _ _ _)).
Qed.

Lemma climb : forall lns ns0 d lv up par tgt wtgt dm a_t,
  internet_ok lns ns0 -> tree_to lns ns0 d lv up par ->
  In (tgt, 0%nat) (lan_members lns d) -> station_at ns0 tgt wtgt d dm a_t ->
  forall k ns f mL,
    sim d ns0 ns ->
    lv (f_lan f) = S k ->
    inhabited ns0 (f_lan f) ->
    port_mac ns0 (par (f_lan f)) = Some mL -> f_dst f = LStation mL ->
    n_msg (f_npdu f) = None -> n_dadr (f_npdu f) = Some (DStation d dm) ->
    apdu_ok (n_data (f_npdu f)) = true ->
    (S k <= N.to_nat (n_hop (f_npdu f)))%nat ->
    (forall sn sm, n_sadr (f_npdu f) = Some (sn, sm) -> (S k < lv sn)%nat) ->
    arrives lns ns f tgt
            (ARS (fst (fwd_sadr (f_lan f) (f_src f) (f_npdu f))) (snd (fwd_sadr (f_lan f) (f_src f) (f_npdu f))))
            (ALS dm) (n_data (f_npdu f)).
Proof.
  intros lns ns0 d lv up par tgt wt dm a_t Hio Htt Htgt [Hwt Hwtp Hwta Hwtn Hwth].
  pose proof (tt_root Htt) as Hroot0.
  (* induction on the level of the frame's LAN; the level is split (router attached to d or not) once the router that
     takes the frame is known *)
  induction k as [k IH] using lt_wf_ind. intros ns f mL Hsim HlvL Hinh HparM Hdst Hmsg Hdadr Hok Hhop Hsadr.
  destruct (hop_ctx _ _ _ _ _ _ _ _ _ _ Hio Htt (sim_shape _ _ _ Hsim) HlvL Hinh HparM Hdst Hhop Hsadr)
    as (pw & pp & w0 & w' & lu & mu & Epar & Hw0 & Hsh0 & Hw' & Hns & Hsh' & Hacc & Hai & Hpp & Hup' & Hnotup &
        Hupport & Hlu & Hroot & Hlevels & Hwarm & Hmod & Hisr & Hhop0 & Hsrc & Hsim').
  pose proof (fwd_sadr_level lv (f_lan f) (f_src f) (f_npdu f) _ HlvL Hsadr) as Hsl.
  destruct k as [|k].
  - (* the router attached to d *)
    assert (lu = d) by (apply Hroot; reflexivity). subst lu.
    destruct (router_local_adapter _ Hsh') as (x & lanx & mx & Hx & Hla).
    eapply arr_last_router with (who := pw) (i := pp) (w := w') (m := mL) (inet := f_lan f) (d := d) (dm := dm)
                                (j := up pw) (lan' := d) (mj := mu); try eassumption; try reflexivity.
    + intros snet sm Es. apply (Hsrc snet sm Es).
    + eapply router_find_net_some; eauto.
    + auto.
    + cbn. destruct (N.eqb_spec d (f_lan f)) as [E|E]; [|reflexivity]. rewrite <- E in HlvL. lia.
    + destruct Hns as (Hports & _). rewrite Hports in Hx.
      exact (router_not_for_station _ _ _ _ _ _ _ _ _ _ _ Hio Hw0 Hsh0 Hx Hwt Hwtp).
    + (* the station *)
      destruct (shape_nth _ _ _ _ Hsim' Hwt) as (wt' & Hwt' & (Hp1 & Hp2 & Hp3)).
      remember (fwd_sadr (f_lan f) (f_src f) (f_npdu f)) as X. destruct X as [sn sm]. cbn [fst snd] in *.
      match goal with |- arrives _ ?NS ?G _ _ _ _ => eapply (arr_station lns NS G tgt wt' dm a_t sn sm) end; try reflexivity.
      * apply (acceptor_of_sim _ _ _ _ _ _ _ _ d Hio Hsim'); [reflexivity|assumption|assumption|].
        rewrite Hp1, Hwtp. reflexivity.
      * rewrite Hp2. assumption.
      * rewrite Hp3. assumption.
      * assumption.
      * apply (own_net_other a_t d sn Hwtn). intro E. subst sn. lia.
  - (* a router further away: forwards to the parent port of its up-network *)
    destruct (Hwarm ltac:(discriminate)) as (pm & Hpm & Hfp).
    assert (Hfp' : find_path (w_node w') d = Some (up pw, pm)) by (rewrite (sim_find_path _ _ _ _ _ _ Hsim Hw0 Hw'); exact Hfp).
    remember (fwd_sadr (f_lan f) (f_src f) (f_npdu f)) as X.
    eapply arr_router with (who := pw) (i := pp) (w := w') (m := mL) (inet := f_lan f) (d := d) (dm := dm)
                           (j := up pw) (m' := pm) (lan' := lu) (mj := mu); try eassumption; try reflexivity.
    + apply (router_find_net_none_lv w' lv (S k)); auto; lia.
    + rewrite <- HeqX.
      set (g := mkFrame lu mu (LStation pm) (mkNpdu (n_dadr (f_npdu f)) (Some X) (n_hop (f_npdu f) - 1) None (n_data (f_npdu f)))).
      assert (HX : fwd_sadr (f_lan g) (f_src g) (f_npdu g) = X) by reflexivity.
      rewrite <- HX. change (n_data (f_npdu f)) with (n_data (f_npdu g)).
      apply (IH k (Nat.lt_succ_diag_r k) _ g pm); try assumption; try reflexivity.
      * apply sim_step; [assumption|assumption|]. intros snet sm0 Es. apply (Hsrc snet sm0 Es).
      * exists (pw, up pw), mu. exact Hupport.
      * cbn. lia.
      * cbn [g f_npdu n_sadr]. intros sn sm E. injection E as E2. rewrite E2 in Hsl. cbn [fst] in Hsl. lia.
Qed.

Definition appb (ns : list wnode) (x : nat * nat) : bool :=
  match nth_error ns (fst x) with Some w => has_app (w_node w) | None => false end.

Lemma listener_is_station : forall lns ns0 ns' d pw pu mu sn sm hop data x,
  internet_ok lns ns0 -> shape_sim ns0 ns' ->
  In x (lan_members lns d) -> port_of ns0 (pw, pu) = Some (d, mu) ->
  (exists wr, nth_error ns0 pw = Some wr /\ router_shape wr) -> sn <> d ->
  listenerb ns' (mkFrame d mu LBcast (mkNpdu None (Some (sn, sm)) hop None data)) x = appb ns0 x.
Proof.
  intros lns ns0 ns' d pw pu mu sn sm hop data x Hio Hsim Hx Hsender (wr & Hwr & Hshr) Hsn.
  destruct (io_members Hio _ _ Hx) as [m Hpx]. pose proof Hpx as Hport.
  unfold port_of in Hport. destruct (nth_error ns0 (fst x)) as [w0|] eqn:Ew0; [|discriminate].
  destruct (shape_nth _ _ _ _ Hsim Ew0) as (w' & Hw' & (Hp1 & Hp2 & Hp3)).
  unfold listenerb, appb. rewrite Hw', Ew0, Hp1, Hport, Hp2, Hp3.
  destruct (io_shape Hio _ _ Ew0) as [Hr|Hs].
  - destruct Hr as (Hl & _ & Ha & Hh). rewrite Ha, Hh.
    destruct (w_ports w0) as [|a [|b l]]; cbn [length] in Hl; try lia. reflexivity.
  - (* a station is not the router that sent the frame, so it accepts it *)
    assert (Hne : x <> (pw, pu)).
    { intro E. subst x. cbn [fst] in Ew0. rewrite Hwr in Ew0. inversion Ew0; subst. exact (router_not_station _ Hshr Hs). }
    destruct (station_port _ _ _ _ Hs Hport) as [E0 Hp]. destruct Hs as (lan & m' & a & Hp' & Ha & Hn & Hh).
    rewrite Hp in Hp'. inversion Hp'; subst lan m'. rewrite Ha, Hh, E0. cbn [f_npdu n_sadr Nat.eqb andb].
    rewrite (accepts_other lns ns0 d x (pw, pu) m mu (mkFrame d mu LBcast (mkNpdu None (Some (sn, sm)) hop None data)) Hio Hx
               (io_listed Hio _ _ _ Hsender) Hpx Hsender Hne eq_refl eq_refl).
    rewrite (own_net_other a d sn Hn) by auto. reflexivity.
Qed.

Lemma silent_or_listener : forall ns ns' x, (forall y, appb ns y = negb (silentb ns' y)) -> forall l, l = appb ns x ->
  l = true \/ silentb ns' x = true.
Proof. intros ns ns' x H l E. subst l. rewrite H. destruct (silentb ns' x); auto. Qed.

Lemma climb_b : forall lns ns0 d lv up par,
  internet_ok lns ns0 -> tree_to lns ns0 d lv up par ->
  forall k ns f mL,
    sim d ns0 ns ->
    lv (f_lan f) = S k ->
    inhabited ns0 (f_lan f) ->
    port_mac ns0 (par (f_lan f)) = Some mL -> f_dst f = LStation mL ->
    n_msg (f_npdu f) = None -> n_dadr (f_npdu f) = Some (DBcast d) ->
    apdu_ok (n_data (f_npdu f)) = true ->
    (S k <= N.to_nat (n_hop (f_npdu f)))%nat ->
    (forall sn sm, n_sadr (f_npdu f) = Some (sn, sm) -> (S k < lv sn)%nat) ->
    bcast_arrives lns ns f (rev (map fst (filter (appb ns0) (lan_members lns d)))).
Proof.
  intros lns ns0 d lv up par Hio Htt.
  pose proof (tt_root Htt) as Hroot0.
  induction k as [k IH] using lt_wf_ind. intros ns f mL Hsim HlvL Hinh HparM Hdst Hmsg Hdadr Hok Hhop Hsadr.
  destruct (hop_ctx _ _ _ _ _ _ _ _ _ _ Hio Htt (sim_shape _ _ _ Hsim) HlvL Hinh HparM Hdst Hhop Hsadr)
    as (pw & pp & w0 & w' & lu & mu & Epar & Hw0 & Hsh0 & Hw' & Hns & Hsh' & Hacc & Hai & Hpp & Hup' & Hnotup &
        Hupport & Hlu & Hroot & Hlevels & Hwarm & Hmod & Hisr & Hhop0 & Hsrc & Hsim').
  pose proof (fwd_sadr_level lv (f_lan f) (f_src f) (f_npdu f) _ HlvL Hsadr) as Hsl.
  destruct k as [|k].
  - (* the router attached to d, then the target network *)
    assert (lu = d) by (apply Hroot; reflexivity). subst lu.
    remember (fwd_sadr (f_lan f) (f_src f) (f_npdu f)) as X. destruct X as [sn sm]. cbn [fst] in Hsl.
    assert (Hsn : sn <> d) by (intro E; subst sn; lia).
    set (ns' := set_nth ns pw (mkW (learned (w_node w') (mkAd (Some (f_lan f)) (Some mL)) (f_src f) (f_npdu f)) (w_ports w'))) in *.
    set (g := mkFrame d mu LBcast (mkNpdu None (Some (sn, sm)) (n_hop (f_npdu f) - 1) None (n_data (f_npdu f)))).
    assert (Hclass : forall x, In x (lan_members lns d) -> listenerb ns' g x = appb ns0 x)
      by (intros x Hx; unfold g; eapply (listener_is_station lns ns0 ns' d pw (up pw) mu); eauto).
    assert (Hsil : forall x, In x (lan_members lns d) -> listenerb ns' g x = true \/ silentb ns' x = true).
    { intros x Hx. rewrite (Hclass x Hx). unfold appb, silentb.
      destruct (io_members Hio _ _ Hx) as [m Hport]. unfold port_of in Hport.
      destruct (nth_error ns0 (fst x)) as [w0x|] eqn:Ew0x; [|discriminate].
      destruct (shape_nth _ _ _ _ Hsim' Ew0x) as (wx' & Hwx' & (_ & _ & Hh)).
      fold ns' in Hwx'. rewrite Hwx', Hh. destruct (has_app (w_node w0x)); auto. }
    rewrite <- (filter_ext_in _ _ _ Hclass).
    unfold g, ns'. rewrite HeqX.
    eapply barr_last_router with (who := pw) (i := pp) (w := w') (m := mL) (inet := f_lan f) (d := d)
                                 (j := up pw) (lan' := d) (mj := mu); try eassumption; try reflexivity.
    + destruct Hsh' as (_ & _ & _ & Hh). exact Hh.
    + intros snet sm0 Es. apply (Hsrc snet sm0 Es).
    + eapply router_find_net_some; eauto.
    + auto.
    + cbn. destruct (N.eqb_spec d (f_lan f)) as [E|E]; [|reflexivity]. rewrite <- E in HlvL. lia.
    + apply (io_once Hio).
    + rewrite <- HeqX. exact Hsil.
  - (* a router further away *)
    destruct (Hwarm ltac:(discriminate)) as (pm & Hpm & Hfp).
    assert (Hfp' : find_path (w_node w') d = Some (up pw, pm)) by (rewrite (sim_find_path _ _ _ _ _ _ Hsim Hw0 Hw'); exact Hfp).
    remember (fwd_sadr (f_lan f) (f_src f) (f_npdu f)) as X.
    eapply barr_router with (who := pw) (i := pp) (w := w') (m := mL) (inet := f_lan f) (d := d)
                            (j := up pw) (m' := pm) (lan' := lu) (mj := mu); try eassumption; try reflexivity.
    + apply (router_find_net_none_lv w' lv (S k)); auto; lia.
    + rewrite <- HeqX.
      set (g := mkFrame lu mu (LStation pm) (mkNpdu (n_dadr (f_npdu f)) (Some X) (n_hop (f_npdu f) - 1) None (n_data (f_npdu f)))).
      apply (IH k (Nat.lt_succ_diag_r k) _ g pm); try assumption; try reflexivity.
      * apply sim_step; [assumption|assumption|]. intros snet sm0 Es. apply (Hsrc snet sm0 Es).
      * exists (pw, up pw), mu. exact Hupport.
      * cbn. lia.
      * cbn [g f_npdu n_sadr]. intros sn sm E. injection E as E2. rewrite E2 in Hsl. cbn [fst] in Hsl. lia.
Qed.

Lemma sim_set_same : forall d ns who w, nth_error ns who = Some w ->
  sim d ns (set_nth ns who (mkW (w_node w) (w_ports w))).
Proof.
  intros d ns who w Hw x. destruct (Nat.eq_dec who x) as [E|E].
  - subst x. rewrite (set_nth_nth_same _ _ _ _ Hw), Hw. repeat split.
  - rewrite set_nth_nth_other by assumption. apply sim_refl.
Qed.

(* C06_tree_remote_broadcast_once: the nodes handed the payload are exactly the nodes with an application on the
   target network (its stations), each once *)
Theorem tree_remote_broadcast_once : forall w d lv up par src ws s smac a_s data mR,
  internet_ok (lans w) (nodes w) -> tree_to (lans w) (nodes w) d lv up par ->
  queue w = [] ->
  nth_error (nodes w) src = Some ws -> w_ports ws = [(s, smac)] -> adapters (w_node ws) = [a_s] ->
  (a_net a_s = None \/ a_net a_s = Some s) ->
  (0 < lv s <= 255)%nat ->
  pending_get (pending (w_node ws)) d = None ->
  port_mac (nodes w) (par s) = Some mR -> cache_get (rcache (w_node ws)) (a_net a_s) d = Some mR ->
  apdu_ok data = true ->
  let w0 := submit w src (ARB d) data in
  exists k osn, queue (run k w0) = [] /\ (forall k', (k <= k')%nat -> run k' w0 = run k w0) /\
                trace (run k w0) = osn ++ trace w /\
                hearers osn = rev (map fst (filter (appb (nodes w)) (lan_members (lans w) d))).
Proof.
  intros w d lv up par src ws s smac a_s data mR Hio Htt Hq Hws Hwsp Hwsa Hwsn Hlv Hpend HmR Hcache Hok w0.
  assert (Hsd : s <> d) by (intro E; subst s; rewrite (tt_root Htt) in Hlv; lia).
  set (f0 := mkFrame s smac (LStation mR) (mkNpdu (Some (DBcast d)) None 255 None data)).
  assert (Hw0 : w0 = mkWorld (set_nth (nodes w) src (mkW (w_node ws) (w_ports ws))) (lans w) [f0] (trace w))
    by exact (station_submits_remote w src ws s smac a_s d _ _ [] mR data Hq Hws Hwsp Hwsa Hwsn Hsd Hpend Hcache
                (or_intror (conj eq_refl eq_refl))).
  assert (Harr : bcast_arrives (lans w0) (nodes w0) f0 (rev (map fst (filter (appb (nodes w)) (lan_members (lans w) d))))).
  { rewrite Hw0. cbn [lans nodes].
    destruct (lv s) as [|k] eqn:Ek; [lia|].
    pose proof (climb_b (lans w) (nodes w) d lv up par Hio Htt
                        k (set_nth (nodes w) src (mkW (w_node ws) (w_ports ws))) f0 mR) as Hc.
    cbn [f0 f_lan f_src f_dst f_npdu n_msg n_dadr n_sadr n_hop n_data] in Hc.
    apply Hc; try reflexivity; try assumption.
    - apply sim_set_same. assumption.
    - exists (src, 0%nat), smac. exact (port_of_station Hws Hwsp).
    - change (N.to_nat 255) with 255%nat. lia.
    - intros sn sm E. discriminate E. }
  assert (Hq0 : queue w0 = [f0]) by (rewrite Hw0; reflexivity).
  destruct (bcast_route_arrives _ _ _ _ Harr w0 eq_refl eq_refl Hq0) as (k & osn & A1 & A2 & A3).
  exists k, osn. repeat split; auto.
  - apply quiet_forever. assumption.
  - rewrite A2, Hw0. reflexivity.
Qed.
