(* Sched.v — model of task.py (TaskManager, _Task/OneShotTask/RecurringTask) and of the
   event loops core.run_once / core.run, over a virtual clock.

   Time is `Z` ticks (any fixed unit; `jit` is the 1e-6 s "jitter" of
   RecurringTask.install_task expressed in that unit).  The heap
   `TaskManager.tasks` of `(time, counter, task)` tuples is kept as a list sorted by
   `(time, counter)`: only the pop order of `heapq` is observable (heapq itself is
   trusted).  Tasks are numbered; what a task's callback does is static configuration:
   it records that it fired, hands `t_defers` to `core.deferred`, performs the scheduling
   actions `t_acts` in order (install / re-install / suspend / resume of itself or of another
   task; an API call that raises ends the callback with that exception), then raises iff
   `t_raises`.  Deferred functions do the same with their `spawns` and `acts`.

   code map (py34/bacpypes):
     _Task.install_task            task.py:58-79     do_install_when / _after / reinstall
     RecurringTask.install_task    task.py:179-216   rec_install, next_slot
     TaskManager.install_task      task.py:295-314   tm_install
     TaskManager.suspend_task      task.py:316-333   tm_suspend
     TaskManager.resume_task       task.py:335-339   tm_install
     TaskManager.get_next_task     task.py:341-370   get_next_task
     TaskManager.process_task      task.py:372-382   process_task
     core.run_once                 core.py:187-233   run_once_loop
     core.run (no sockets, spin=0) core.py:123-181   run_loop
   No proofs here (SchedFacts.v). *)
From Bac Require Export Base Deferred.
Open Scope Z_scope.

Inductive kind : Set := OneShot | Recurring (iv off : Z).
Record tcfg : Set := mkT { t_kind : kind; t_raises : bool; t_defers : list dfn; t_acts : list sact }.
Definition cfg := list tcfg.
Definition cfg_get (c : cfg) (i : nat) : tcfg := nth i c (mkT OneShot false [] []).

Definition entry : Set := (Z * N * nat)%type.          (* (taskTime, counter, task) *)
Definition e_when (e : entry) : Z := fst (fst e).
Definition e_seq (e : entry) : N := snd (fst e).
Definition e_tid (e : entry) : nat := snd e.

Record st : Type := mkSt {
  now : Z;                         (* the virtual clock read by task._time() *)
  ctr : N;                         (* TaskManager.counter *)
  heap : list entry;               (* TaskManager.tasks, in pop order *)
  sched : nat -> bool;             (* task.isScheduled *)
  ttime : nat -> option Z;         (* task.taskTime *)
  dq : list dfn                    (* core.deferredFns *)
}.

Definition st0 : st := mkSt 0 0 [] (fun _ => false) (fun _ => None) [].

Definition upd {A} (f : nat -> A) (i : nat) (v : A) : nat -> A :=
  fun j => if Nat.eqb j i then v else f j.

(* tuple order of the heap entries: (time, counter) — the counter is unique, the task
   object itself is never compared *)
Definition e_lt (a b : entry) : bool :=
  (e_when a <? e_when b) || ((e_when a =? e_when b) && (e_seq a <? e_seq b)%N).

Fixpoint insert (e : entry) (h : list entry) : list entry :=       (* heappush *)
  match h with
  | [] => [e]
  | x :: r => if e_lt e x then e :: h else x :: insert e r
  end.

(* suspend_task's scan: delete the (first) entry of the task; None = not found *)
Fixpoint remove_tid (i : nat) (h : list entry) : option (list entry) :=
  match h with
  | [] => None
  | x :: r => if Nat.eqb (e_tid x) i then Some r
              else match remove_tid i r with Some r' => Some (x :: r') | None => None end
  end.

Definition set_heap (s : st) h := mkSt (now s) (ctr s) h (sched s) (ttime s) (dq s).
Definition set_sched (s : st) f := mkSt (now s) (ctr s) (heap s) f (ttime s) (dq s).
Definition set_ttime (s : st) f := mkSt (now s) (ctr s) (heap s) (sched s) f (dq s).
Definition set_now (s : st) t := mkSt t (ctr s) (heap s) (sched s) (ttime s) (dq s).
Definition set_dq (s : st) q := mkSt (now s) (ctr s) (heap s) (sched s) (ttime s) q.

(* TaskManager.suspend_task *)
Definition tm_suspend (s : st) (i : nat) : st :=
  match remove_tid i (heap s) with
  | Some h => mkSt (now s) (ctr s) h (upd (sched s) i false) (ttime s) (dq s)
  | None => s
  end.

(* TaskManager.install_task *)
Definition tm_install (s : st) (i : nat) : res st :=
  match ttime s i with
  | None => Err RuntimeErr                                  (* "task time is None" *)
  | Some t =>
      let s1 := if sched s i then tm_suspend s i else s in
      Ok (mkSt (now s1) (ctr s1 + 1)%N (insert (t, ctr s1, i) (heap s1))
               (upd (sched s1) i true) (ttime s1) (dq s1))
  end.

(* RecurringTask.install_task: (now - off) + iv - ((now - off) % iv) + off, now = time + jitter *)
Definition next_slot (jit iv off t : Z) : Z :=
  let x := t + jit - off in x + iv - x mod iv + off.

Definition rec_install (jit : Z) (s : st) (i : nat) (iv off : Z) : res st :=
  if iv <=? 0 then Err RuntimeErr                           (* "interval must be greater than zero" *)
  else tm_install (set_ttime s (upd (ttime s) i (Some (next_slot jit iv off (now s))))) i.

(* task.install_task(when=t) *)
Definition do_install_when (c : cfg) (s : st) (i : nat) (t : Z) : res st :=
  match t_kind (cfg_get c i) with
  | OneShot => tm_install (set_ttime s (upd (ttime s) i (Some t))) i
  | Recurring _ _ => Err TypeErr                            (* no such keyword *)
  end.

(* task.install_task() *)
Definition do_reinstall (jit : Z) (c : cfg) (s : st) (i : nat) : res st :=
  match t_kind (cfg_get c i) with
  | OneShot => match ttime s i with
               | None => Err RuntimeErr                     (* "schedule missing" *)
               | Some _ => tm_install s i
               end
  | Recurring iv off => rec_install jit s i iv off
  end.

(* TaskManager.get_next_task: (task popped with its entry, state, `delta == 0.0`) *)
Definition get_next_task (s : st) : option entry * st * bool :=
  match heap s with
  | [] => (None, s, false)
  | e :: r =>
      if e_when e <=? now s then
        (Some e,
         mkSt (now s) (ctr s) r (upd (sched s) (e_tid e) false) (ttime s) (dq s),
         match r with [] => false | e' :: _ => e_when e' <=? now s end)
      else (None, s, false)
  end.

Inductive event : Set :=
| EvFire (i : nat) (due : Z) (seq : N) (at_ : Z)     (* process_task callback entered *)
| EvCall (id : nat)                                  (* a deferred function was called *)
| EvRaise                                            (* an exception reached a handler of the loops *)
| EvErr (e : err)                                    (* an API call of the history raised / fuel ran out *)
(* ghost events: not observable, dropped by the canonical output; they let trace theorems speak
   about the queue at the moment of a firing and about (re-)installations *)
| EvPop (e : entry) (rest : list entry)              (* get_next_task popped e, `rest` stayed queued *)
| EvInst (i : nat) (auto : bool)                     (* TaskManager.install_task succeeded for task i;
                                                        auto = the re-install of a recurring task by process_task *)
.

Definition is_ghost (x : event) : bool :=
  match x with EvPop _ _ | EvInst _ _ => true | _ => false end.

(* one scheduling action of a callback: the result state and the ghost trace, or the exception *)
Definition do_act (jit : Z) (c : cfg) (s : st) (a : sact) : res (st * list event) :=
  match a with
  | AInstall i t => do s' <- do_install_when c s i t; Ok (s', [EvInst i false])
  | AInstallAfter i d => do s' <- do_install_when c s i (now s + d); Ok (s', [EvInst i false])
  | AReinstall i => do s' <- do_reinstall jit c s i; Ok (s', [EvInst i false])
  | ASuspend i => Ok (tm_suspend s i, [])
  | AResume i => do s' <- tm_install s i; Ok (s', [EvInst i false])
  end.

(* the actions of one callback, in order; true = an API call raised (the rest is skipped) *)
Fixpoint run_acts (jit : Z) (c : cfg) (s : st) (l : list sact) : st * list event * bool :=
  match l with
  | [] => (s, [], false)
  | a :: r => match do_act jit c s a with
              | Ok (s', ev) => let '(s2, ev2, x) := run_acts jit c s' r in (s2, ev ++ ev2, x)
              | Err _ => (s, [], true)
              end
  end.

(* TaskManager.process_task: the callback, then the re-install of a recurring task *)
Definition process_task (jit : Z) (c : cfg) (s : st) (e : entry) : st * list event * bool :=
  let i := e_tid e in
  let k := cfg_get c i in
  let s1 := set_dq s (dq s ++ t_defers k) in
  let ev := [EvFire i (e_when e) (e_seq e) (now s)] in
  let '(s2, ev2, failed) := run_acts jit c s1 (t_acts k) in
  if failed || t_raises k then (s2, ev ++ ev2, true)
  else match t_kind k with
       | OneShot => (s2, ev ++ ev2, false)
       | Recurring iv off =>
           match rec_install jit s2 i iv off with
           | Ok s3 => (s3, ev ++ ev2 ++ [EvInst i true], false)
           | Err _ => (s2, ev ++ ev2, true)
           end
       end.

(* the `for` over one detached batch, threading the scheduler state: every call is logged, the
   exception of a call (its own, or of one of its API calls) is logged by the handler that
   catches it — the per-call one (guard), or the loop's, which ends the pass (no guard) *)
Fixpoint call_batch_s (guard : bool) (jit : Z) (c : cfg) (s : st) (b : list dfn) : st * list event * bool :=
  match b with
  | [] => (s, [], false)
  | d :: rest =>
      let s1 := set_dq s (dq s ++ d_spawns d) in
      let '(s2, ev2, failed) := run_acts jit c s1 (d_acts d) in
      let r := failed || d_raises d in
      let ev := EvCall (d_id d) :: ev2 ++ (if r then [EvRaise] else []) in
      if r && negb guard then (s2, ev, true)
      else let '(s3, ev3, x) := call_batch_s guard jit c s2 rest in (s3, ev ++ ev3, x)
  end.

(* the `while deferredFns:` block; third component: an exception left it (or the fuel ran out) *)
Fixpoint sdrain (guard : bool) (jit : Z) (c : cfg) (fuel : nat) (s : st) : st * list event * bool :=
  match dq s with
  | [] => (s, [], false)
  | b =>
      match fuel with
      | O => (s, [EvErr OutOfFuel], true)
      | S f =>
          let '(s1, ev, x) := call_batch_s guard jit c (set_dq s []) b in
          if x then (s1, ev, true)
          else let '(s2, ev2, x2) := sdrain guard jit c f s1 in (s2, ev ++ ev2, x2)
      end
  end.

Definition do_drain (guard : bool) (jit : Z) (c : cfg) (s : st) : st * list event * bool :=
  sdrain guard jit c (f_size (dq s)) s.

(* get_next_task seen from the loops: the pop with its ghost record *)
Definition pop_events (s : st) (e : entry) (s1 : st) : list event := [EvPop e (heap s1)].

(* core.run_once: `while delta == 0.0:` inside one try *)
Fixpoint run_once_loop (guard : bool) (jit : Z) (c : cfg) (fuel : nat) (s : st) : st * list event :=
  match fuel with
  | O => (s, [EvErr OutOfFuel])
  | S f =>
      let '(t, s1, zero) := get_next_task s in
      let '(s2, ev1, r1) := match t with
                            | Some e => let '(s2, ev, r) := process_task jit c s1 e in
                                        (s2, pop_events s e s1 ++ ev, r)
                            | None => (s1, [], false)
                            end in
      if r1 then (s2, ev1 ++ [EvRaise])
      else let '(s3, ev2, r2) := do_drain guard jit c s2 in
           if r2 then (s3, ev1 ++ ev2)
           else if zero then let '(s4, ev3) := run_once_loop guard jit c f s3 in (s4, ev1 ++ ev2 ++ ev3)
                else (s3, ev1 ++ ev2)
  end.

Definition due_count (s : st) : nat := length (filter (fun e => e_when e <=? now s) (heap s)).
(* callbacks that keep installing due tasks make the real loop spin for ever; the model gives up
   (OutOfFuel) after `slack` more iterations than there were due entries.  SchedOrder shows
   that the fuel is never exhausted when callbacks have no scheduling actions. *)
Definition slack : nat := 64.
Definition run_once (guard : bool) (jit : Z) (c : cfg) (s : st) : st * list event :=
  run_once_loop guard jit c (S (due_count s) + slack) s.

(* core.run with spin = 0 and no sockets, stopped as soon as nothing is due and nothing
   is deferred: one `try` per iteration *)
Definition quiescent (s : st) : bool :=
  match dq s with
  | [] => match heap s with [] => true | e :: _ => negb (e_when e <=? now s) end
  | _ :: _ => false
  end.

Fixpoint run_loop (guard : bool) (jit : Z) (c : cfg) (fuel : nat) (s : st) : st * list event :=
  if quiescent s then (s, [])
  else match fuel with
       | O => (s, [EvErr OutOfFuel])
       | S f =>
           let '(t, s1, _) := get_next_task s in
           let '(s2, ev1, r1) := match t with
                                 | Some e => let '(s2, ev, r) := process_task jit c s1 e in
                                             (s2, pop_events s e s1 ++ ev, r)
                                 | None => (s1, [], false)
                                 end in
           let '(s3, ev2) :=
             if r1 then (s2, ev1 ++ [EvRaise])
             else let '(s3, ev2, _) := do_drain guard jit c s2 in (s3, ev1 ++ ev2) in
           let '(s4, ev3) := run_loop guard jit c f s3 in (s4, ev2 ++ ev3)
       end.

Definition run (guard : bool) (jit : Z) (c : cfg) (s : st) : st * list event :=
  run_loop guard jit c (2 * due_count s + 2 + slack) s.

(* the operations a history is made of *)
Inductive op : Set :=
| Install (i : nat) (t : Z)         (* task.install_task(when=t) *)
| InstallAfter (i : nat) (d : Z)    (* task.install_task(delta=d) *)
| Reinstall (i : nat)               (* task.install_task() *)
| Suspend (i : nat)                 (* task.suspend_task() *)
| Resume (i : nat)                  (* task.resume_task() *)
| Advance (d : Z)                   (* the clock moves by d *)
| ToDue                             (* the clock moves to the head's due time if that is later *)
| Poll                              (* task, _ = tm.get_next_task(); if task: tm.process_task(task) *)
| Defer (f : dfn)                   (* core.deferred(f) *)
| RunOnce                           (* core.run_once() *)
| Run                               (* core.run(spin=0) until quiescent *)
.

Definition lift (s : st) (r : res (st * list event)) : st * list event :=
  match r with Ok p => p | Err e => (s, [EvErr e]) end.

Definition step (guard : bool) (jit : Z) (c : cfg) (s : st) (o : op) : st * list event :=
  match o with
  | Install i t => lift s (do_act jit c s (AInstall i t))
  | InstallAfter i d => lift s (do_act jit c s (AInstallAfter i d))
  | Reinstall i => lift s (do_act jit c s (AReinstall i))
  | Suspend i => lift s (do_act jit c s (ASuspend i))
  | Resume i => lift s (do_act jit c s (AResume i))
  | Advance d => (set_now s (now s + d), [])
  | ToDue => (match heap s with [] => s | e :: _ => set_now s (Z.max (now s) (e_when e)) end, [])
  | Poll => let '(t, s1, _) := get_next_task s in
            match t with
            | Some e => let '(s2, ev, r) := process_task jit c s1 e in
                        (s2, pop_events s e s1 ++ ev ++ (if r then [EvRaise] else []))
            | None => (s1, [])
            end
  | Defer f => (set_dq s (dq s ++ [f]), [])
  | RunOnce => run_once guard jit c s
  | Run => run guard jit c s
  end.

Fixpoint run_ops (guard : bool) (jit : Z) (c : cfg) (s : st) (ops : list op) : st * list event :=
  match ops with
  | [] => (s, [])
  | o :: r => let '(s1, ev1) := step guard jit c s o in
              let '(s2, ev2) := run_ops guard jit c s1 r in (s2, ev1 ++ ev2)
  end.

(* ---- canonical output for the correspondence (list Z) ---- *)
Definition oz (o : option Z) : list Z := match o with None => [0] | Some t => [1; t] end.

Definition canon_event (tc : nat -> Z -> Z) (e : event) : list Z :=
  match e with
  | EvFire i due _ at_ => [1; zn i; tc i due; tc i at_]
  | EvCall id => [2; zn id]
  | EvRaise => [3]
  | EvErr x => [4; err_code x]
  | EvPop _ _ | EvInst _ _ => []
  end.

Definition canon_entry (tc : nat -> Z -> Z) (e : entry) : list Z :=
  [tc (e_tid e) (e_when e); Z.of_N (e_seq e); zn (e_tid e)].

Fixpoint canon_tasks (tc : nat -> Z -> Z) (s : st) (n i : nat) : list Z :=
  match n with
  | O => []
  | S n' => zb (sched s i)
            :: (match ttime s i with None => [0] | Some t => [1; tc i t] end)
            ++ canon_tasks tc s n' (S i)
  end.

(* whole observable outcome of a history over `n` tasks: the event trace, then the heap
   in pop order, the counter, every task's isScheduled/taskTime, the deferred queue.
   `tc i t` is how a time belonging to task i is shown (identity, or the slot index of a
   recurring task when floats are involved on the other side). *)
Definition canon_run (tc : nat -> Z -> Z) (showclock : bool) (n : nat) (r : st * list event) : list Z :=
  let '(s, ev) := r in
  zlen (filter (fun x => negb (is_ghost x)) ev) :: flat_map (canon_event tc) ev
  ++ zlen (heap s) :: flat_map (canon_entry tc) (heap s)
  ++ Z.of_N (ctr s) :: (if showclock then [now s] else [])
  ++ canon_tasks tc s n 0 ++ zlen (dq s) :: ids (dq s).

Definition tc_id (_ : nat) (t : Z) : Z := t.
(* slot index of a time of task i (recurring: floor((t - off) / iv)); fire times `at`
   and one-shot times are shown as 0 in this mode *)
Definition tc_slot (c : cfg) (i : nat) (t : Z) : Z :=
  match t_kind (cfg_get c i) with
  | Recurring iv off => (t - off) / iv
  | OneShot => 0
  end.
