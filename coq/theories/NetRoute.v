(* NetRoute.v — exact behaviour of the nodes along a correct route: the steps of the induction on the tree path
   (origin station, intermediate router, last router, addressed station), and why a reply to the source shown is
   routable.  Lemmas about Net.v (property C06). *)
From Bac Require Import Base Net NetFacts NetTerm2.
Open Scope N_scope.

Lemma find_net_from_none : forall l k net a,
  find_net_from l k net = None -> In a l -> optN_eqb (a_net a) net = false.
Proof.
  induction l as [|b r IH]; intros k net a H Hin; [contradiction|]. cbn in H.
  destruct (optN_eqb (a_net b) net) eqn:E; [discriminate|].
  destruct Hin as [Hin|Hin]; [subst; assumption|eapply IH; eauto].
Qed.

Lemma not_connected : forall n d a, find_net n (Some d) = None -> In a (adapters n) ->
  optN_eqb (Some d) (a_net a) = false.
Proof. intros n d a H Hin. rewrite optN_eqb_sym. eapply find_net_from_none; eauto. Qed.

Lemma cache_update_other : forall nets c s m x dd, ~ In dd nets ->
  cache_get (cache_update c s m nets) x dd = cache_get c x dd.
Proof.
  intros nets c s m x dd H. rewrite cache_get_update.
  destruct (existsb (N.eqb dd) nets) eqn:E; [|rewrite andb_false_r; reflexivity].
  apply existsb_exists in E. destruct E as [y [Hy E]]. apply N.eqb_eq in E. subst y. contradiction.
Qed.

Lemma find_path_from_ext : forall l k c c' d, (forall s, cache_get c' s d = cache_get c s d) ->
  find_path_from l k c' d = find_path_from l k c d.
Proof.
  induction l as [|a r IH]; intros k c c' d H; cbn [find_path_from]; [reflexivity|].
  rewrite H. destruct (cache_get c (a_net a) d); [reflexivity|]. apply IH. assumption.
Qed.

Definition learned (n : node) (ai : adapter) (src : mac) (p : npdu) : node :=
  match n_sadr p with
  | Some (snet, _) => set_cache n (cache_update (rcache n) (a_net ai) src [snet])
  | None => n
  end.

Lemma learned_eq : forall n ai src p, learned n ai src p = learn_sadr n ai src p.
Proof. reflexivity. Qed.

Lemma learned_adapters : forall n ai src p, adapters (learned n ai src p) = adapters n.
Proof. intros. rewrite learned_eq. apply learn_sadr_adapters. Qed.

Lemma learned_has_app : forall n ai src p, has_app (learned n ai src p) = has_app n.
Proof. intros. rewrite learned_eq. apply learn_sadr_has_app. Qed.

Lemma learned_pending : forall n ai src p, pending (learned n ai src p) = pending n.
Proof. intros. rewrite learned_eq. apply learn_sadr_pending. Qed.

Lemma learned_find_path : forall n ai src p d,
  (forall snet sm, n_sadr p = Some (snet, sm) -> snet <> d) ->
  find_path (learned n ai src p) d = find_path n d.
Proof.
  intros n ai src p d H. unfold find_path. rewrite learned_adapters. unfold learned.
  destruct (n_sadr p) as [[snet sm]|]; [|reflexivity]. cbn [rcache set_cache].
  apply find_path_from_ext. intro s. apply cache_update_other. intros [E|[]]. exact (H snet sm eq_refl E).
Qed.

Lemma router_transit : forall n i ai la src dst p dd pl,
  nth_adapter n i = Some ai -> nth_adapter n (local_idx n) = Some la -> modelled_config n = true ->
  n_msg p = None -> n_dadr p = Some dd -> spoofed n p = false ->
  decision i (local_idx n) ai la p = Ok (Some (pl, true)) -> pl && has_app n = false ->
  process_npdu n i src dst p = (learned n ai src p, forward (learned n ai src p) i ai src p dd).
Proof.
  intros n i ai la src dst p dd pl Ha Hla Hm Hmsg Hd Hs Hdec Hpl.
  rewrite process_npdu_unfold, Ha, Hla, Hm. cbv zeta. rewrite Hs, Hdec, Hmsg. cbn [negb].
  rewrite learn_sadr_has_app, Hpl. unfold fwd_tail. rewrite Hd. reflexivity.
Qed.

Lemma forward_global : forall n i ai inet src p,
  is_router n = true -> n_hop p <> 0 -> a_net ai = Some inet ->
  forward n i ai src p DGlobal = map (fun j => Fwd j LBcast (fwd_copy inet src p)) (other_ports n i).
Proof.
  intros n i ai inet src p Hr Hh Hi. unfold forward. rewrite Hr, Hi. cbn [negb].
  destruct (N.eqb_spec (n_hop p) 0); [contradiction|reflexivity].
Qed.

Lemma forward_routed : forall n i ai inet src p dd d,
  is_router n = true -> n_hop p <> 0 -> a_net ai = Some inet -> dadr_net dd = Some d ->
  forward n i ai src p dd =
  match find_net n (Some d) with
  | Some j => if Nat.eqb j i then [] else [Fwd j (dadr_final dd) (fwd_lastleg inet src p)]
  | None => match find_path n d with
            | Some (j, m) => [Fwd j (LStation m) (fwd_copy inet src p)]
            | None => map (fun j => Tx j LBcast (who_is d None)) (other_ports n i)
            end
  end.
Proof.
  intros n i ai inet src p dd d Hr Hh Hi Hdd. unfold forward. rewrite Hr, Hi. cbn [negb].
  destruct (N.eqb_spec (n_hop p) 0); [contradiction|]. destruct dd; inversion Hdd; subst; reflexivity.
Qed.

Lemma router_forwards : forall n i ai inet src dst p dd d j m',
  nth_adapter n i = Some ai -> modelled_config n = true -> is_router n = true ->
  a_net ai = Some inet ->
  n_msg p = None -> n_dadr p = Some dd -> dadr_net dd = Some d -> n_hop p <> 0 ->
  (forall snet sm, n_sadr p = Some (snet, sm) -> find_net n (Some snet) = None /\ snet <> d) ->
  find_net n (Some d) = None ->
  find_path n d = Some (j, m') ->
  process_npdu n i src dst p =
    (learned n ai src p,
     [Fwd j (LStation m') (mkNpdu (n_dadr p) (Some (fwd_sadr inet src p)) (n_hop p - 1) None (n_data p))]).
Proof.
  intros n i ai inet src dst p dd d j m' Ha Hm Hr Hi Hmsg Hd Hdd Hh Hs Hfn Hfp.
  destruct (local_adapter_exists _ _ _ Ha) as [la Hla].
  pose proof (learned_adapters n ai src p) as Ead.
  rewrite (router_transit n i ai la src dst p dd false Ha Hla Hm Hmsg Hd);
    [|apply spoofed_false; intros snet sm E; apply (Hs snet sm E)| |reflexivity].
  - rewrite (forward_routed _ i ai inet src p dd d) by (rewrite ?(is_router_same _ _ Ead); assumption).
    rewrite (find_net_same _ _ Ead), Hfn, (learned_find_path n ai src p d), Hfp by (intros snet sm E; apply (Hs snet sm E)).
    unfold fwd_copy. rewrite Hmsg. reflexivity.
  - (* the destination network is neither the arrival adapter's nor the local one's *)
    unfold decision. rewrite Hd.
    pose proof (not_connected n d ai Hfn (nth_error_In _ _ Ha)) as E1.
    pose proof (not_connected n d la Hfn (nth_error_In _ _ Hla)) as E2.
    destruct dd; inversion Hdd; subst; rewrite E1, ?E2; reflexivity.
Qed.

Lemma router_forwards_unicast : forall n i ai inet src dst p d dm j m',
  nth_adapter n i = Some ai -> modelled_config n = true -> is_router n = true ->
  a_net ai = Some inet ->
  n_msg p = None -> n_dadr p = Some (DStation d dm) -> n_hop p <> 0 ->
  (forall snet sm, n_sadr p = Some (snet, sm) -> find_net n (Some snet) = None /\ snet <> d) ->
  find_net n (Some d) = None ->
  find_path n d = Some (j, m') ->
  process_npdu n i src dst p =
    (learned n ai src p,
     [Fwd j (LStation m') (mkNpdu (n_dadr p) (Some (fwd_sadr inet src p)) (n_hop p - 1) None (n_data p))]).
Proof. intros n i ai inet src dst p d dm j m' Ha Hm Hr Hi Hmsg Hd. exact (router_forwards n i ai inet src dst p _ d j m' Ha Hm Hr Hi Hmsg Hd eq_refl). Qed.

(* the router's own application (if any) is not the addressee *)
Definition not_for_me (la : adapter) (d : N) (dm : mac) : bool :=
  if optN_eqb (Some d) (a_net la)
  then match a_mac la with Some lm => negb (mac_eqb dm lm) | None => false end
  else true.

Lemma last_router_forwards : forall n i ai la inet src dst p dd d j pl,
  nth_adapter n i = Some ai -> nth_adapter n (local_idx n) = Some la ->
  modelled_config n = true -> is_router n = true ->
  a_net ai = Some inet ->
  n_msg p = None -> n_dadr p = Some dd -> dadr_net dd = Some d -> n_hop p <> 0 -> spoofed n p = false ->
  find_net n (Some d) = Some j -> j <> i ->
  decision i (local_idx n) ai la p = Ok (Some (pl, true)) -> pl && has_app n = false ->
  process_npdu n i src dst p =
    (learned n ai src p,
     [Fwd j (dadr_final dd) (mkNpdu None (Some (fwd_sadr inet src p)) (n_hop p - 1) None (n_data p))]).
Proof.
  intros n i ai la inet src dst p dd d j pl Ha Hla Hm Hr Hi Hmsg Hd Hdd Hh Hs Hfn Hji Hdec Hpl.
  pose proof (learned_adapters n ai src p) as Ead.
  rewrite (router_transit n i ai la src dst p dd pl Ha Hla Hm Hmsg Hd Hs Hdec Hpl).
  rewrite (forward_routed _ i ai inet src p dd d) by (rewrite ?(is_router_same _ _ Ead); assumption).
  rewrite (find_net_same _ _ Ead), Hfn. destruct (Nat.eqb_spec j i); [contradiction|]. unfold fwd_lastleg. rewrite Hmsg. reflexivity.
Qed.

Lemma last_router_forwards_unicast : forall n i ai inet src dst p d dm j la,
  nth_adapter n i = Some ai -> nth_adapter n (local_idx n) = Some la ->
  modelled_config n = true -> is_router n = true ->
  a_net ai = Some inet ->
  n_msg p = None -> n_dadr p = Some (DStation d dm) -> n_hop p <> 0 ->
  (forall snet sm, n_sadr p = Some (snet, sm) -> find_net n (Some snet) = None) ->
  find_net n (Some d) = Some j -> j <> i ->
  optN_eqb (Some d) (a_net ai) = false -> not_for_me la d dm = true ->
  process_npdu n i src dst p =
    (learned n ai src p,
     [Fwd j (LStation dm) (mkNpdu None (Some (fwd_sadr inet src p)) (n_hop p - 1) None (n_data p))]).
Proof.
  intros n i ai inet src dst p d dm j la Ha Hla Hm Hr Hi Hmsg Hd Hh Hs Hfn Hji Hnai Hnla.
  apply (last_router_forwards n i ai la inet src dst p (DStation d dm) d j false); try assumption; try reflexivity.
  { apply spoofed_false. assumption. }
  unfold decision. rewrite Hd, Hnai. unfold not_for_me in Hnla. destruct (optN_eqb (Some d) (a_net la)); [|reflexivity].
  destruct (a_mac la) as [lm|]; [|discriminate]. destruct (mac_eqb dm lm); [discriminate|reflexivity].
Qed.

Lemma station_config : forall n a, adapters n = [a] ->
  local_idx n = 0%nat /\ nth_adapter n 0 = Some a /\ modelled_config n = true /\ is_router n = false /\
  all_ports n = [0%nat] /\
  (forall x, find_net n x = if optN_eqb (a_net a) x then Some 0%nat else None) /\
  (forall d, find_path n d = option_map (pair 0%nat) (cache_get (rcache n) (a_net a) d)).
Proof.
  intros n a H. unfold local_idx, nth_adapter, modelled_config, is_router, all_ports, find_net, find_path. rewrite H.
  cbn. destruct (a_mac a); repeat split.
Qed.

Lemma station_up : forall n a src dst p,
  adapters n = [a] -> has_app n = true -> n_msg p = None -> apdu_ok (n_data p) = true ->
  n_dadr p = None \/ n_dadr p = Some DGlobal ->
  (forall sn sm, n_sadr p = Some (sn, sm) -> optN_eqb (a_net a) (Some sn) = false) ->
  process_npdu n 0 src dst p =
    (learned n a src p, [Up (shown_source n 0 a src p) (shown_dest n 0 a dst p) (n_data p)]).
Proof.
  intros n a src dst p Had Happ Hmsg Hok Hd Hs.
  destruct (station_config n a Had) as (Eli & Ena & Emc & Er & _ & Efn & _).
  assert (Hsp : spoofed n p = false).
  { apply spoofed_false. intros sn sm E. rewrite Efn, (Hs sn sm E). reflexivity. }
  assert (Hdec : exists fw, decision 0 0 a a p = Ok (Some (true, fw)) /\ fwd_tail (learned n a src p) 0 a src p fw = []).
  { unfold decision, fwd_tail, forward. destruct Hd as [Hd|Hd]; rewrite Hd; [exists false; auto|exists true].
    rewrite (is_router_same _ _ (learned_adapters n a src p)), Er. auto. }
  destruct Hdec as (fw & Hdec & Hft).
  rewrite process_npdu_unfold, Ena, Emc, Eli, Ena. cbv zeta. rewrite Hsp, Hdec, Hmsg. cbn [negb andb].
  rewrite <- learned_eq, learned_has_app, Happ, Hok. cbn [negb]. rewrite Hft. reflexivity.
Qed.

Lemma station_hands_up : forall n a src dst p sn sm,
  adapters n = [a] -> has_app n = true ->
  n_msg p = None -> n_dadr p = None -> apdu_ok (n_data p) = true ->
  n_sadr p = Some (sn, sm) -> optN_eqb (a_net a) (Some sn) = false ->
  process_npdu n 0 src dst p = (learned n a src p, [Up (ARS sn sm) (ldest_to_addr dst) (n_data p)]).
Proof.
  intros n a src dst p sn sm Had Happ Hmsg Hd Hok Hs Hne.
  rewrite (station_up n a src dst p Had Happ Hmsg Hok (or_introl Hd)) by (intros sn' sm' E; congruence).
  unfold shown_source, shown_dest. rewrite Hs, Hd, (proj1 (proj2 (proj2 (proj2 (station_config n a Had))))). reflexivity.
Qed.

Lemma station_sends_remote : forall n a d dest dd mapped m data,
  adapters n = [a] -> optN_eqb (Some d) (a_net a) = false ->
  pending_get (pending n) d = None -> cache_get (rcache n) (a_net a) d = Some m ->
  (dest = ARS d mapped /\ dd = DStation d mapped) \/ (dest = ARB d /\ dd = DBcast d) ->
  indication n dest data = (n, [Tx 0 (LStation m) (mkNpdu (Some dd) None 255 None data)]).
Proof.
  intros n a d dest dd mapped m data Had Hne Hp Hc Hdest.
  destruct (station_config n a Had) as (Eli & Ena & Emc & _ & _ & _ & Efp).
  unfold indication. rewrite Eli, Ena, Emc. cbn [negb].
  destruct Hdest as [[E1 E2]|[E1 E2]]; subst dest dd; rewrite Hne, Hp, Efp, Hc; reflexivity.
Qed.

Lemma own_net_other : forall (a : adapter) L x, a_net a = None \/ a_net a = Some L -> L <> x ->
  optN_eqb (a_net a) (Some x) = false.
Proof. intros a L x [E|E] H; rewrite E; cbn; [reflexivity|]. apply N.eqb_neq. exact H. Qed.

Lemma station_submits_remote : forall w src ws s smac a d dest dd mapped m data,
  queue w = [] -> nth_error (nodes w) src = Some ws -> w_ports ws = [(s, smac)] -> adapters (w_node ws) = [a] ->
  a_net a = None \/ a_net a = Some s -> s <> d ->
  pending_get (pending (w_node ws)) d = None -> cache_get (rcache (w_node ws)) (a_net a) d = Some m ->
  (dest = ARS d mapped /\ dd = DStation d mapped) \/ (dest = ARB d /\ dd = DBcast d) ->
  submit w src dest data =
  mkWorld (set_nth (nodes w) src (mkW (w_node ws) (w_ports ws))) (lans w)
          [mkFrame s smac (LStation m) (mkNpdu (Some dd) None 255 None data)] (trace w).
Proof.
  intros w src ws s smac a d dest dd mapped m data Hq Hws Hp Ha Hn Hsd Hpe Hc Hdest.
  rewrite (submit_one_frame w src ws dest data (w_node ws) 0 (LStation m) (mkNpdu (Some dd) None 255 None data) s smac Hws), Hq;
    [reflexivity| |rewrite Hp; reflexivity].
  apply (station_sends_remote _ a d dest dd mapped); auto. rewrite optN_eqb_sym. exact (own_net_other a s d Hn Hsd).
Qed.

Definition bcast_npdu (dest : addr) (data : list N) : npdu :=
  mkNpdu (match dest with AGB => Some DGlobal | _ => None end) None 255 None data.

Lemma station_submits_bcast : forall w src ws s smac a dest data,
  queue w = [] -> nth_error (nodes w) src = Some ws -> w_ports ws = [(s, smac)] -> adapters (w_node ws) = [a] ->
  dest = ALB \/ dest = AGB ->
  submit w src dest data =
  mkWorld (set_nth (nodes w) src (mkW (w_node ws) (w_ports ws))) (lans w)
          [mkFrame s smac LBcast (bcast_npdu dest data)] (trace w).
Proof.
  intros w src ws s smac a dest data Hq Hws Hp Ha Hdest.
  destruct (station_config _ a Ha) as (Eli & Ena & Emc & _ & Eap & _).
  unfold submit. rewrite Hws. unfold indication. rewrite Eli, Ena, Emc, Eap.
  destruct Hdest; subst dest; cbn [negb map emit w_ports]; rewrite Hp; cbn [nth_error]; rewrite Hq; reflexivity.
Qed.

Lemma station_sends_unicast : forall n a d dm m data,
  adapters n = [a] -> optN_eqb (Some d) (a_net a) = false ->
  pending_get (pending n) d = None -> cache_get (rcache n) (a_net a) d = Some m ->
  indication n (ARS d dm) data = (n, [Tx 0 (LStation m) (mkNpdu (Some (DStation d dm)) None 255 None data)]).
Proof. intros n a d dm m data Had Hne Hp Hc. apply (station_sends_remote n a d _ _ dm m data Had Hne Hp Hc). auto. Qed.

(* a station handed a routed packet showing source (sn, sm) has learned, from that very packet, that network sn is
   reached through the router `src` that delivered it; so its reply to the source shown leaves at once, to `src` *)
Theorem reply_goes_back_via_delivering_router : forall n a src dst p n' acts sn sm d x data,
  adapters n = [a] ->
  process_npdu n 0 src dst p = (n', acts) ->
  n_sadr p = Some (sn, sm) -> In (Up (ARS sn sm) d x) acts ->
  a_net a <> Some sn -> pending_get (pending n) sn = None ->
  indication n' (ARS sn sm) data
  = (n', [Tx 0 (LStation src) (mkNpdu (Some (DStation sn sm)) None 255 None data)]).
Proof.
  intros n a src dst p n' acts sn sm d x data Had H Hs Hin Hnet Hpend.
  destruct (process_npdu_up _ _ _ _ _ _ _ _ _ _ H Hin) as (ai & la & Ha & _ & _ & _ & _ & _ & _ & En & _).
  rewrite (proj1 (proj2 (station_config n a Had))) in Ha. inversion Ha; subst ai n'.
  change (learn_sadr n a src p) with (learned n a src p).
  apply (station_sends_unicast _ a).
  - rewrite learned_adapters. exact Had.
  - destruct (optN_eqb (Some sn) (a_net a)) eqn:E; [apply optN_eqb_some in E; congruence|reflexivity].
  - rewrite learned_pending. exact Hpend.
  - unfold learned. rewrite Hs. apply cache_learn_one.
Qed.
