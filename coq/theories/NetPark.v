(* NetPark.v — packets parked during path discovery keep the DADR they were submitted with and are released,
   each exactly once and in order, by the matching announcement (lemmas about Net.v, property C06). *)
From Bac Require Import Base Net NetFacts.
Open Scope N_scope.

(* a submission towards a remote network *)
Inductive sub := SUni (m : mac) (data : list N) | SBc (data : list N).

Definition sub_addr (dnet : N) (s : sub) : addr :=
  match s with SUni m _ => ARS dnet m | SBc _ => ARB dnet end.
Definition sub_data (s : sub) : list N := match s with SUni _ d | SBc d => d end.
(* the NPDU it must travel as *)
Definition sub_npdu (dnet : N) (s : sub) : npdu :=
  match s with
  | SUni m d => mkNpdu (Some (DStation dnet m)) None 255 None d
  | SBc d => mkNpdu (Some (DBcast dnet)) None 255 None d
  end.

Definition parked_for (n : node) (dnet : N) : list npdu :=
  match pending_get (pending n) dnet with Some l => l | None => [] end.

Lemma pending_get_add_same : forall p d x,
  pending_get (pending_add p d x) d = Some (match pending_get p d with Some l => l | None => [] end ++ [x]).
Proof.
  induction p as [|[k l] r IH]; intros d x; cbn [pending_add pending_get].
  - rewrite N.eqb_refl. reflexivity.
  - destruct (N.eqb_spec k d); cbn [pending_get].
    + subst k. rewrite N.eqb_refl. reflexivity.
    + destruct (N.eqb_spec k d); [contradiction|]. apply IH.
Qed.

Lemma indication_parks : forall n la dnet s,
  nth_adapter n (local_idx n) = Some la -> modelled_config n = true ->
  optN_eqb (Some dnet) (a_net la) = false -> find_path n dnet = None ->
  let n' := fst (indication n (sub_addr dnet s) (sub_data s)) in
  parked_for n' dnet = parked_for n dnet ++ [sub_npdu dnet s] /\
  adapters n' = adapters n /\ rcache n' = rcache n /\ has_app n' = has_app n /\
  (pending_wf (pending n) -> pending_wf (pending n')).
Proof.
  intros n la dnet s Hla Hm Hne Hfp n'. unfold n', indication. rewrite Hla, Hm. cbn [negb].
  destruct s as [m d|d]; cbn [sub_addr sub_data sub_npdu]; rewrite Hne, Hfp;
    unfold parked_for; destruct (pending_get (pending n) dnet) as [l|] eqn:Eg; cbn [fst pending set_pending adapters rcache has_app];
    rewrite pending_get_add_same, Eg; repeat split; try reflexivity; intros; apply pending_add_wf; assumption.
Qed.

Definition submit_all (n : node) (dnet : N) (subs : list sub) : node :=
  fold_left (fun n s => fst (indication n (sub_addr dnet s) (sub_data s))) subs n.

Lemma same_config : forall n n', adapters n' = adapters n -> rcache n' = rcache n ->
  local_idx n' = local_idx n /\ (forall i, nth_adapter n' i = nth_adapter n i) /\
  modelled_config n' = modelled_config n /\ (forall d, find_path n' d = find_path n d) /\
  is_router n' = is_router n /\ (forall i, other_ports n' i = other_ports n i).
Proof.
  intros n n' Ha Hc. unfold local_idx, nth_adapter, modelled_config, find_path, is_router, other_ports.
  rewrite Ha, Hc. repeat split; reflexivity.
Qed.

Lemma submit_all_parks : forall subs n la dnet,
  nth_adapter n (local_idx n) = Some la -> modelled_config n = true ->
  optN_eqb (Some dnet) (a_net la) = false -> find_path n dnet = None ->
  parked_for (submit_all n dnet subs) dnet = parked_for n dnet ++ map (sub_npdu dnet) subs /\
  adapters (submit_all n dnet subs) = adapters n /\ rcache (submit_all n dnet subs) = rcache n /\
  (pending_wf (pending n) -> pending_wf (pending (submit_all n dnet subs))).
Proof.
  induction subs as [|s r IH]; intros n la dnet Hla Hm Hne Hfp; cbn [submit_all fold_left map].
  - rewrite app_nil_r. repeat split; auto.
  - destruct (indication_parks n la dnet s Hla Hm Hne Hfp) as (P1 & P2 & P3 & P4 & P5).
    set (n1 := fst (indication n (sub_addr dnet s) (sub_data s))) in *.
    destruct (same_config n n1 P2 P3) as (C1 & C2 & C3 & C4 & _).
    destruct (IH n1 la dnet) as (Q1 & Q2 & Q3 & Q4).
    + rewrite C1, C2. exact Hla.
    + rewrite C3. exact Hm.
    + exact Hne.
    + rewrite C4. exact Hfp.
    + fold (submit_all n1 dnet r). rewrite Q1, P1, <- app_assoc. cbn [app].
      repeat split; [congruence|congruence|auto].
Qed.

(* A node without a path to dnet is handed a burst of packets for it: all are parked.  When the
   I-Am-Router-To-Network for dnet arrives from router `src` on adapter i, the node transmits the relays (if it is a
   router), then every parked packet (those parked before, then the burst in submission order), each once, to that
   router and as sub_npdu says: the DADR the application asked for, hop count 255, no SADR.  Nothing remains parked
   for dnet. *)
Theorem burst_released_once_with_dadr : forall n la dnet s0 subs i ai src dst n'' acts,
  nth_adapter n (local_idx n) = Some la -> modelled_config n = true ->
  optN_eqb (Some dnet) (a_net la) = false -> find_path n dnet = None ->
  dnet < 65536 -> pending_wf (pending n) -> nth_adapter n i = Some ai ->
  process_npdu (submit_all n dnet (s0 :: subs)) i src dst (i_am [dnet]) = (n'', acts) ->
  acts = (if is_router n then map (fun j => Tx j LBcast (i_am [dnet])) (other_ports n i) else [])
         ++ map (fun q => Tx i (LStation src) q) (parked_for n dnet ++ map (sub_npdu dnet) (s0 :: subs))
  /\ pending_get (pending n'') dnet = None /\ pending_wf (pending n'').
Proof.
  intros n la dnet s0 subs i ai src dst n'' acts Hla Hm Hne Hfp Hd Hwf Hi H.
  destruct (submit_all_parks (s0 :: subs) n la dnet Hla Hm Hne Hfp) as (Q1 & Q2 & Q3 & Q4).
  set (n1 := submit_all n dnet (s0 :: subs)) in *.
  destruct (same_config n n1 Q2 Q3) as (C1 & C2 & C3 & C4 & C5 & C6).
  assert (Hg : pending_get (pending n1) dnet = Some (parked_for n dnet ++ map (sub_npdu dnet) (s0 :: subs))).
  { unfold parked_for in Q1 at 1. destruct (pending_get (pending n1) dnet) as [l|] eqn:E; [congruence|].
    cbn [map] in Q1. destruct (parked_for n dnet); discriminate. }
  assert (Hi1 : nth_adapter n1 i = Some ai) by (rewrite C2; exact Hi).
  assert (Hm1 : modelled_config n1 = true) by (rewrite C3; exact Hm).
  destruct (i_am_releases_parked n1 i ai src dst dnet _ n'' acts Hi1 Hm1 Hd (Q4 Hwf) Hg H) as (A1 & A2 & A3).
  rewrite C5, C6 in A1. auto.
Qed.
