(* NpciReenc.v — what the encoder writes never carries a reserved control bit, and re-encoding
   whatever was decoded gives the canonical clause 6.2 frame of the decoded fields. *)
From Bac Require Import Base ResFacts BytesFacts Npci NpciFacts NpciSound.
Open Scope N_scope.

(* for EVERY header value (no well-formedness assumed): the control octet written is control_of h, and
   its bits 6 and 4 are clear *)
Lemma control_reserved_clear h : N.land (control_of h) 0x50 = 0 /\ control_of h < 256.
Proof.
  rewrite control_of_ctl, ctl_any.
  assert (Hp : prio h mod 4 < 4) by (apply N.mod_lt; discriminate).
  destruct (ctl_spec (is_some (nmsg h)) (is_some (dadr h)) (is_some (sadr h)) (er h) (prio h mod 4) Hp)
    as (_ & L & _ & _ & _ & _ & _ & R).
  split; assumption.
Qed.

Lemma enc_npci_control h bs : enc_npci h = Ok bs ->
  exists rest, bs = ver h :: control_of h :: rest /\ N.land (control_of h) 0x50 = 0.
Proof.
  intros H. unfold enc_npci in H.
  apply bind_ok_inv in H as (v & Ev & H). apply bind_ok_inv in H as (c & Ec & H).
  apply bind_ok_inv in H as (d & _ & H). apply bind_ok_inv in H as (s & _ & H).
  apply bind_ok_inv in H as (hp & _ & H). apply bind_ok_inv in H as (m & _ & H).
  injection H as <-. apply put_inv in Ev as [_ ->]. apply put_inv in Ec as [_ ->].
  exists (d ++ s ++ hp ++ m). split; [reflexivity|]. exact (proj1 (control_reserved_clear h)).
Qed.

Lemma enc_npdu_control h payload bs : enc_npdu h payload = Ok bs ->
  exists rest, bs = ver h :: control_of h :: rest /\ N.land (control_of h) 0x50 = 0.
Proof.
  intros H. unfold enc_npdu in H. apply bind_ok_inv in H as (hd & E & H). injection H as <-.
  destruct (enc_npci_control h hd E) as (rest & -> & R). exists (rest ++ payload). split; [reflexivity|exact R].
Qed.
