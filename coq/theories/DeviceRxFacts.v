(* DeviceRxFacts.v — C10, health under garbage: the invariant of the device's transaction table is kept by
   device_rx for EVERY frame (any octet string from any station), by every timer, hence over every history.
   Built on the per-handler facts of the SSM model (SsmC04h: s_*_h, SsmC11s: *_keeps_key). *)
From Bac Require Import Base ListFacts PyRt Ssm SsmFacts SsmFrame SsmC04h SsmC11s.
From Bac Require Npci Apci RouterCache SsmWorld.
From Bac Require Import DeviceRx.
Open Scope Z_scope.

Definition key (t : ssm) : Z * Z := (s_invoke t, s_peer t).
Definition cfg_ok (c : SsmWorld.nodecfg) : Prop := 0 < SsmWorld.c_app_to c /\ 0 < SsmWorld.c_seg_to c.

(* the node invariant of C10: one transaction per invoke ID and peer; every listed transaction is in a state that has a
   time-out handler and is armed; nothing that has left the table holds a timer *)
Definition dev_inv (st : dev_state) : Prop :=
  cfg_ok (d_cfg st) /\ NoDup (map key (d_str st)) /\ Forall s_inv (d_str st) /\ Forall s_done (d_gone st).

Definition same_tables (st st' : dev_state) : Prop :=
  d_cfg st' = d_cfg st /\ d_str st' = d_str st /\ d_gone st' = d_gone st /\ d_tctr st' = d_tctr st /\ d_dcc st' = d_dcc st.

Lemma same_tables_refl st : same_tables st st.
Proof. repeat split. Qed.
Lemma same_tables_trans a b c : same_tables a b -> same_tables b c -> same_tables a c.
Proof. unfold same_tables. intuition congruence. Qed.
Lemma same_tables_inv st st' : same_tables st st' -> dev_inv st -> dev_inv st'.
Proof. intros (H1 & H2 & H3 & _) (A & B & C & D). unfold dev_inv. rewrite H1, H2, H3. auto. Qed.

Lemma send_tables st net m a : same_tables st (fst (send st net m a)).
Proof.
  unfold send. destruct net as [n|]; [|apply same_tables_refl].
  destruct (existsb _ _); [repeat split|].
  destruct (RouterCache.get_router_info _ _ _); repeat split.
Qed.

(* the model threads (state, frames) pairs through `let '(..)`; the state that comes out is the second step's *)
Lemma fst_seq {S A B C} (p : S * A) (k : S -> S * B) (g : A -> B -> C) :
  fst (let '(s1, a) := p in let '(s2, b) := k s1 in (s2, g a b)) = fst (k (fst p)).
Proof. destruct p as [s1 a]. cbn [fst]. now destruct (k s1). Qed.

Lemma send_all_tables outs : forall st net m, same_tables st (fst (send_all st net m outs)).
Proof.
  induction outs as [|o r IH]; intros st net m; cbn [send_all]; [apply same_tables_refl|].
  destruct o as [a|a]; [|apply IH].
  rewrite fst_seq. eapply same_tables_trans; [apply send_tables | apply IH].
Qed.

Lemma map_replace_nth_same {A} (l : list A) : forall i x y, nth_error l i = Some y ->
  forall (f : A -> Z * Z), f x = f y -> map f (SsmWorld.replace_nth i x l) = map f l.
Proof.
  induction l as [|z r IH]; intros [|i] x y H f Hf; cbn in *; try discriminate.
  - inversion H; subst. rewrite Hf. reflexivity.
  - rewrite (IH i x y H f Hf). reflexivity.
Qed.

Lemma Forall_replace_nth {A} (P : A -> Prop) (l : list A) : forall i x, Forall P l -> P x -> Forall P (SsmWorld.replace_nth i x l).
Proof.
  induction l as [|z r IH]; intros [|i] x H Hx; cbn; auto; inversion H; subst; constructor; auto.
Qed.

Lemma Forall_remove_nth {A} (P : A -> Prop) (l : list A) : forall i, Forall P l -> Forall P (SsmWorld.remove_nth i l).
Proof.
  induction l as [|z r IH]; intros [|i] H; cbn; auto; inversion H; subst; auto.
Qed.

Lemma NoDup_map_remove_nth {A B} (f : A -> B) (l : list A) : forall i, NoDup (map f l) -> NoDup (map f (SsmWorld.remove_nth i l)).
Proof.
  induction l as [|z r IH]; intros [|i] H; cbn in *; auto; inversion H; subst; auto.
  constructor; [|apply IH; assumption].
  intro Hin. apply H2. clear - Hin. revert i Hin. induction r as [|y r IH]; intros [|i] Hin; cbn in *; auto.
  destruct Hin as [<-|Hin]; [left; reflexivity | right; eapply IH; eassumption].
Qed.

Definition result_ok (r : hst) : Prop := (h_live r = true -> s_inv (h_s r)) /\ (h_live r = false -> s_done (h_s r)).

Lemma post_h_result r : post_h r -> result_ok (fst r).
Proof. intros H. exact H. Qed.

Lemma place_some_inv st i t r : dev_inv st -> nth_error (d_str st) i = Some t -> result_ok r -> key (h_s r) = key t ->
  dev_inv (place st (Some i) r).
Proof.
  intros (A & B & C & D) Hn (R1 & R2) Hk. unfold place, dev_inv. cbn [d_cfg d_str d_gone set_tables].
  split; [exact A|]. destruct (h_live r) eqn:El.
  - split; [rewrite (map_replace_nth_same _ _ _ _ Hn key Hk); exact B|].
    split; [apply Forall_replace_nth; auto | exact D].
  - split; [apply NoDup_map_remove_nth; exact B|].
    split; [apply Forall_remove_nth; exact C | constructor; auto].
Qed.

Lemma place_none_inv st r : dev_inv st -> result_ok r -> (h_live r = true -> ~ In (key (h_s r)) (map key (d_str st))) ->
  dev_inv (place st None r).
Proof.
  intros (A & B & C & D) (R1 & R2) Hk. unfold place, dev_inv. cbn [d_cfg d_str d_gone set_tables].
  split; [exact A|]. destruct (h_live r) eqn:El.
  - split; [rewrite map_app; cbn [map]; apply nodup_snoc; auto|].
    split; [apply Forall_app; split; [exact C | constructor; auto] | exact D].
  - split; [exact B | split; [exact C | constructor; auto]].
Qed.

Lemma listed_inv st i t : dev_inv st -> nth_error (d_str st) i = Some t -> s_inv t.
Proof. intros (_ & _ & C & _) Hn. rewrite Forall_forall in C. apply C. eapply nth_error_In; eauto. Qed.

Lemma answer_inv st now peer net m a : dev_inv st -> dev_inv (fst (answer st now peer net m a)).
Proof.
  intros Hinv. unfold answer.
  destruct (find_tr (a_invoke a) peer (d_str st) 0) as [[i t]|] eqn:Ef; [|exact Hinv].
  apply find_tr_nth in Ef. destruct Ef as (Hn & Hm).
  pose (r := fst (s_confirmation a (fresh_h t (d_tctr st) now))).
  pose proof (listed_inv st i t Hinv Hn) as Ht.
  assert (Hr : result_ok r). { apply (s_confirmation_h a (fresh_h t (d_tctr st) now)); [exact Ht | reflexivity]. }
  assert (Hk : key (h_s r) = key t).
  { destruct (s_confirmation_keeps_key _ _ a (fresh_h t (d_tctr st) now) (conj eq_refl eq_refl)) as (Hp & Hi).
    exact (f_equal2 pair Hi Hp). }
  eapply same_tables_inv; [apply send_all_tables | exact (place_some_inv st i t r Hinv Hn Hr Hk)].
Qed.

Lemma answer_all_inv l : forall st now peer net m, dev_inv st -> dev_inv (fst (answer_all st now peer net m l)).
Proof.
  induction l as [|a r IH]; intros st now peer net m H; cbn [answer_all]; [exact H|].
  rewrite fst_seq. apply IH, answer_inv, H.
Qed.

Lemma do_outs_inv x now peer net m outs : forall st, dev_inv st -> dev_inv (fst (do_outs x now peer net m outs st)).
Proof.
  induction outs as [|o r IH]; intros st H; cbn [do_outs]; [exact H|].
  destruct o as [a|a].
  - rewrite fst_seq. apply IH. exact (same_tables_inv _ _ (send_tables st net m a) H).
  - destruct (a_type a =? 0); [|apply IH; exact H].
    rewrite fst_seq. apply IH, answer_all_inv, H.
Qed.

Lemma run_server_some_inv st i t hm x now peer net m : dev_inv st -> nth_error (d_str st) i = Some t ->
  result_ok (fst (hm (fresh_h t (d_tctr st) now))) -> key (h_s (fst (hm (fresh_h t (d_tctr st) now)))) = key t ->
  dev_inv (fst (run_server st (Some i) t hm x now peer net m)).
Proof.
  intros H Hn Hr Hk. unfold run_server. apply do_outs_inv.
  apply (place_some_inv st i t _ H Hn Hr Hk).
Qed.

Lemma run_server_none_inv st t hm x now peer net m : dev_inv st ->
  result_ok (fst (hm (fresh_h t (d_tctr st) now))) ->
  (~ In (key (h_s (fst (hm (fresh_h t (d_tctr st) now))))) (map key (d_str st))) ->
  dev_inv (fst (run_server st None t hm x now peer net m)).
Proof.
  intros H Hr Hk. unfold run_server. apply do_outs_inv.
  apply (place_none_inv st _ H Hr). intros _. exact Hk.
Qed.

Lemma existing_inv st i t a x now peer net m : dev_inv st -> nth_error (d_str st) i = Some t ->
  dev_inv (fst (run_server st (Some i) t (s_indication a) x now peer net m)).
Proof.
  intros H Hn. pose proof (listed_inv st i t H Hn) as Ht.
  apply run_server_some_inv; auto.
  - apply (s_indication_h a (fresh_h t (d_tctr st) now)); [exact Ht | reflexivity].
  - destruct (s_indication_keeps_key _ _ a (fresh_h t (d_tctr st) now) (s_inv_not_idle t Ht) (conj eq_refl eq_refl)) as (Hp & Hi).
    exact (f_equal2 pair Hi Hp).
Qed.

Lemma tr_matches_key i p t : tr_matches i p t = true <-> key t = (i, p).
Proof. unfold tr_matches, key. split; [intros H; f_equal; lia | intros H; inversion H; subst; lia]. Qed.

Lemma fresh_inv st a x now net m : dev_inv st -> wf_request a ->
  find_tr (a_invoke a) (peer_code net m) (d_str st) O = None ->
  dev_inv (fst (run_server st None (SsmWorld.new_ssm (d_cfg st) (peer_code net m) false) (s_indication a) x now (peer_code net m) net m)).
Proof.
  intros H Hwf Hf. set (peer := peer_code net m). set (t0 := SsmWorld.new_ssm (d_cfg st) peer false).
  assert (Hidle : s_state (h_s (fresh_h t0 (d_tctr st) now)) = IDLE) by reflexivity.
  destruct H as (Hc & Hrest). assert (H : dev_inv st) by (split; assumption). destruct Hc as (Hc1 & Hc2).
  apply run_server_none_inv; auto.
  - rewrite (s_indication_idle a _ Hidle).
    apply (s_idle_h a (fresh_h t0 (d_tctr st) now)); auto.
  - destruct (s_idle_takes_key a (fresh_h t0 (d_tctr st) now) Hidle (proj1 Hwf)) as (Hp & Hi).
    unfold key. rewrite Hp, Hi. cbn [h_s fresh_h]. change (s_peer t0) with peer.
    intro Hin. apply in_map_iff in Hin. destruct Hin as (t & Hk & Hin).
    apply (find_tr_none _ _ _ _ Hf) in Hin. apply tr_matches_key in Hk. subst t0 peer. congruence.
Qed.

Lemma iam_update_inv st peer ma sg : dev_inv st -> dev_inv (iam_update st peer ma sg).
Proof.
  intros (A & B & C & D). unfold iam_update, dev_inv. cbn [d_cfg d_str d_gone].
  split; [exact A|]. split; [|split; [|exact D]].
  (* set_dinfo_f writes s_dinfo only: neither the key nor a field s_inv reads *)
  - rewrite map_map. erewrite map_ext; [exact B|]. intros t. cbv beta. destruct (_ && _); reflexivity.
  - rewrite Forall_forall in *. intros t' Hin. apply in_map_iff in Hin. destruct Hin as (t & <- & Hin).
    destruct (_ && _); exact (C t Hin).
Qed.

Lemma smap_rx_inv st now net m a x : dev_inv st -> (a_type a = 0 -> wf_request a) ->
  dev_inv (fst (smap_rx st now net m a x)).
Proof.
  intros H Hwf. unfold smap_rx.
  destruct (negb (dcc_passes (d_dcc st) a)); [exact H|].
  destruct (a_type a =? 0) eqn:E0.
  { destruct (find_tr (a_invoke a) (peer_code net m) (d_str st) 0) as [[i t]|] eqn:Ef.
    - apply find_tr_nth in Ef. apply existing_inv; tauto.
    - apply fresh_inv; auto. apply Hwf. lia. }
  destruct (a_type a =? 1).
  { cbn [fst]. destruct (x_iam x) as [[ma sg]|]; [apply iam_update_inv|]; exact H. }
  destruct (to_client_side a); [exact H|].
  destruct ((a_type a =? 4) || (a_type a =? 7)); [|exact H].
  destruct (find_tr (a_invoke a) (peer_code net m) (d_str st) 0) as [[i t]|] eqn:Ef; [|exact H].
  apply find_tr_nth in Ef. apply existing_inv; tauto.
Qed.

Lemma land_lt (a : N) (k : N) : (N.land a (N.ones k) < 2 ^ k)%N.
Proof. rewrite N.land_ones. apply N.mod_lt. apply N.pow_nonzero. discriminate. Qed.

Lemma dec_apci_request_wf bs h p : Apci.dec_apci bs = Ok (h, p) -> a_type (to_apdu h p) = 0 -> wf_request (to_apdu h p).
Proof.
  intros H Ht. unfold Apci.dec_apci in H.
  destruct bs as [|buff r]; cbn [get bind] in H; [discriminate|].
  destruct (N.land (N.shiftr buff 4) 15 =? 0)%N.
  { destruct r as [|b1 r1]; cbn [get bind] in H; [discriminate|].
    unfold Apci.getz in H.
    destruct r1 as [|b2 r2]; cbn [get bind] in H; [discriminate|].
    assert (Hms : 0 <= Z.of_N (N.land (N.shiftr b1 4) 7) < 8).
    { pose proof (land_lt (N.shiftr b1 4) 3). change (N.ones 3) with 7%N in H0. change (2 ^ 3)%N with 8%N in H0. lia. }
    assert (Hmr : 0 <= Z.of_N (N.land b1 15) < 16).
    { pose proof (land_lt b1 4). change (N.ones 4) with 15%N in H0. change (2 ^ 4)%N with 16%N in H0. lia. }
    destruct (Apci.truthy (Apci.bit buff 8)).
    - destruct r2 as [|b3 r3]; cbn [get bind] in H; [discriminate|].
      destruct r3 as [|b4 r4]; cbn [get bind] in H; [discriminate|].
      destruct r4 as [|b5 r5]; cbn [get bind fst snd] in H; [discriminate|].
      injection H as <- <-. unfold wf_request, to_apdu. cbn. auto.
    - destruct r2 as [|b3 r3]; cbn [get bind fst snd] in H; [discriminate|].
      injection H as <- <-. unfold wf_request, to_apdu. cbn. auto. }
  (* every other PDU type: whatever the octets, each way the decoder succeeds gives a header with a_type <> 0 *)
  exfalso. unfold Apci.getz in H.
  repeat match type of H with
  | (if ?c then _ else _) = _ => destruct c
  end;
  repeat match type of H with
  | context [get ?l] => is_var l; destruct l; cbn [get bind fst snd] in H
  | context [if Apci.truthy ?b then _ else _] => destruct (Apci.truthy b); cbn [get bind fst snd] in H
  end; try discriminate; injection H as <- <-; cbn in Ht; discriminate.
Qed.

Lemma nse_rx_tables st f msg : same_tables st (fst (nse_rx st f msg)).
Proof.
  unfold nse_rx. destruct msg; try apply same_tables_refl.
  - destruct (RouterCache.update_router_info _ _ _ _ _); [|apply same_tables_refl].
    destruct (flush_pending _ _ _). repeat split.
  - destruct (f_bcast f); repeat split.
Qed.

(* the first thing device_rx does with a decoded header: (re)learn the path to the frame's SNET, if it names one *)
Definition learn (st : dev_state) (f : frame) (h : Npci.npci) : option dev_state :=
  match Npci.sadr h with
  | Some (Npci.RStation snet _) =>
      match RouterCache.update_router_info (d_cache st) NONE_NET (mac_code (f_src f)) [Z.of_N snet] ROUTER_AVAILABLE with
      | Ok ca => Some (set_net ca (d_pending st) st)
      | Err _ => None
      end
  | _ => Some st
  end.

Lemma learn_tables st f h st1 : learn st f h = Some st1 -> same_tables st st1.
Proof.
  unfold learn. destruct (Npci.sadr h) as [[snet smac|?|]|]; try (intros [= <-]; apply same_tables_refl).
  destruct (RouterCache.update_router_info _ _ _ _ _); intros [= <-]. repeat split.
Qed.

Lemma learn_no_sadr st f h : Npci.sadr h = None -> learn st f h = Some st.
Proof. unfold learn. now intros ->. Qed.

Theorem device_rx_inv st now f x : dev_inv st -> dev_inv (fst (device_rx st now f x)).
Proof.
  intros H. unfold device_rx.
  destruct (Npci.dec_npci (f_data f)) as [[[c h] rest]|e]; [|exact H].
  cbv zeta. fold (learn st f h). destruct (learn st f h) as [st1|] eqn:L; [|exact H].
  pose proof (same_tables_inv _ _ (learn_tables _ _ _ _ L) H) as H1.
  destruct (negb _); [exact H1|].
  destruct (Npci.nmsg h) as [t|].
  - destruct (negb _); [exact H1|].
    destruct (Npci.dec_msg t rest) as [[msg r']|e]; [|exact H1].
    eapply same_tables_inv; [apply nse_rx_tables | exact H1].
  - destruct (Apci.dec_apci rest) as [[ah payload]|e] eqn:Ed; [|exact H1].
    destruct (match Npci.sadr h with Some (Npci.RStation snet smac) => (Some snet, smac) | _ => (None, f_src f) end) as [net m].
    apply smap_rx_inv; [exact H1|]. intros Ht. eapply dec_apci_request_wf; eauto.
Qed.

Theorem device_fire_inv st now i : dev_inv st -> dev_inv (fst (device_fire st now i)).
Proof.
  intros H. unfold device_fire.
  destruct (nth_error (d_str st) i) as [t|] eqn:Hn; [|exact H].
  destruct (peer_decode (s_peer t)) as [net m].
  pose (r := fst (s_process_task (fresh_h (set_timer_f None t) (d_tctr st) now))).
  pose proof (listed_inv st i t H Hn) as Ht.
  assert (Hr : result_ok r). { apply (s_process_task_h (fresh_h t (d_tctr st) now)); [exact Ht | reflexivity]. }
  assert (Hk : key (h_s r) = key t).
  { destruct (s_process_task_keeps_key _ _ (fresh_h (set_timer_f None t) (d_tctr st) now) (conj eq_refl eq_refl)) as (Hp & Hi).
    exact (f_equal2 pair Hi Hp). }
  eapply same_tables_inv; [apply send_all_tables | exact (place_some_inv st i t r H Hn Hr Hk)].
Qed.

Lemma advance_inv fuel : forall st now limit, dev_inv st -> dev_inv (fst (fst (fst (advance fuel st now limit)))).
Proof.
  induction fuel as [|f IH]; intros st now limit H; cbn [advance]; [exact H|].
  destruct (next_timer (d_str st)) as [[tm i]|]; [|exact H].
  destruct (match limit with Some L => L <? tm | None => false end); [exact H|].
  pose proof (device_fire_inv st (Z.max now tm) i H) as H1.
  destruct (device_fire st (Z.max now tm) i) as [st1 o1]. cbn [fst] in H1.
  pose proof (IH st1 (Z.max now tm) limit H1) as H2.
  destruct (advance f st1 (Z.max now tm) limit) as [[[st2 o2] n2] b]. exact H2.
Qed.

Lemma device_step_inv st ev : dev_inv st -> dev_inv (fst (device_step st ev)).
Proof.
  destruct ev as [now f x|now i|now limit]; [apply device_rx_inv | apply device_fire_inv |].
  intros H. cbn [device_step]. pose proof (advance_inv ADV_FUEL st now (Some limit) H) as H1.
  destruct (advance ADV_FUEL st now (Some limit)) as [[[st1 o] n] b]. exact H1.
Qed.

Lemma dev_init_inv c : cfg_ok c -> dev_inv (dev_init c).
Proof. intros H. unfold dev_inv, dev_init. cbn. repeat split; try apply H; constructor. Qed.

(* the residue the property talks about: every listed transaction armed, no timer elsewhere *)
Lemma filter_armed_all l : Forall s_inv l -> filter armed l = l.
Proof.
  induction l as [|t r IH]; intros H; [reflexivity|]. inversion H as [|? ? Ht Hr]; subst. cbn [filter].
  destruct Ht as (_ & Harm & _). unfold armed at 1. destruct (s_timer t) eqn:E; [|congruence]. f_equal. auto.
Qed.
Lemma filter_armed_none l : Forall s_done l -> filter armed l = [].
Proof.
  induction l as [|t r IH]; intros H; [reflexivity|]. inversion H as [|? ? Ht Hr]; subst. cbn [filter].
  destruct Ht as (_ & Hn). unfold armed at 1. rewrite Hn. auto.
Qed.

(* the APCI decoder refuses (truncated header, PDU type 8..15): only the path to the frame's SNET (if it names one) may
   have been learned *)
Lemma apci_refused_dropped st now f x c h rest e :
  Npci.dec_npci (f_data f) = Ok (c, h, rest) -> Npci.nmsg h = None -> Apci.dec_apci rest = Err e ->
  snd (device_rx st now f x) = [] /\ same_tables st (fst (device_rx st now f x)) /\
  (Npci.sadr h = None -> device_rx st now f x = (st, [])).
Proof.
  intros H Hm Hd. unfold device_rx. rewrite H, Hm, Hd. cbv zeta. fold (learn st f h).
  destruct (learn st f h) as [st1|] eqn:L; [|split; [reflexivity|]; split; [apply same_tables_refl | reflexivity]].
  assert (S : same_tables st st1) by exact (learn_tables _ _ _ _ L).
  assert (N : Npci.sadr h = None -> st1 = st) by (intros Hs; rewrite (learn_no_sadr st f h Hs) in L; now injection L).
  destruct (negb _); cbn [fst snd]; (split; [reflexivity|]; split; [exact S | intros Hs; now rewrite (N Hs)]).
Qed.

Lemma netmsg_refused_dropped st now f x c h rest t :
  Npci.dec_npci (f_data f) = Ok (c, h, rest) -> Npci.nmsg h = Some t ->
  (existsb (N.eqb t) Npci.registered_types = false \/ exists e, Npci.dec_msg t rest = Err e) ->
  snd (device_rx st now f x) = [] /\ same_tables st (fst (device_rx st now f x)).
Proof.
  intros H Hm Hd. unfold device_rx. rewrite H, Hm. cbv zeta. fold (learn st f h).
  destruct (learn st f h) as [st1|] eqn:L; [|split; [reflexivity | apply same_tables_refl]].
  apply learn_tables in L.
  destruct (negb (match Npci.dadr h with None => true | Some Npci.GBroadcast => true | Some _ => false end)); [auto|].
  destruct Hd as [->|(e & ->)]; cbn [negb fst snd]; [auto|]. destruct (negb _); auto.
Qed.

Example peer_decode_examples :
  peer_decode (peer_code None [9%N]) = (None, [9%N]) /\
  peer_decode (peer_code (Some 700%N) [1; 0; 255]%N) = (Some 700%N, [1; 0; 255]%N) /\
  peer_decode (peer_code (Some 0%N) [0; 0]%N) = (Some 0%N, [0; 0]%N) /\
  peer_code None [0; 9]%N <> peer_code None [9%N].
Proof. vm_compute. repeat split; discriminate. Qed.
