(* NetNumInv.v — the router cache of a node is always filed under the numbers of its own ports (property C06):
   invariant of every event of NetNum.v, so that the "paths survive the learning of the number" clause of
   thm_number_learned applies in every reachable state of a station. *)
From Bac Require Import Base Net NetFacts NetNum NetNumFacts.
Open Scope N_scope.

Definition filed (n : node) : Prop :=
  forall k mm, In (k, mm) (rcache n) -> exists a, In a (adapters n) /\ fst k = a_net a.

Lemma cache_set_in : forall c k m k' m', In (k', m') (cache_set c k m) -> k' = k \/ In (k', m') c.
Proof.
  induction c as [|[k0 m0] r IH]; intros k m k' m' H; cbn [cache_set] in H.
  - destruct H as [H|[]]. inversion H; subst; left; reflexivity.
  - destruct (key_eqb k0 k).
    + destruct H as [H|H]; [inversion H; subst; left; reflexivity | right; right; exact H].
    + destruct H as [H|H]; [right; left; exact H|]. destruct (IH _ _ _ _ H) as [E|E]; [left; exact E | right; right; exact E].
Qed.

Lemma cache_update_in : forall dn c s m k' m', In (k', m') (cache_update c s m dn) -> fst k' = s \/ In (k', m') c.
Proof.
  unfold cache_update. induction dn as [|d r IH]; intros c s m k' m' H; cbn [fold_left] in H; [right; exact H|].
  destruct (IH _ _ _ _ _ H) as [E|E]; [left; exact E|].
  destruct (cache_set_in _ _ _ _ _ E) as [E2|E2]; [left; subst; reflexivity | right; exact E2].
Qed.

Lemma process_npdu_cache_in : forall n i src dst p n' acts k mm,
  process_npdu n i src dst p = (n', acts) -> In (k, mm) (rcache n') ->
  In (k, mm) (rcache n) \/ exists ai, nth_adapter n i = Some ai /\ fst k = a_net ai.
Proof.
  intros n i src dst p n' acts k mm H Hin.
  destruct (process_npdu_shape _ _ _ _ _ _ _ H) as [[E _]|(ai & la & Ha & _ & _ & _ & head & fw & _ & Hh)];
    [subst; left; exact Hin|].
  assert (Hn1 : forall k mm, In (k, mm) (rcache (learn_sadr n ai src p)) ->
                  In (k, mm) (rcache n) \/ exists a, Some ai = Some a /\ fst k = a_net a).
  { intros k0 m0 H0. unfold learn_sadr in H0. destruct (n_sadr p) as [[sn sm]|]; [|left; exact H0].
    cbn [rcache set_cache] in H0.
    destruct (cache_update_in _ _ _ _ _ _ H0) as [E|E]; [right; exists ai; split; [reflexivity|exact E] | left; exact E]. }
  rewrite Ha. destruct Hh as [[E _]|[(w & _ & _ & E)|(nets & _ & _ & E)]].
  - subst n'. exact (Hn1 _ _ Hin).
  - apply nse_who_is_spec in E. destruct E as [E _]. subst n'. exact (Hn1 _ _ Hin).
  - apply nse_i_am_spec in E. destruct E as (_ & _ & Hc & _). rewrite Hc in Hin.
    destruct (cache_update_in _ _ _ _ _ _ Hin) as [E|E]; [right; exists ai; split; [reflexivity|exact E] | exact (Hn1 _ _ E)].
Qed.

Lemma process_npdu_filed : forall n i src dst p n' acts,
  filed n -> process_npdu n i src dst p = (n', acts) -> filed n'.
Proof.
  intros n i src dst p n' acts Hf H k mm Hin. rewrite (process_npdu_adapters _ _ _ _ _ _ _ H).
  destruct (process_npdu_cache_in _ _ _ _ _ _ _ _ _ H Hin) as [E|(ai & Ea & Ek)]; [exact (Hf _ _ E)|].
  exists ai. split; [exact (nth_error_In _ _ Ea) | exact Ek].
Qed.

Lemma set_net_filed : forall n ai i net,
  filed n -> nth_adapter n i = Some ai ->
  filed (set_net n net (cache_rekey (rcache n) (a_net ai) (Some net))).
Proof.
  intros n ai i net Hf Ea. unfold set_net. destruct (adapters n) as [|a [|b r]] eqn:E; try exact Hf.
  assert (ai = a).
  { unfold nth_adapter in Ea. rewrite E in Ea. destruct i; cbn in Ea; [inversion Ea; reflexivity|]. destruct i; discriminate. }
  subst ai.
  assert (Hk : keys_on (a_net a) (rcache n)).
  { intros k mm Hin. destruct (Hf _ _ Hin) as (a' & Ha & Hk). rewrite E in Ha. destruct Ha as [Ha|[]]. subst a'. exact Hk. }
  intros k mm Hin. cbn [rcache adapters] in *.
  exists (mkAd (Some net) (a_mac a)). split; [left; reflexivity|].
  exact (thm_number_learned_keys _ _ _ Hk _ _ Hin).
Qed.

Lemma node_change_filed : forall n n', node_change n n' -> filed n -> filed n'.
Proof.
  intros n n' H Hf. destruct H as [|pd|i a m dn Ea|i src dst p n' acts H|i ai net Ea].
  - exact Hf.
  - exact Hf.
  - intros k mm Hin. cbn [rcache set_cache adapters] in *.
    destruct (cache_update_in _ _ _ _ _ _ Hin) as [E|E]; [|exact (Hf _ _ E)].
    exists a. split; [exact (nth_error_In _ _ Ea) | exact E].
  - exact (process_npdu_filed _ _ _ _ _ _ _ Hf H).
  - exact (set_net_filed _ _ _ _ Hf Ea).
Qed.

Lemma run_xscript_filed : forall es x x' l, filed (x_node x) -> run_xscript x es = (x', l) -> filed (x_node x').
Proof.
  intros es x x' l Hf H. revert Hf.
  apply (run_xscript_change (fun n n' => filed n -> filed n') (fun _ Hf => Hf) (fun _ _ _ Hab Hbc Hf => Hbc (Hab Hf))
           node_change_filed es x x' l H).
Qed.

Lemma thm_station_cache_filed : forall n0 es x l a,
  rcache n0 = [] -> run_xscript (xinit n0) es = (x, l) -> adapters (x_node x) = [a] ->
  keys_on (a_net a) (rcache (x_node x)).
Proof.
  intros n0 es x l a H0 H Ha.
  assert (Hf : filed (x_node (xinit n0))) by (intros k mm Hin; cbn in Hin; rewrite H0 in Hin; destruct Hin).
  pose proof (run_xscript_filed _ _ _ _ Hf H) as Hx.
  intros k mm Hin. destruct (Hx _ _ Hin) as (a' & Hin' & Hk). rewrite Ha in Hin'. destruct Hin' as [E|[]]. subst a'. exact Hk.
Qed.
