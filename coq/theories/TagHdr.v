(* TagHdr.v — the header of one tag.  Tag.decode reads it in three stages: the tag number (with its
   extension octet), class and length (with the length escapes), the contents.  Each stage is named
   here and has one lemma for the octets the standard prescribes (spec_header) and one inversion
   lemma for arbitrary input. *)
From Bac Require Import Base ResFacts BytesFacts Tag.
Open Scope N_scope.

Definition dec_num (n0 : N) (r0 : list N) : res (N * list N) :=
  if n0 =? 15 then get r0 else Ok (n0, r0).
Definition dec_len (c0 l0 : N) (r1 : list N) : res (N * N * list N) :=
  if l0 =? 5 then
    do (l1, q) <- get r1;
    if l1 =? 254 then do (l2, q2) <- get_short q; Ok ((c0, l2), q2)
    else if l1 =? 255 then do (l2, q2) <- get_long q; Ok ((c0, l2), q2)
    else Ok ((c0, l1), q)
  else if l0 =? 6 then Ok ((2, 0), r1)
  else if l0 =? 7 then Ok ((3, 0), r1)
  else Ok ((c0, l0), r1).
Definition dec_data (c n l : N) (r2 : list N) : res (tag * list N) :=
  if (c =? 0) && (n =? 1) then Ok (mkTag c n l [], r2)
  else do (d, r3) <- get_data l r2; Ok (mkTag c n l d, r3).

Lemma dec_tag_raw_eq b r0 : dec_tag_raw (b :: r0) =
  do (n, r1) <- dec_num (b / 16) r0;
  do (c, l, r2) <- dec_len ((b / 8) mod 2) (b mod 8) r1;
  dec_data c n l r2.
Proof. reflexivity. Qed.

(* the same three parts in the standard's header (clause 20.2.1) *)
Definition numpart n := if n <? 15 then n else 15.
Definition clsbit c := if c =? 0 then 0 else 1.
Definition lvtpart c l := if c =? 2 then 6 else if c =? 3 then 7 else if l <? 5 then l else 5.
Definition numoct n : list N := if n <? 15 then [] else [n].
Definition lenoct l : list N :=
  if l <? 5 then []
  else if l <=? 253 then [l]
  else if l <=? 65535 then [254; l / 256; l mod 256]
  else [255; l / 16777216; (l / 65536) mod 256; (l / 256) mod 256; l mod 256].

Lemma spec_header_eq t : spec_header t =
  (numpart (num t) * 16 + clsbit (cls t) * 8 + lvtpart (cls t) (lvt t)) :: numoct (num t) ++ lenoct (lvt t).
Proof. reflexivity. Qed.

Lemma parts_le n c l : numpart n <= 15 /\ clsbit c <= 1 /\ lvtpart c l <= 7.
Proof. unfold numpart, clsbit, lvtpart. destruct (n <? 15) eqn:En, (c =? 0), (c =? 2), (c =? 3), (l <? 5) eqn:El; lia. Qed.

Lemma wf_tag_spec t : wf_tag t = true <->
  cls t <= 3 /\ num t <= 255 /\ lvt t < 4294967296 /\ bytes_ok (data t) = true /\
  ((cls t =? 2) || (cls t =? 3) = true -> lvt t = 0) /\
  (if (cls t =? 0) && (num t =? 1) then data t = [] else lenN (data t) = lvt t).
Proof.
  unfold wf_tag. destruct (bytes_ok (data t));
    destruct ((cls t =? 2) || (cls t =? 3)) eqn:E23; destruct ((cls t =? 0) && (num t =? 1)) eqn:E01; try lia.
  split.
  - intros W. repeat split; try lia. apply lenN_0. lia.
  - intros (C & Nn & L & _ & _ & ->). change (lenN (@nil N)) with 0. lia.
Qed.

Lemma ctx_tag_wf c d : c <= 255 -> bytes_ok d = true -> lenN d < 4294967296 ->
  wf_tag (mkTag 1 c (lenN d) d) = true.
Proof.
  intros C B L. apply wf_tag_spec. cbn [cls num lvt data N.eqb Pos.eqb orb andb].
  repeat split; try assumption; lia.
Qed.

Lemma octet_fields np cb lp : np <= 15 /\ cb <= 1 /\ lp <= 7 ->
  (np * 16 + cb * 8 + lp) / 16 = np /\ ((np * 16 + cb * 8 + lp) / 8) mod 2 = cb /\ (np * 16 + cb * 8 + lp) mod 8 = lp.
Proof. lia_div. Qed.

Lemma dec_num_spec n r : n <= 255 -> dec_num (numpart n) (numoct n ++ r) = Ok (n, r).
Proof.
  intros H. unfold dec_num, numpart, numoct. destruct (n <? 15) eqn:E; [|reflexivity].
  destruct (n =? 15) eqn:E2; [lia|reflexivity].
Qed.

Lemma dec_len_spec c l r : c <= 3 -> l < 4294967296 -> ((c =? 2) || (c =? 3) = true -> l = 0) ->
  dec_len (clsbit c) (lvtpart c l) (lenoct l ++ r) = Ok ((c, l), r).
Proof.
  intros C L Z. unfold lvtpart.
  destruct (c =? 2) eqn:C2; [rewrite Z by reflexivity; assert (c = 2) as -> by lia; reflexivity|].
  destruct (c =? 3) eqn:C3; [rewrite Z by reflexivity; assert (c = 3) as -> by lia; reflexivity|].
  assert (clsbit c = c) as -> by (unfold clsbit; destruct (c =? 0) eqn:C0; lia).
  unfold dec_len, lenoct. destruct (l <? 5) eqn:L5.
  - destruct (l =? 5) eqn:E5; [lia|]. destruct (l =? 6) eqn:E6; [lia|]. destruct (l =? 7) eqn:E7; [lia|]. reflexivity.
  - cbn [N.eqb Pos.eqb]. destruct (l <=? 253) eqn:L253; cbn [app get bind].
    + destruct (l =? 254) eqn:E4; [lia|]. destruct (l =? 255) eqn:E5; [lia|]. reflexivity.
    + destruct (l <=? 65535) eqn:L64; cbn [app get bind N.eqb Pos.eqb].
      * rewrite get_short_net. reflexivity.
      * change (get_long _) with (get_long ([l / 16777216; (l / 65536) mod 256; (l / 256) mod 256; l mod 256] ++ r)).
        rewrite <- be4_small, get_long_be4 by exact L. reflexivity.
Qed.

Lemma dec_data_spec c n l d r :
  (if (c =? 0) && (n =? 1) then d = [] else lenN d = l) ->
  dec_data c n l (d ++ r) = Ok (mkTag c n l d, r).
Proof.
  unfold dec_data. destruct ((c =? 0) && (n =? 1)); [intros ->; reflexivity|].
  intros <-. rewrite get_data_app. reflexivity.
Qed.

Lemma dec_spec_header t rest : wf_tag t = true ->
  dec_tag_raw (spec_header t ++ data t ++ rest) = Ok (t, rest).
Proof.
  intros W. apply wf_tag_spec in W as (C & Nn & L & _ & Z & D).
  rewrite spec_header_eq. cbn [app]. rewrite dec_tag_raw_eq.
  destruct (octet_fields _ _ _ (parts_le (num t) (cls t) (lvt t))) as (-> & -> & ->).
  rewrite <- app_assoc, dec_num_spec by exact Nn. cbn [bind].
  rewrite dec_len_spec by assumption. cbn [bind].
  rewrite dec_data_spec by exact D. destruct t; reflexivity.
Qed.

Lemma len_escape_spec l : l < 4294967296 -> len_escape l = Ok (lenoct l).
Proof.
  intros H. unfold len_escape, lenoct, put_long.
  destruct (l <? 5); [reflexivity|]. destruct (l <=? 253) eqn:E1; [apply put_ok; lia|].
  destruct (l <=? 65535) eqn:E2; [rewrite put_short_small by lia|rewrite N.mod_small, be4_small by exact H]; reflexivity.
Qed.

Lemma first_octet_eq c n l : c <= 3 -> ((c =? 2) || (c =? 3) = true -> l = 0) ->
  class_bits c + (if n <? 15 then n * 16 else 240) + (if l <? 5 then l else 5)
  = numpart n * 16 + clsbit c * 8 + lvtpart c l.
Proof.
  intros C Z. assert (Hc : c = 0 \/ c = 1 \/ c = 2 \/ c = 3) by lia.
  unfold numpart, lvtpart. destruct (n <? 15), (l <? 5) eqn:L5;
    destruct Hc as [->|[->|[->| ->]]]; try specialize (Z eq_refl); cbn [class_bits clsbit N.eqb Pos.eqb]; lia.
Qed.

Lemma enc_tag_spec t : wf_tag t = true -> enc_tag t = Ok (spec_header t ++ data t).
Proof.
  intros W. apply wf_tag_spec in W as (C & Nn & L & _ & Z & _).
  unfold enc_tag. rewrite (first_octet_eq _ _ _ C Z), spec_header_eq, put_ok.
  2:{ pose proof (parts_le (num t) (cls t) (lvt t)). lia. }
  assert (X : (if num t <? 15 then Ok [] else put (num t)) = Ok (numoct (num t))).
  { unfold numoct. destruct (num t <? 15); [reflexivity|apply put_ok; lia]. }
  rewrite X, (len_escape_spec _ L). cbn [bind app]. now rewrite <- app_assoc.
Qed.

Lemma enc_tag_refuses_number t : 256 <= num t -> enc_tag t = Err ValueErr.
Proof.
  intros H. unfold enc_tag, put. destruct (_ <? 256); cbn [bind]; [|reflexivity].
  destruct (num t <? 15) eqn:E; [lia|]. destruct (num t <? 256) eqn:E2; [lia|reflexivity].
Qed.

Lemma dec_num_inv n0 r0 n r1 : dec_num n0 r0 = Ok (n, r1) ->
  exists h, r0 = h ++ r1 /\ (length h <= 1)%nat /\
  (n0 <= 15 -> bytes_ok r0 = true -> n <= 255 /\ bytes_ok r1 = true).
Proof.
  unfold dec_num. destruct (n0 =? 15).
  - destruct r0 as [|x q]; [discriminate|]. intros [= <- <-]. exists [x].
    split; [reflexivity|]. split; [cbn; lia|]. intros _ B. apply bytes_ok_cons in B as [X B]. split; [lia|exact B].
  - intros [= <- <-]. exists []. split; [reflexivity|]. split; [cbn; lia|]. intros H B. split; [lia|exact B].
Qed.

Lemma dec_len_inv c0 l0 r1 c l r2 : dec_len c0 l0 r1 = Ok ((c, l), r2) ->
  exists h, r1 = h ++ r2 /\ (length h <= 5)%nat /\
  (c0 <= 1 -> l0 <= 7 -> bytes_ok r1 = true ->
   c <= 3 /\ l < 4294967296 /\ ((c =? 2) || (c =? 3) = true -> l = 0) /\ bytes_ok r2 = true).
Proof.
  unfold dec_len. destruct (l0 =? 5) eqn:E5.
  - destruct r1 as [|l1 q]; cbn [get bind]; [discriminate|].
    destruct (l1 =? 254) eqn:E254; [|destruct (l1 =? 255) eqn:E255].
    + destruct q as [|x [|y q]]; cbn [get_short bind]; try discriminate. intros [= <- <- <-].
      exists [l1; x; y]. split; [reflexivity|]. split; [cbn; lia|]. intros C0 _ B.
      rewrite !bytes_ok_cons in B. repeat split; first [lia | apply B].
    + destruct q as [|x [|y [|z [|w q]]]]; cbn [get_long bind]; try discriminate. intros [= <- <- <-].
      exists [l1; x; y; z; w]. split; [reflexivity|]. split; [cbn; lia|]. intros C0 _ B.
      rewrite !bytes_ok_cons in B. repeat split; first [lia | apply B].
    + intros [= <- <- <-]. exists [l1]. split; [reflexivity|]. split; [cbn; lia|]. intros C0 _ B.
      rewrite bytes_ok_cons in B. repeat split; first [lia | apply B].
  - destruct (l0 =? 6) eqn:E6; [|destruct (l0 =? 7) eqn:E7]; intros [= <- <- <-]; exists [];
      (split; [reflexivity|]); (split; [cbn; lia|]); intros; repeat split; try lia; assumption.
Qed.

Lemma dec_data_inv c n l r2 t r : dec_data c n l r2 = Ok (t, r) ->
  r2 = data t ++ r /\ cls t = c /\ num t = n /\ lvt t = l /\
  (if (c =? 0) && (n =? 1) then data t = [] else lenN (data t) = l).
Proof.
  unfold dec_data. destruct ((c =? 0) && (n =? 1)).
  - intros [= <- <-]. repeat split.
  - destruct (get_data l r2) as [[d r3]|] eqn:G; cbn [bind]; [|discriminate].
    intros [= <- <-]. apply get_data_ok in G as [-> G]. repeat split. exact G.
Qed.

(* 7 = the first octet, at most one tag-number octet and at most five length octets (255 and a 4-octet length) *)
Lemma dec_tag_raw_inv bs t r : dec_tag_raw bs = Ok (t, r) ->
  exists h, bs = h ++ data t ++ r /\ (1 <= length h <= 7)%nat /\
  (bytes_ok bs = true -> wf_tag t = true /\ bytes_ok r = true).
Proof.
  destruct bs as [|b r0]; [discriminate|]. rewrite dec_tag_raw_eq. intros H.
  apply bind_ok_inv in H as ([n r1] & E1 & H). apply bind_ok_inv in H as ([[c l] r2] & E2 & E3).
  apply dec_num_inv in E1 as (h1 & -> & H1 & K1).
  apply dec_len_inv in E2 as (h2 & -> & H2 & K2).
  apply dec_data_inv in E3 as (-> & Ec & En & El & D).
  exists (b :: h1 ++ h2). split; [cbn [app]; now rewrite <- app_assoc|].
  split; [cbn [length]; rewrite app_length; lia|].
  intros B. apply bytes_ok_cons in B as [Bb B].
  destruct K1 as [Nn B1]; [lia_div|exact B|]. destruct K2 as (C & L & Z & B2); [lia_div|lia_div|exact B1|].
  rewrite bytes_ok_app in B2. apply andb_true_iff in B2 as [Bd Br]. split; [|exact Br].
  apply wf_tag_spec. rewrite Ec, En, El. auto 6.
Qed.

Lemma dec_num_err n0 r0 e : dec_num n0 r0 = Err e -> e = DecodingError.
Proof. unfold dec_num. destruct (n0 =? 15); [destruct r0|]; now intros [= <-]. Qed.

Lemma dec_len_err c0 l0 r1 e : dec_len c0 l0 r1 = Err e -> e = DecodingError.
Proof.
  unfold dec_len. destruct (l0 =? 5); [|destruct (l0 =? 6); [|destruct (l0 =? 7)]; discriminate].
  destruct r1 as [|l1 q]; cbn [get bind]; [now intros [= <-]|].
  destruct (l1 =? 254); [|destruct (l1 =? 255); [|discriminate]].
  - destruct q as [|x [|y q]]; now intros [= <-].
  - destruct q as [|x [|y [|z [|w q]]]]; now intros [= <-].
Qed.

Lemma dec_data_err c n l r2 e : dec_data c n l r2 = Err e -> e = DecodingError.
Proof.
  unfold dec_data, get_data. destruct ((c =? 0) && (n =? 1)); [discriminate|].
  destruct (lenN r2 <? l); now intros [= <-].
Qed.

Lemma dec_tag_raw_err bs e : dec_tag_raw bs = Err e -> e = DecodingError.
Proof.
  destruct bs as [|b r0]; [now intros [= <-]|]. rewrite dec_tag_raw_eq. intros H.
  apply bind_err_inv in H as [H|([n r1] & _ & H)]; [exact (dec_num_err _ _ _ H)|].
  apply bind_err_inv in H as [H|([[c l] r2] & _ & H)]; [exact (dec_len_err _ _ _ _ H)|exact (dec_data_err _ _ _ _ _ H)].
Qed.
