(* RouterNodeFacts.v — the traffic a node emits follows its routing knowledge (property C19). *)
From Bac Require Import Base RouterCache RouterCacheFacts RouterCacheRenum RouterNode.
Open Scope Z_scope.

Lemma route_in_sound : forall c ads d sn x, route_in c ads d = Some (sn, x) ->
  In sn ads /\ pget c sn d = Some x.
Proof.
  intros c ads d sn x. induction ads as [|s r IH]; cbn [route_in]; [discriminate|].
  destruct (pget c s d) as [a|] eqn:E.
  - intros [= <- <-]. split; [left; reflexivity|exact E].
  - intros H. destruct (IH H) as [Hin Hp]. split; [right; exact Hin|exact Hp].
Qed.

Lemma route_in_complete : forall c ads d sn x, In sn ads -> pget c sn d = Some x ->
  exists hop, route_in c ads d = Some hop.
Proof.
  intros c ads d sn x. induction ads as [|s r IH]; intros Hin Hp; [contradiction|].
  cbn [route_in]. destruct (pget c s d) as [a|] eqn:E; [eauto|].
  destruct Hin as [->|Hin]; [congruence|]. apply IH; assumption.
Qed.

Lemma route_in_none : forall c ads d, (forall sn, In sn ads -> pget c sn d = None) -> route_in c ads d = None.
Proof.
  intros c ads d. induction ads as [|s r IH]; intros H; [reflexivity|].
  cbn [route_in]. rewrite (H s (or_introl eq_refl)). apply IH. intros sn Hin. apply H. right. exact Hin.
Qed.

Lemma route_in_first : forall c ads d sn x, In sn ads -> pget c sn d = Some x ->
  (forall sn0, In sn0 ads -> sn0 <> sn -> pget c sn0 d = None) -> route_in c ads d = Some (sn, x).
Proof.
  intros c ads d sn x. induction ads as [|s r IH]; intros Hsn Hk Hothers; [contradiction|].
  cbn [route_in]. destruct (Z.eq_dec s sn) as [->|Hne].
  - rewrite Hk. reflexivity.
  - rewrite (Hothers s (or_introl eq_refl) Hne). destruct Hsn as [->|Hsn]; [contradiction|].
    apply IH; [exact Hsn|exact Hk|]. intros sn0 Hin. apply Hothers. right. exact Hin.
Qed.

Lemma release_cons : forall sn a d r p,
  release sn a (d :: r) p =
    match aget Z.eqb d p with
    | Some tags => (fst (release sn a r (adel Z.eqb d p)),
                    map (fun t => Send sn a d t None) tags ++ snd (release sn a r (adel Z.eqb d p)))
    | None => release sn a r p
    end.
Proof.
  intros. cbn [release]. destruct (aget Z.eqb d p); [|reflexivity].
  destruct (release sn a r (adel Z.eqb d p)). reflexivity.
Qed.

Lemma release_pending : forall sn a ds p d,
  aget Z.eqb d (fst (release sn a ds p)) = if zmem d ds then None else aget Z.eqb d p.
Proof.
  intros sn a ds. induction ds as [|x r IH]; intros p d; [reflexivity|].
  rewrite release_cons. cbn [zmem existsb]. fold (zmem d r).
  destruct (aget Z.eqb x p) as [tags|] eqn:E; cbn [fst]; rewrite IH.
  - rewrite (aget_adel Z.eqb Z.eqb_eq). destruct (d =? x); destruct (zmem d r); reflexivity.
  - destruct (d =? x) eqn:Ed; [|reflexivity]. apply Z.eqb_eq in Ed. subst x.
    rewrite E. destruct (zmem d r); reflexivity.
Qed.

Lemma release_sends : forall sn a ds p d tags t, In d ds -> aget Z.eqb d p = Some tags -> In t tags ->
  In (Send sn a d t None) (snd (release sn a ds p)).
Proof.
  intros sn a ds. induction ds as [|x r IH]; intros p d tags t Hin Hp Ht; [contradiction|].
  rewrite release_cons. destruct (Z.eq_dec x d) as [->|Hne].
  - rewrite Hp. cbn [snd]. apply in_or_app. left. apply in_map_iff. exists t. auto.
  - destruct Hin as [->|Hin]; [contradiction|].
    destruct (aget Z.eqb x p) as [tx|] eqn:E.
    + cbn [snd]. apply in_or_app. right. apply (IH _ d tags t Hin); [|exact Ht].
      rewrite (aget_adel Z.eqb Z.eqb_eq). destruct (d =? x) eqn:Ed; [apply Z.eqb_eq in Ed; congruence|exact Hp].
    + apply (IH _ d tags t Hin Hp Ht).
Qed.

Lemma release_only : forall sn a ds p e, In e (snd (release sn a ds p)) ->
  exists d t, e = Send sn a d t None /\ In d ds.
Proof.
  intros sn a ds. induction ds as [|x r IH]; intros p e H; [contradiction|].
  rewrite release_cons in H. destruct (aget Z.eqb x p) as [tx|].
  - cbn [snd] in H. apply in_app_or in H. destruct H as [H|H].
    + apply in_map_iff in H. destruct H as [t [<- _]]. exists x, t. split; [reflexivity|left; reflexivity].
    + destruct (IH _ _ H) as [d [t [He Hd]]]. exists d, t. split; [exact He|right; exact Hd].
  - destruct (IH _ _ H) as [d [t [He Hd]]]. exists d, t. split; [exact He|right; exact Hd].
Qed.

Lemma node_iam_ok : forall n sn a ds, Inv (ncache n) ->
  exists n', fst (node_iam n sn a ds) = Ok n' /\ Inv (ncache n') /\ nadapters n' = nadapters n /\
    (forall sn0 d0, pget (ncache n') sn0 d0 = if (sn0 =? sn) && zmem d0 ds then Some a else pget (ncache n) sn0 d0) /\
    (forall d, In d ds -> aget Z.eqb d (npending n') = None) /\
    (forall d tags t, In d ds -> aget Z.eqb d (npending n) = Some tags -> In t tags ->
       In (Send sn a d t None) (snd (node_iam n sn a ds))) /\
    (forall e, In e (snd (node_iam n sn a ds)) -> exists d t, e = Send sn a d t None /\ In d ds).
Proof.
  intros n sn a ds [Hcoh Hwf]. unfold node_iam.
  destruct (update_ok (ncache n) sn a ds 0 Hcoh) as [c' [H [Hc Hp]]].
  rewrite H, (surjective_pairing (release sn a ds (npending n))). cbn [fst snd].
  eexists. split; [reflexivity|]. cbn [ncache nadapters npending].
  split; [split; [exact Hc|apply (update_wf _ _ _ _ _ _ Hwf H)]|]. split; [reflexivity|]. split; [exact Hp|].
  split; [|split].
  - intros d Hd. rewrite release_pending, (proj2 (zmem_spec d ds) Hd). reflexivity.
  - intros d tags t. apply release_sends.
  - intros e. apply release_only.
Qed.

Lemma node_req_known : forall n d t sn x, aget Z.eqb d (npending n) = None -> route n d = Some (sn, x) ->
  node_req n d t = (n, [Send sn x d t None]).
Proof. intros n d t sn x Hp Hr. unfold node_req. rewrite Hp, Hr. reflexivity. Qed.

Lemma node_req_unknown : forall n d t, aget Z.eqb d (npending n) = None -> route n d = None ->
  node_req n d t = (mkN (ncache n) (nadapters n) (aset Z.eqb d [t] (npending n)),
                    map (fun sn => WhoIs sn d) (nadapters n)).
Proof. intros n d t Hp Hr. unfold node_req. rewrite Hp, Hr. reflexivity. Qed.

Lemma req_after_iam : forall n sn a ds n' d t, Inv (ncache n) -> In sn (nadapters n) ->
  fst (node_iam n sn a ds) = Ok n' -> In d ds ->
  exists sn0 x, node_req n' d t = (n', [Send sn0 x d t None]) /\ In sn0 (nadapters n') /\
                pget (ncache n') sn0 d = Some x.
Proof.
  intros n sn a ds n' d t Hinv Hsn Hok Hd.
  destruct (node_iam_ok n sn a ds Hinv) as [n1 [H1 [_ [Hads [Hp [Hclr _]]]]]].
  assert (n1 = n') by congruence. subst n1.
  assert (Hg : pget (ncache n') sn d = Some a).
  { rewrite Hp, Z.eqb_refl, (proj2 (zmem_spec d ds) Hd). reflexivity. }
  destruct (route_in_complete (ncache n') (nadapters n') d sn a) as [[sn0 x] Hr]; [rewrite Hads; exact Hsn|exact Hg|].
  exists sn0, x. split; [apply node_req_known; [apply Hclr; exact Hd|exact Hr]|].
  apply route_in_sound in Hr. exact Hr.
Qed.

Lemma node_fwd_known : forall n arr a snet d n' out sn x,
  node_fwd n arr a snet d = (Ok n', out) ->
  zmem snet (nadapters n) = false -> zmem d (nadapters n) = false -> (d =? arr) = false ->
  route n' d = Some (sn, x) -> out = [Send sn x d 0 (Some snet)].
Proof.
  intros n arr a snet d n' out sn x H Hs Hd Ha Hr. unfold node_fwd in H. rewrite Hs in H.
  destruct (update_router_info (ncache n) arr a [snet] 0) as [c'|e]; [|discriminate].
  rewrite Ha, Hd in H.
  destruct (route (mkN c' (nadapters n) (npending n)) d) as [[sn1 x1]|] eqn:E.
  - injection H as <- <-. rewrite E in Hr. injection Hr as -> ->. reflexivity.
  - injection H as <- <-. rewrite E in Hr. discriminate.
Qed.

Lemma node_fwd_arrival_net : forall n arr a snet d x, Inv (ncache n) -> In arr (nadapters n) ->
  zmem snet (nadapters n) = false -> zmem d (nadapters n) = false -> snet <> d ->
  pget (ncache n) arr d = Some x ->
  (forall sn, In sn (nadapters n) -> sn <> arr -> pget (ncache n) sn d = None) ->
  exists n', node_fwd n arr a snet d = (Ok n', [Send arr x d 0 (Some snet)]).
Proof.
  intros n arr a snet d x [Hcoh Hwf] Harr Hs Hd Hne Hk Hothers.
  unfold node_fwd. rewrite Hs.
  destruct (update_ok (ncache n) arr a [snet] 0 Hcoh) as [c' [H [_ Hp]]]. rewrite H.
  assert (Hda : (d =? arr) = false).
  { destruct (d =? arr) eqn:E; [|reflexivity]. apply Z.eqb_eq in E. subst d.
    apply zmem_spec in Harr. congruence. }
  rewrite Hda, Hd.
  assert (Hsame : forall sn0, pget c' sn0 d = pget (ncache n) sn0 d).
  { intros sn0. rewrite Hp. cbn [zmem existsb]. destruct (d =? snet) eqn:E; [apply Z.eqb_eq in E; congruence|].
    rewrite orb_false_r, andb_false_r. reflexivity. }
  assert (Hr : route (mkN c' (nadapters n) (npending n)) d = Some (arr, x)).
  { unfold route. cbn [ncache nadapters]. apply route_in_first; [exact Harr|rewrite Hsame; exact Hk|].
    intros sn Hin Hsa. rewrite Hsame. apply (Hothers sn Hin Hsa). }
  rewrite Hr. eexists. reflexivity.
Qed.

Lemma iam_relay_in : forall n sn ds e, In e (iam_relay n sn ds) <->
  (2 <= length (nadapters n))%nat /\ exists x, e = IAmR x None ds /\ In x (nadapters n) /\ x <> sn.
Proof.
  intros n sn ds e. unfold iam_relay. destruct (length (nadapters n) <=? 1)%nat eqn:L.
  - apply Nat.leb_le in L. split; [intros []|]. intros [H _]. exact (Nat.lt_irrefl _ (Nat.lt_le_trans _ _ _ H L)).
  - apply Nat.leb_gt in L. rewrite in_map_iff. split.
    + intros [x [<- Hx]]. apply filter_In in Hx. destruct Hx as [Hin Hb]. split; [exact L|].
      exists x. split; [reflexivity|]. split; [exact Hin|]. intros ->. rewrite Z.eqb_refl in Hb. discriminate.
    + intros [_ [x [-> [Hin Hne]]]]. exists x. split; [reflexivity|]. apply filter_In. split; [exact Hin|].
      rewrite (proj2 (Z.eqb_neq x sn) Hne). reflexivity.
Qed.

Lemma node_iam_full_spec : forall n sn a ds,
  fst (node_iam_full n sn a ds) = fst (node_iam n sn a ds) /\
  (forall n', fst (node_iam n sn a ds) = Ok n' ->
     snd (node_iam_full n sn a ds) = iam_relay n sn ds ++ snd (node_iam n sn a ds)).
Proof.
  intros n sn a ds. unfold node_iam_full. destruct (node_iam n sn a ds) as [[n1|e1] out]; split; try reflexivity.
  intros n' H. discriminate H.
Qed.

Lemma node_whois_claim : forall n arr a d e, zmem d (nadapters n) = false -> In e (node_whois n arr a d) ->
  (e = IAmR arr (Some a) [d] /\ node_whois n arr a d = [e] /\
   exists sn x, route n d = Some (sn, x) /\ In sn (nadapters n) /\ sn <> arr /\ pget (ncache n) sn d = Some x)
  \/ (exists sn, e = WhoIsFwd sn d arr a /\ In sn (nadapters n) /\ sn <> arr /\
      forall sn0, In sn0 (nadapters n) -> pget (ncache n) sn0 d = None).
Proof.
  intros n arr a d e Hd He. unfold node_whois in *. destruct (length (nadapters n) <=? 1)%nat; [contradiction|].
  rewrite Hd in *. destruct (route n d) as [[sn x]|] eqn:R.
  - left. destruct (sn =? arr) eqn:Es; [contradiction|]. destruct He as [<-|[]].
    split; [reflexivity|]. split; [reflexivity|]. exists sn, x. split; [reflexivity|].
    apply route_in_sound in R. destruct R as [Hin Hp]. split; [exact Hin|]. split; [|exact Hp].
    intros ->. rewrite Z.eqb_refl in Es. discriminate.
  - right. destruct (arr =? -1); [contradiction|]. apply in_map_iff in He. destruct He as [sn [<- Hs]]. apply filter_In in Hs. destruct Hs as [Hin Hb].
    exists sn. split; [reflexivity|]. split; [exact Hin|]. split; [intros ->; rewrite Z.eqb_refl in Hb; discriminate|].
    intros sn0 Hin0. destruct (pget (ncache n) sn0 d) as [x|] eqn:P; [|reflexivity].
    destruct (route_in_complete (ncache n) (nadapters n) d sn0 x Hin0 P) as [hop Hh]. unfold route in R. congruence.
Qed.

Lemma node_whois_answered : forall n arr a d sn x, (2 <= length (nadapters n))%nat -> zmem d (nadapters n) = false ->
  pget (ncache n) arr d = None -> In sn (nadapters n) -> pget (ncache n) sn d = Some x ->
  node_whois n arr a d = [IAmR arr (Some a) [d]].
Proof.
  intros n arr a d sn x Hlen Hd Harr Hin Hk. unfold node_whois.
  rewrite (proj2 (Nat.leb_gt _ 1) Hlen), Hd.
  destruct (route_in_complete (ncache n) (nadapters n) d sn x Hin Hk) as [[sn0 x0] Hh]. unfold route. rewrite Hh.
  apply route_in_sound in Hh. destruct Hh as [_ Hp].
  destruct (sn0 =? arr) eqn:E; [|reflexivity]. apply Z.eqb_eq in E. subst sn0.
  congruence.
Qed.

Lemma node_whois_unknown : forall n arr a d, (2 <= length (nadapters n))%nat -> zmem d (nadapters n) = false -> arr <> -1 ->
  (forall sn, In sn (nadapters n) -> pget (ncache n) sn d = None) ->
  node_whois n arr a d = map (fun sn => WhoIsFwd sn d arr a) (filter (fun sn => negb (sn =? arr)) (nadapters n)).
Proof.
  intros n arr a d Hlen Hd Hnum Hk. unfold node_whois.
  rewrite (proj2 (Nat.leb_gt _ 1) Hlen), Hd.
  unfold route. rewrite (route_in_none (ncache n) (nadapters n) d Hk).
  destruct (arr =? -1) eqn:E; [apply Z.eqb_eq in E; contradiction|reflexivity].
Qed.

(* without the hypothesis that the asking network had no next hop for d the look-up could stop at that adapter
   (they are asked in order) and the node would stay silent *)
Lemma node_whois_after_announcement : forall n sn a ds n' arr b d, Inv (ncache n) ->
  (2 <= length (nadapters n))%nat -> In sn (nadapters n) -> sn <> arr -> zmem d (nadapters n) = false -> In d ds ->
  pget (ncache n) arr d = None ->
  fst (node_iam n sn a ds) = Ok n' ->
  node_whois n' arr b d = [IAmR arr (Some b) [d]].
Proof.
  intros n sn a ds n' arr b d Hinv Hlen Hsn Hne Hd Hin Harr Hok.
  destruct (node_iam_ok n sn a ds Hinv) as [n1 [H1 [_ [Hads [Hp _]]]]].
  assert (n1 = n') by congruence. subst n1.
  apply (node_whois_answered n' arr b d sn a); rewrite ?Hads; try assumption.
  - rewrite Hp. destruct (arr =? sn) eqn:E; [apply Z.eqb_eq in E; congruence|]. cbn [andb]. exact Harr.
  - rewrite Hp, Z.eqb_refl. apply zmem_spec in Hin. rewrite Hin. reflexivity.
Qed.
