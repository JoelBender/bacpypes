(* The array index as it travels (Obj.wire_index / enc_index / step_wire).
   An index that is present in a request is never treated as absent, whatever its octets; every index the
   library's encoder can send arrives as itself; an index beyond the array (or any index on a property that is not
   an array) is refused by ReadProperty, WriteProperty and as a ReadPropertyMultiple element, state unchanged. *)
From Bac Require Import Base PyRt Obj ObjFacts.
Open Scope Z_scope.

Definition octets (bs : list Z) : Prop := Forall (fun b => 0 <= b < 256) bs.

Lemma zlength_cons : forall {A} (a : A) l, zlength (a :: l) = zlength l + 1.
Proof. intros. unfold zlength. cbn [length]. lia. Qed.
Lemma zlength_nonneg : forall {A} (l : list A), 0 <= zlength l.
Proof. intros. unfold zlength. lia. Qed.

(* big-endian fold: the accumulator is shifted by the number of octets, the octets alone stay below 256^len *)
Lemma be_value_acc : forall bs acc, be_value acc bs = acc * 256 ^ zlength bs + be_value 0 bs.
Proof.
  induction bs as [| b r IH]; intros acc; cbn [be_value].
  - unfold zlength; cbn. lia.
  - rewrite (IH (acc * 256 + b)), (IH (0 * 256 + b)), zlength_cons.
    rewrite Z.pow_add_r by (pose proof (zlength_nonneg r); lia). lia.
Qed.
Lemma be_value_range : forall bs, octets bs -> 0 <= be_value 0 bs < 256 ^ zlength bs.
Proof.
  induction bs as [| b r IH]; intros H.
  - cbn. unfold zlength; cbn. lia.
  - inversion H as [| ? ? Hb Hr]; subst. specialize (IH Hr). cbn [be_value].
    rewrite be_value_acc, zlength_cons. rewrite Z.pow_add_r by (pose proof (zlength_nonneg r); lia).
    assert (0 < 256 ^ zlength r) by (apply Z.pow_pos_nonneg; [lia | apply zlength_nonneg]). nia.
Qed.

Lemma wire_index_none_only_absent : forall w, wire_index w = Ok None -> w = None.
Proof. intros [[| b r] |] H; cbn in H; congruence. Qed.

(* the all-ones octet strings (the "all elements" markers of other stacks) are the largest indexes of their size *)
Lemma be_value_all_ones : forall k, be_value 0 (repeat 255 k) = 256 ^ Z.of_nat k - 1.
Proof.
  induction k as [| k IH].
  - reflexivity.
  - cbn [repeat be_value]. rewrite be_value_acc, IH.
    assert (zlength (repeat 255 k) = Z.of_nat k) by (unfold zlength; rewrite repeat_length; reflexivity).
    rewrite H. rewrite Nat2Z.inj_succ, Z.pow_succ_r by lia. lia.
Qed.

Lemma strip_zeros_cons2 : forall b c r,
  strip_zeros (b :: c :: r) = if b =? 0 then strip_zeros (c :: r) else b :: c :: r.
Proof. reflexivity. Qed.
Lemma be_strip : forall bs, be_value 0 (strip_zeros bs) = be_value 0 bs.
Proof.
  induction bs as [| b r IH]; [reflexivity |]. destruct r as [| c r']; [reflexivity |].
  rewrite strip_zeros_cons2. destruct (b =? 0) eqn:E; [| reflexivity].
  rewrite IH. apply Z.eqb_eq in E. subst b. reflexivity.
Qed.
Lemma strip_nonempty : forall bs, bs <> [] -> strip_zeros bs <> [].
Proof.
  induction bs as [| b r IH]; intros H; [congruence |]. destruct r as [| c r']; [cbn; congruence |].
  rewrite strip_zeros_cons2. destruct (b =? 0); [apply IH; congruence | congruence].
Qed.

Lemma index_range_test : forall i, (i <? 0) || (4294967295 <? i) = true <-> i < 0 \/ 4294967295 < i.
Proof. intros i. rewrite orb_true_iff, !Z.ltb_lt. reflexivity. Qed.

(* Unsigned.encode then Unsigned.decode *)
Lemma index_roundtrip : forall i, 0 <= i <= 4294967295 ->
  exists bs, enc_index i = Ok bs /\ bs <> [] /\ wire_index (Some bs) = Ok (Some i).
Proof.
  intros i Hi. unfold enc_index.
  destruct ((i <? 0) || (4294967295 <? i)) eqn:E; [apply index_range_test in E; lia |].
  set (l := [(i / 16777216) mod 256; (i / 65536) mod 256; (i / 256) mod 256; i mod 256]).
  exists (strip_zeros l). split; [reflexivity |].
  assert (Hne : strip_zeros l <> []) by (apply strip_nonempty; unfold l; congruence).
  split; [exact Hne |].
  destruct (strip_zeros l) as [| b r] eqn:Es; [congruence |].
  cbn [wire_index]. rewrite <- Es, be_strip. unfold l. cbn [be_value]. do 2 f_equal.
  (* i < 2^32 is the sum of its four base-256 digits *)
  clear - Hi. Z.to_euclidean_division_equations. lia.
Qed.
Lemma enc_index_out_of_range : forall i, i < 0 \/ 4294967295 < i -> enc_index i = Err StructErr.
Proof. intros i H. unfold enc_index. rewrite (proj2 (index_range_test i) H). reflexivity. Qed.

Lemma step_wire_read : forall d oid pid bs, bs <> [] ->
  step_wire d (WRead oid pid (Some bs)) = step d (ORead oid pid (Some (be_value 0 bs))).
Proof. intros d oid pid bs H. destruct bs; [congruence | reflexivity]. Qed.
Lemma step_wire_write : forall d oid pid bs prio w, bs <> [] ->
  step_wire d (WWrite oid pid (Some bs) prio w) = step d (OWrite oid pid (Some (be_value 0 bs)) prio w).
Proof. intros d oid pid bs prio w H. destruct bs; [congruence | reflexivity]. Qed.
Lemma step_wire_absent : forall d oid pid prio w,
  step_wire d (WRead oid pid None) = step d (ORead oid pid None) /\
  step_wire d (WWrite oid pid None prio w) = step d (OWrite oid pid None prio w).
Proof. intros. split; reflexivity. Qed.
Lemma step_wire_empty : forall d oid pid prio w,
  step_wire d (WRead oid pid (Some [])) = (RReject 4, d) /\
  step_wire d (WWrite oid pid (Some []) prio w) = (RReject 4, d).
Proof. intros. split; reflexivity. Qed.

(* the error an index that does not designate the length or an element is refused with *)
Definition bad_index_code (p : pdesc) : Z := if is_array (p_dt p) then E_INVALID_ARRAY_INDEX else E_NOT_AN_ARRAY.
(* ... and when: any index on a property that is not an array; beyond the length slot on an ArrayOf instance *)
Definition index_is_bad (p : pdesc) (cur : val) (i : Z) : Prop :=
  is_array (p_dt p) = false \/ (exists n l, cur = VArr n l /\ (i < 0 \/ n < i)).

Lemma prop_read_bad : forall p cur i, index_is_bad p cur i ->
  prop_read p cur (Some i) = XErr (ExecErr EC_PROPERTY (bad_index_code p)).
Proof.
  intros p cur i Hb. unfold prop_read, bad_index_code. destruct (is_array (p_dt p)) eqn:Ha; cbn [negb]; [| reflexivity].
  destruct Hb as [Hb | (n & l & -> & Hi)]; [congruence |]. rewrite index_out_of_range by exact Hi. reflexivity.
Qed.

Lemma read_index_refused : forall d oid pid i o p cur, find_obj (d_objs d) (map_oid d oid) = Some o ->
  find_prop o pid = Some (p, cur) -> index_is_bad p cur i ->
  step d (ORead oid pid (Some i)) = (RError EC_PROPERTY (bad_index_code p), d).
Proof.
  intros d oid pid i o p cur Ho Hp Hb. cbn [step]. unfold do_read.
  rewrite Ho, read_any_eq, Hp, (prop_read_bad p cur i Hb). reflexivity.
Qed.
Lemma write_index_refused : forall d oid pid i prio w o p cur, find_obj (d_objs d) oid = Some o ->
  find_prop o pid = Some (p, cur) -> index_is_bad p cur i ->
  step d (OWrite oid pid (Some i) prio w) = (RError EC_PROPERTY (bad_index_code p), d).
Proof.
  intros d oid pid i prio w o p cur Ho Hp Hb. cbn [step]. unfold do_write.
  rewrite Ho, write_obj_eq, Hp, (prop_read_bad p cur i Hb). reflexivity.
Qed.
Corollary write_index_beyond_array : forall d oid pid i prio w o p n l, find_obj (d_objs d) oid = Some o ->
  find_prop o pid = Some (p, VArr n l) -> is_array (p_dt p) = true -> i < 0 \/ n < i ->
  step d (OWrite oid pid (Some i) prio w) = (RError EC_PROPERTY E_INVALID_ARRAY_INDEX, d).
Proof.
  intros d oid pid i prio w o p n l Ho Hp Ha Hi.
  assert (Hb : index_is_bad p (VArr n l) i) by (right; exists n, l; split; [reflexivity | exact Hi]).
  rewrite (write_index_refused d oid pid i prio w o p _ Ho Hp Hb). unfold bad_index_code. rewrite Ha. reflexivity.
Qed.
Lemma rp_element_bad_index : forall o pid i p cur, find_prop o pid = Some (p, cur) -> index_is_bad p cur i ->
  rp_element (Some o) pid (Some i) = XOk (pid, Some i, RErr EC_PROPERTY (bad_index_code p)).
Proof.
  intros o pid i p cur Hp Hb. unfold rp_element. rewrite read_any_eq, Hp, (prop_read_bad p cur i Hb). reflexivity.
Qed.
