(* ApciHdr.v — lemmas about the APCI model (Apci.v): clause-20.1 layout, round trip with the
   payload untouched, totality of decoding, no over-read, decoded attribute sets are well-typed
   headers, unsegmented PDUs ignore sequence number / window size. *)
From Bac Require Import Base BytesFacts Apci.
Open Scope N_scope.

Lemma putz_N n : n < 256 -> putz (Z.of_N n) = Ok [n].
Proof.
  intros H. unfold putz.
  destruct ((0 <=? Z.of_N n)%Z && (Z.of_N n <? 256)%Z) eqn:E; [|lia].
  rewrite N2Z.id. reflexivity.
Qed.

Lemma put_field_zo n : octet n = true -> put_field (zo n) = Ok [n].
Proof. unfold octet. intros H. cbn [put_field zo]. apply putz_N. lia. Qed.

Lemma putz_codes ms mr : ms < 8 -> mr < 16 ->
  putz (Z.shiftl (Z.of_N ms) 4 + Z.of_N mr) = Ok [16 * ms + mr].
Proof.
  intros H1 H2. rewrite Z.shiftl_mul_pow2 by lia. change (2 ^ 4)%Z with 16%Z.
  replace (Z.of_N ms * 16 + Z.of_N mr)%Z with (Z.of_N (16 * ms + mr)) by lia.
  apply putz_N. lia.
Qed.

Lemma codes_split ms mr : ms < 8 -> mr < 16 ->
  N.land (N.shiftr (16 * ms + mr) 4) 7 = ms /\ N.land (16 * ms + mr) 15 = mr.
Proof.
  intros H1 H2. rewrite N.shiftr_div_pow2.
  change 7 with (N.ones 3). change 15 with (N.ones 4). rewrite !N.land_ones.
  change (2 ^ 4) with 16. change (2 ^ 3) with 8.
  rewrite (N.mul_comm 16 ms), N.div_add_l, (N.div_small mr 16), N.add_0_r, (N.mod_small ms 8)
    by (assumption || discriminate).
  split; [reflexivity|]. rewrite N.add_comm, N.mod_add by discriminate. apply N.mod_small. assumption.
Qed.

Lemma codes_range b : N.land (N.shiftr b 4) 7 < 8 /\ N.land b 15 < 16.
Proof. split; [exact (land_ones_lt _ 3)|exact (land_ones_lt _ 4)]. Qed.

Lemma getz_cons b r : getz (b :: r) = Ok (Some (Z.of_N b), r).
Proof. reflexivity. Qed.
Lemma get_cons b r : get (b :: r) = Ok (b, r).
Proof. reflexivity. Qed.

Ltac split_wf_hdr H :=
  cbn [wf_hdr] in H;
  repeat match type of H with (_ && _ = true) =>
    let H' := fresh "W" in apply andb_true_iff in H as [H H'] end.

Lemma hdr_layout h : wf_hdr h = true -> enc_apci (to_apci h) = Ok (spec20_1 h).
Proof.
  intros W. destruct h; split_wf_hdr W; cbn [to_apci enc_apci aType aSeg aMor aSA aSrv aNak aSeq aWin
    aMaxSegs aMaxResp aService aInvokeID aReason zo spec20_1].
  - rewrite putz_codes by lia.
    rewrite (put_field_zo invoke), (put_field_zo service) by assumption.
    destruct seg, mor, sa; cbn [truthy]; rewrite ?(put_field_zo seq), ?(put_field_zo win) by assumption;
      reflexivity.
  - rewrite (put_field_zo service) by assumption. reflexivity.
  - rewrite (put_field_zo invoke), (put_field_zo service) by assumption. reflexivity.
  - rewrite (put_field_zo invoke), (put_field_zo service) by assumption.
    destruct seg, mor; cbn [truthy]; rewrite ?(put_field_zo seq), ?(put_field_zo win) by assumption;
      reflexivity.
  - rewrite (put_field_zo invoke), (put_field_zo seq), (put_field_zo win) by assumption.
    destruct nak, srv; reflexivity.
  - rewrite (put_field_zo invoke), (put_field_zo service) by assumption. reflexivity.
  - rewrite (put_field_zo invoke), (put_field_zo reason) by assumption. reflexivity.
  - rewrite (put_field_zo invoke), (put_field_zo reason) by assumption.
    destruct srv; reflexivity.
Qed.

Lemma apdu_layout h payload : wf_hdr h = true ->
  enc_apdu (to_apci h) payload = Ok (spec20_1 h ++ payload).
Proof. intros W. unfold enc_apdu. rewrite hdr_layout by assumption. reflexivity. Qed.

Lemma hdr_decode h payload : wf_hdr h = true ->
  dec_apci (spec20_1 h ++ payload) = Ok (to_apci h, payload).
Proof.
  intros W. destruct h; split_wf_hdr W.
  - (* the code octet carries variables, so the bit fields do not compute *)
    destruct (codes_split maxsegs maxresp) as [E1 E2]; [lia|lia|].
    destruct seg, mor, sa; cbn -[N.land N.shiftr N.mul N.add]; rewrite ?E1, ?E2; reflexivity.
  - reflexivity.
  - reflexivity.
  - destruct seg, mor; reflexivity.
  - destruct nak, srv; reflexivity.
  - reflexivity.
  - reflexivity.
  - destruct srv; reflexivity.
Qed.

Lemma hdr_roundtrip h payload : wf_hdr h = true ->
  exists bs, enc_apdu (to_apci h) payload = Ok bs /\ bs = spec20_1 h ++ payload /\
             dec_apci bs = Ok (to_apci h, payload).
Proof.
  intros W. exists (spec20_1 h ++ payload). split; [apply apdu_layout; assumption|].
  split; [reflexivity|]. apply hdr_decode; assumption.
Qed.

(* Arbitrary octets, one walk through the eight branches of the decoder.  The result is DecodingError or the attribute set of a typed header h, and then as many octets were
   consumed as the layout of h has; from octets, h is well-formed.  (The octets consumed need not be
   spec20_1 h: the unused bits of the first two octets are dropped.) *)
Ltac eat_gets :=
  repeat match goal with
  | |- context [get ?l] => is_var l; destruct l; cbn [get getz bind fst snd]
  | |- context [getz ?l] => is_var l; destruct l; cbn [get getz bind fst snd]
  end.

(* a leaf of the walk: the header h, read from the octets hd; every field is an octet of the input or
   one of the bit fields of codes_range *)
Tactic Notation "header" uconstr(h) uconstr(hd) :=
  eexists h, hd; split; [reflexivity|]; split; [reflexivity|]; split; [reflexivity|];
  let B := fresh "B" in intros B; cbn [bytes_ok forallb] in B;
  repeat match type of B with (_ && _ = true) => let B' := fresh "B" in apply andb_true_iff in B as [B' B] end;
  cbn [wf_hdr]; unfold octet, byte_ok in *;
  repeat (apply andb_true_intro; split); try assumption; try (apply N.ltb_lt; apply codes_range); try reflexivity.

Lemma dec_apci_inv bs :
  match dec_apci bs with
  | Ok (a, r) => exists h hd, a = to_apci h /\ bs = hd ++ r /\ length hd = length (spec20_1 h)
                   /\ (bytes_ok bs = true -> wf_hdr h = true)
  | Err e => e = DecodingError
  end.
Proof.
  unfold dec_apci, bit. destruct bs as [|buff t]; cbn [get bind]; [reflexivity|]. cbv zeta.
  destruct (N.land (N.shiftr buff 4) 15 =? 0).
  { destruct (N.land buff 8 =? 0); cbn [truthy negb]; eat_gets; try reflexivity.
    - header (ConfirmedRequest false _ _ _ _ _ 0 0 _) [_; _; _; _].
    - header (ConfirmedRequest true _ _ _ _ _ _ _ _) [_; _; _; _; _; _]. }
  destruct (N.land (N.shiftr buff 4) 15 =? 1).
  { eat_gets; try reflexivity. header (UnconfirmedRequest _) [_; _]. }
  destruct (N.land (N.shiftr buff 4) 15 =? 2).
  { eat_gets; try reflexivity. header (SimpleAck _ _) [_; _; _]. }
  destruct (N.land (N.shiftr buff 4) 15 =? 3).
  { destruct (N.land buff 8 =? 0); cbn [truthy negb]; eat_gets; try reflexivity.
    - header (ComplexAck false _ _ 0 0 _) [_; _; _].
    - header (ComplexAck true _ _ _ _ _) [_; _; _; _; _]. }
  destruct (N.land (N.shiftr buff 4) 15 =? 4).
  { eat_gets; try reflexivity. header (SegmentAck _ _ _ _ _) [_; _; _; _]. }
  destruct (N.land (N.shiftr buff 4) 15 =? 5).
  { eat_gets; try reflexivity. header (ErrorHdr _ _) [_; _; _]. }
  destruct (N.land (N.shiftr buff 4) 15 =? 6).
  { eat_gets; try reflexivity. header (Reject _ _) [_; _; _]. }
  destruct (N.land (N.shiftr buff 4) 15 =? 7).
  { eat_gets; try reflexivity. header (Abort _ _ _) [_; _; _]. }
  reflexivity.
Qed.

Lemma dec_apci_total bs :
  (exists a r, dec_apci bs = Ok (a, r)) \/ dec_apci bs = Err DecodingError.
Proof.
  pose proof (dec_apci_inv bs) as H. destruct (dec_apci bs) as [[a r]|e]; [left; eauto|right; rewrite H; reflexivity].
Qed.

(* no over-read *)
Lemma dec_shape bs a r : dec_apci bs = Ok (a, r) ->
  exists hd, bs = hd ++ r /\ (2 <= length hd <= 6)%nat.
Proof.
  intros E. pose proof (dec_apci_inv bs) as H. rewrite E in H. destruct H as (h & hd & _ & -> & L & _).
  exists hd. split; [reflexivity|]. rewrite L. destruct h as [[] | | | [] | | | | ]; cbn [spec20_1 length app]; lia.
Qed.


Lemma putz_refuses z : (z < 0 \/ 255 < z)%Z -> putz z = Err ValueErr.
Proof. intros H. unfold putz. destruct ((0 <=? z)%Z && (z <? 256)%Z) eqn:E; [lia|reflexivity]. Qed.

Lemma putz_ok z bs : putz z = Ok bs -> (0 <= z < 256)%Z /\ bs = [Z.to_N z].
Proof.
  unfold putz. destruct ((0 <=? z)%Z && (z <? 256)%Z) eqn:E; [|discriminate].
  intros H; injection H as <-. split; [lia|reflexivity].
Qed.

Lemma enc_invalid_type a :
  (forall k, (0 <= k <= 7)%Z -> aType a <> Some k) -> enc_apci a = Err ValueErr.
Proof.
  intros H. unfold enc_apci. destruct (aType a) as [z|]; [|reflexivity].
  destruct z as [|p|p]; [exfalso; apply (H 0%Z); [lia|reflexivity] | | reflexivity].
  destruct p as [[[?|?|]|[?|?|]|]|[[?|?|]|[?|?|]|]|]; try reflexivity;
    exfalso; (eapply H; [|reflexivity]); lia.
Qed.
