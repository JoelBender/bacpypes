(* AsapCodecFacts.v — C10 from the octets of the parameter area: asap_octets is asap_confirmed on the codec's verdict,
   so the facts of AsapFacts.v carry over to every octet string. *)
From Bac Require Import Base Codec Asap AsapFacts AsapCodec.
From BacGen Require Import Schemas.
Open Scope N_scope.

Lemma octets_shape svc params h x :
  (exists r, asap_octets svc params h x = [r]) \/ (asap_octets svc params h x = [] /\ x = XSilent).
Proof. unfold asap_octets. destruct (decode_outcome svc params); apply asap_confirmed_shape. Qed.

Lemma octets_one_reply svc params h x :
  x <> XSilent -> exists r, asap_octets svc params h x = [r].
Proof. intros Hx. destruct (octets_shape svc params h x) as [H|[_ E]]; [exact H | congruence]. Qed.
