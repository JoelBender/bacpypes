(* PrimFacts.v — lemmas about Prim.v: the table obligations over gen/Enums.v, table lookups, enumerations and
   object identifiers through a bijective table, the domain of the round trip (prim_ok), the round trip at tag
   level and down to the octets (through C02's tag_roundtrip).  The refusal conditions and canonical forms of
   C01 are read off the encoders' equations in props/C01.v. *)
From Bac Require Import Base ResFacts BytesFacts Tag TagHdr TagFacts Prim PrimCtxFacts PrimTables PrimInt PrimBits PrimFloat.
Open Scope N_scope.

(* table obligations, re-checked by make against the tables generated from the current source *)
Lemma enums_bijective : forallb (fun p => enum_bijective (snd p)) all_enums = true.
Proof. vm_compute. reflexivity. Qed.
Lemma enums_in_range : forallb (fun p => enum_in_range (snd p)) all_enums = true.
Proof. vm_compute. reflexivity. Qed.
Lemma bitstrings_wf : forallb (fun p => bits_wf (snd p)) all_bitstrings = true.
Proof. vm_compute. reflexivity. Qed.
Lemma unsigned_limits_std :
  unsigned_limits = [("bacpypes.basetypes.AccessThreatLevel"%string, (0%Z, Some 100%Z));
                     ("bacpypes.primitivedata.Unsigned16"%string, (0%Z, Some 65535%Z));
                     ("bacpypes.primitivedata.Unsigned8"%string, (0%Z, Some 255%Z))]
  /\ objid_max_instance = 4194303%Z.
Proof. split; reflexivity. Qed.

(* lookups: a later entry wins *)
Lemma tbl_num_in tb s n : tbl_num tb s = Some n -> In (s, n) tb.
Proof.
  induction tb as [|[k v] r IH]; cbn [tbl_num]; [discriminate|].
  destruct (tbl_num r s) as [x|] eqn:E.
  - intros H; injection H as <-. right. apply IH. reflexivity.
  - destruct (String.eqb k s) eqn:K; [|discriminate].
    intros H; injection H as <-. apply String.eqb_eq in K. subst. left. reflexivity.
Qed.
Lemma tbl_name_in tb n s : tbl_name tb n = Some s -> In (s, n) tb.
Proof.
  induction tb as [|[k v] r IH]; cbn [tbl_name]; [discriminate|].
  destruct (tbl_name r n) as [x|] eqn:E.
  - intros H; injection H as <-. right. apply IH. reflexivity.
  - destruct (v =? n) eqn:K; [|discriminate].
    intros H; injection H as <-. apply N.eqb_eq in K. subst. left. reflexivity.
Qed.
Lemma tbl_num_none tb s : existsb (String.eqb s) (map fst tb) = false -> tbl_num tb s = None.
Proof.
  induction tb as [|[k v] r IH]; cbn [tbl_num map existsb fst]; [reflexivity|].
  intros H. apply orb_false_iff in H as [H1 H2]. rewrite (IH H2).
  rewrite String.eqb_sym, H1. reflexivity.
Qed.
Lemma tbl_name_none tb n : existsb (N.eqb n) (map snd tb) = false -> tbl_name tb n = None.
Proof.
  induction tb as [|[k v] r IH]; cbn [tbl_name map existsb snd]; [reflexivity|].
  intros H. apply orb_false_iff in H as [H1 H2]. rewrite (IH H2).
  rewrite N.eqb_sym, H1. reflexivity.
Qed.
Lemma in_tbl_num tb s n :
  nodupb String.eqb (map fst tb) = true -> In (s, n) tb -> tbl_num tb s = Some n.
Proof.
  induction tb as [|[k v] r IH]; cbn [nodupb map fst In tbl_num]; [intros _ []|].
  intros H. apply andb_true_iff in H as [H1 H2]. apply negb_true_iff in H1.
  intros [E|I].
  - injection E as -> ->. rewrite (tbl_num_none r s H1), String.eqb_refl. reflexivity.
  - rewrite (IH H2 I). reflexivity.
Qed.
Lemma in_tbl_name tb s n :
  nodupb N.eqb (map snd tb) = true -> In (s, n) tb -> tbl_name tb n = Some s.
Proof.
  induction tb as [|[k v] r IH]; cbn [nodupb map snd In tbl_name]; [intros _ []|].
  intros H. apply andb_true_iff in H as [H1 H2]. apply negb_true_iff in H1.
  intros [E|I].
  - injection E as -> ->. rewrite (tbl_name_none r n H1), N.eqb_refl. reflexivity.
  - rewrite (IH H2 I). reflexivity.
Qed.

Lemma tbl_name_num tb s n : enum_bijective tb = true ->
  tbl_num tb s = Some n -> tbl_name tb n = Some s.
Proof.
  unfold enum_bijective. intros H E. apply andb_true_iff in H as [_ H].
  apply in_tbl_name; [assumption|]. apply tbl_num_in. assumption.
Qed.
Lemma tbl_num_name tb s n : enum_bijective tb = true ->
  tbl_name tb n = Some s -> tbl_num tb s = Some n.
Proof.
  unfold enum_bijective. intros H E. apply andb_true_iff in H as [H _].
  apply in_tbl_num; [assumption|]. apply tbl_name_in. assumption.
Qed.
Lemma tbl_num_range tb s n : enum_in_range tb = true -> tbl_num tb s = Some n -> n < 4294967296.
Proof.
  unfold enum_in_range. intros H E. apply tbl_num_in in E.
  rewrite forallb_forall in H. specialize (H _ E). cbn [snd] in H. lia.
Qed.

(* the states an Enumerated can be constructed in: a known name, or a number that has no name *)
Definition valid_eval (tb : table) (v : eval) : Prop :=
  match v with
  | EName s => tbl_num tb s <> None
  | ENum z => (0 <= z)%Z /\ tbl_name_z tb z = None
  end.

Lemma eval_of_num_name tb s n : enum_bijective tb = true -> tbl_num tb s = Some n ->
  eval_of_num tb n = EName s.
Proof. intros B E. unfold eval_of_num. rewrite (tbl_name_num tb s n B E). reflexivity. Qed.
Lemma eval_of_num_num tb z : (0 <= z)%Z -> tbl_name_z tb z = None ->
  eval_of_num tb (Z.to_N z) = ENum z.
Proof.
  intros H E. unfold tbl_name_z in E. destruct (z <? 0)%Z eqn:S; [lia|].
  unfold eval_of_num. rewrite E. f_equal. lia.
Qed.

(* either state has a number n: the one Enumerated.encode packs, the one decode maps back to the state,
   and the type half of an object identifier *)
Lemma valid_eval_num tb v : enum_bijective tb = true -> valid_eval tb v ->
  exists n, eval_num tb v = Ok (Z.of_N n) /\ eval_of_num tb n = v /\
            forall i, objid_word tb v i = Ok (Z.of_N n * 4194304 + i)%Z.
Proof.
  intros B V. destruct v as [s|z]; cbn [valid_eval eval_num] in *.
  - destruct (tbl_num tb s) as [n|] eqn:E; [|congruence]. exists n.
    split; [reflexivity|]. split; [apply eval_of_num_name; assumption|].
    intros i. unfold objid_word. rewrite E. reflexivity.
  - destruct V as [V1 V2]. exists (Z.to_N z). rewrite Z2N.id by exact V1.
    split; [reflexivity|]. split; [apply eval_of_num_num; assumption|reflexivity].
Qed.

Lemma objid_word_of_num tb n i : enum_bijective tb = true ->
  objid_word tb (eval_of_num tb n) i = Ok (Z.of_N n * 4194304 + i)%Z.
Proof.
  intros B. unfold objid_word, eval_of_num.
  destruct (tbl_name tb n) as [s|] eqn:E; [rewrite (tbl_num_name tb s n B E)|]; reflexivity.
Qed.

Lemma enum_roundtrip tb v d :
  enum_bijective tb = true -> valid_eval tb v ->
  enc_enum tb v = Ok d ->
  (lenN d =? 0) = false /\ eval_of_num tb (unbe d) = v /\ exists n, n < 4294967296 /\ eval_num tb v = Ok (Z.of_N n) /\ d = spec_min_unsigned n.
Proof.
  intros B V. destruct (valid_eval_num tb v B V) as (n & E & R & _).
  change (enc_enum tb v) with (do z <- eval_num tb v; enc_unsigned z). rewrite E. cbn [bind].
  rewrite enc_unsigned_eq, N2Z.id. destruct (_ && _)%Z eqn:P; [|discriminate]. intros [= <-].
  rewrite spec_min_unsigned_nonempty, unbe_spec_min_unsigned. split; [reflexivity|]. split; [exact R|].
  exists n. split; [lia|]. split; reflexivity.
Qed.

Lemma objid_roundtrip tb t i d :
  enum_bijective tb = true -> valid_eval tb t -> (0 <= i <= 4194303)%Z ->
  enc_objid tb t i = Ok d ->
  lenN d = 4 /\ objid_of_word tb (unbe d) = PObjId t i /\
  exists tn, (0 <= tn < 1024)%Z /\ objid_word tb t i = Ok (tn * 4194304 + i)%Z /\ d = be4 (Z.to_N (tn * 4194304 + i)).
Proof.
  intros B V I. destruct (valid_eval_num tb t B V) as (n & _ & R & W).
  unfold enc_objid, pack_L. rewrite W. cbn [bind].
  destruct (_ && _)%Z eqn:P; [|discriminate]. intros [= <-]. split; [reflexivity|].
  rewrite unbe_be4 by lia. split.
  - unfold objid_of_word. f_equal; [rewrite <- R; f_equal; lia_div|lia_div].
  - exists (Z.of_N n). split; [lia|]. split; reflexivity.
Qed.

(* a double is a binary32 value when narrowing and widening give it back *)
Definition real_exact (d : N) : Prop := exists p, round32 d = Ok p /\ widen32 p = d.
Definition chars_decodable (e : N) (l : list N) : bool :=
  negb ((e =? 3) && negb (utf32be_ok l)) && negb ((e =? 4) && negb (utf16be_ok false l)).

(* the domain of the round-trip theorems: what the public constructors can produce *)
Definition prim_ok (tb : table) (v : prim) : Prop :=
  match v with
  | PReal d => d < 18446744073709551616 /\ real_exact d
  | PDouble d => d < 18446744073709551616
  | PChars e l => chars_decodable e l = true
  | PEnum x => valid_eval tb x
  | PObjId t i => valid_eval tb t /\ (0 <= i <= 4194303)%Z
  | _ => True
  end.

Definition in_octet (z : Z) : bool := ((0 <=? z) && (z <? 256))%Z.
Lemma enc_tuple4_eq a b c d : enc_tuple4 a b c d =
  if in_octet a && in_octet b && in_octet c && in_octet d
  then Ok [Z.to_N a; Z.to_N b; Z.to_N c; Z.to_N d] else Err ValueErr.
Proof.
  unfold enc_tuple4, octet_of. fold (in_octet a) (in_octet b) (in_octet c) (in_octet d).
  destruct (in_octet a); [|reflexivity]. destruct (in_octet b); [|reflexivity].
  destruct (in_octet c); [|reflexivity]. destruct (in_octet d); reflexivity.
Qed.

(* dec_app on a tag whose class and number are the expected ones: down to the match on the content *)
Ltac dec_head := unfold dec_app, app_tag; cbn [cls num lvt data]; rewrite ?N.eqb_refl; cbn [negb orb].

(* one bullet per constructor of prim, in the order of kind: Null, Boolean, Unsigned, Integer, Real, Double,
   OctetString, CharacterString, BitString, Enumerated, Date, Time, ObjectIdentifier *)
Theorem roundtrip_app tb v t :
  enum_bijective tb = true -> prim_ok tb v ->
  enc_app tb v = Ok t -> dec_app tb (kind v) t = Ok v.
Proof.
  intros B V. destruct v; cbn [enc_app kind prim_ok] in *.
  - intros [= <-]. reflexivity.
  - intros [= <-]. destruct b; reflexivity.
  - rewrite enc_unsigned_eq. destruct (_ && _)%Z eqn:R; [|discriminate]. cbn [bind]. intros [= <-].
    dec_head. rewrite spec_min_unsigned_nonempty, unbe_spec_min_unsigned. f_equal. f_equal. lia.
  - rewrite enc_integer_eq. destruct (_ && _)%Z eqn:R; [|discriminate]. cbn [bind]. intros [= <-].
    dec_head. rewrite dec_integer_spec by lia. reflexivity.
  - destruct V as [D [p [R W]]]. unfold enc_real. rewrite R. cbn [bind]. intros [= <-].
    dec_head. change (lenN (be4 p) =? 4) with true. cbv iota.
    rewrite unbe_be4 by (eapply round32_lt; eassumption). rewrite W. reflexivity.
  - unfold enc_double. cbn [bind]. intros [= <-].
    dec_head. change (lenN (be8 d) =? 8) with true. cbv iota. rewrite unbe_be8 by assumption. reflexivity.
  - intros [= <-]. reflexivity.
  - destruct (put enc) as [e|] eqn:E; [|discriminate]. apply put_inv in E as [_ ->]. cbn [bind app]. intros [= <-].
    dec_head. unfold chars_decodable in V. apply andb_true_iff in V as [V1 V2].
    apply negb_true_iff in V1, V2. rewrite V1, V2. reflexivity.
  - intros [= <-]. dec_head. rewrite bits_roundtrip. reflexivity.
  - intros H. apply bind_ok_inv in H as (d & E & [= <-]).
    destruct (enum_roundtrip tb v d B V E) as [L [R _]]. dec_head. rewrite L, R. reflexivity.
  - rewrite enc_tuple4_eq. unfold in_octet. destruct (_ && _ && _ && _) eqn:E; [|discriminate]. cbn [bind].
    intros [= <-]. dec_head. f_equal. f_equal; lia.
  - rewrite enc_tuple4_eq. unfold in_octet. destruct (_ && _ && _ && _) eqn:E; [|discriminate]. cbn [bind].
    intros [= <-]. dec_head. f_equal. f_equal; lia.
  - destruct V as [V I]. intros H. apply bind_ok_inv in H as (d & E & [= <-]).
    destruct (objid_roundtrip tb t0 i d B V I E) as [L [R _]]. dec_head. rewrite L. cbv iota.
    change (4 =? 4) with true. cbv iota. exact (f_equal Ok R).
Qed.

Lemma enc_app_shape tb v t : enc_app tb v = Ok t -> app_shape (kind v) t.
Proof.
  destruct v; cbn [enc_app kind]; intros H; try apply bind_ok_inv in H as (x & _ & H);
    injection H as <-; repeat split.
  destruct b; cbn; lia.
Qed.

Lemma kind_le v : kind v <= 12.
Proof. destruct v; cbn; lia. Qed.

Lemma shape_wf k t : k <= 12 -> app_shape k t -> bytes_ok (data t) = true -> lvt t < 4294967296 ->
  wf_tag t = true.
Proof.
  intros K (C & Nn & S) Bs L. apply wf_tag_spec. rewrite C, Nn. cbn [N.eqb orb andb].
  split; [lia|]. split; [lia|]. split; [exact L|]. split; [exact Bs|]. split; [discriminate|].
  destruct (k =? 1); [apply S|symmetry; exact S].
Qed.

(* what an application tag puts on the wire, followed by anything, decodes to that tag (composition with C02) *)
Lemma enc_app_wire tb v t bs rest :
  enc_app tb v = Ok t -> bytes_ok (data t) = true -> lvt t < 4294967296 ->
  enc_tag t = Ok bs -> dec_tag (bs ++ rest) = Ok (t, rest).
Proof.
  intros E Bs L T.
  pose proof (shape_wf (kind v) t (kind_le v) (enc_app_shape tb v t E) Bs L) as W.
  destruct (tag_roundtrip t W) as [bs' [T' D]]. rewrite T in T'. injection T' as <-. apply D.
Qed.

Theorem wire_roundtrip_ctx tb v c t rest :
  enum_bijective tb = true -> prim_ok tb v -> c <= 254 ->
  enc_app tb v = Ok t -> bytes_ok (data t) = true -> lvt t < 4294967296 ->
  exists bs, enc_octets_ctx tb c v = Ok bs /\
             dec_octets_ctx tb (kind v) (bs ++ rest) = Ok (v, rest).
Proof.
  intros B V C E Bs L.
  destruct (ctx_roundtrip c (kind v) t (enc_app_shape tb v t E)) as (d & A & R & W). destruct (W Bs L) as [Bd Ld].
  destruct (tag_roundtrip _ (ctx_tag_wf c d ltac:(lia) Bd Ld)) as [bs [T D]]. exists bs. split.
  - unfold enc_octets_ctx. rewrite E. cbn [bind]. rewrite A. cbn [bind]. exact T.
  - unfold dec_octets_ctx. rewrite D. cbn [bind]. rewrite R. cbn [bind].
    rewrite (roundtrip_app tb v t B V E). reflexivity.
Qed.
