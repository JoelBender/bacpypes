(* SchedPassive.v — programs whose callbacks have no scheduling actions (they only record, defer
   and raise): shape of process_task, of the drain loop and of the step shared by the two loops, and
   a preservation principle for the loops that needs no hypothesis about arbitrary installs. *)
From Bac Require Import Base Deferred DeferredFacts Sched SchedFacts SchedThms.
From Coq Require Import Permutation Sorted.
Open Scope Z_scope.

Definition passive_cfg (c : cfg) : Prop :=
  forall i, t_acts (cfg_get c i) = [] /\ forallb no_acts (t_defers (cfg_get c i)) = true.
Definition passive_dq (s : st) : Prop := forallb no_acts (dq s) = true.
Definition nofuel (ev : list event) : Prop := ~ In (EvErr OutOfFuel) ev.

Lemma nofuel_app : forall a b, nofuel a -> nofuel b -> nofuel (a ++ b).
Proof. intros a b Ha Hb Hx. apply in_app_or in Hx. destruct Hx; [apply Ha | apply Hb]; assumption. Qed.

Lemma forallb_flat_spawns : forall b, forallb no_acts b = true -> forallb no_acts (flat_map d_spawns b) = true.
Proof.
  induction b as [|d b IH]; intros H; [reflexivity|]. cbn [forallb] in H. apply andb_prop in H. destruct H as [Hd Hb].
  cbn [flat_map]. rewrite forallb_app. rewrite (proj2 (no_acts_spawns d Hd)), (IH Hb). reflexivity.
Qed.

Lemma call_batch_s_passive : forall guard jit c b s s' ev x, forallb no_acts b = true ->
  call_batch_s guard jit c s b = (s', ev, x) ->
  exists q, s' = set_dq s (dq s ++ q) /\ forallb no_acts q = true /\ noise ev /\ nofuel ev /\
            (x = false -> q = flat_map d_spawns b) /\ (guard = true -> x = false).
Proof.
  induction b as [|d b IH]; intros s s' ev x Hb H; cbn [call_batch_s] in H.
  - inversion H; subst. exists []. rewrite app_nil_r.
    split; [destruct s'; reflexivity|]. split; [reflexivity|]. split; [intros y []|]. split; [intros []|].
    split; reflexivity.
  - cbn [forallb] in Hb. apply andb_prop in Hb. destruct Hb as [Hd Hb].
    destruct (no_acts_spawns d Hd) as [Ha Hsp]. rewrite Ha in H. cbn [run_acts] in H. cbn [orb app] in H.
    assert (Hn1 : noise (EvCall (d_id d) :: (if d_raises d then [EvRaise] else []))).
    { intros y Hy. destruct (d_raises d); cbn in Hy; repeat (destruct Hy as [Hy|Hy]; [subst y; reflexivity|]); destruct Hy. }
    assert (Hf1 : nofuel (EvCall (d_id d) :: (if d_raises d then [EvRaise] else []))).
    { intros Hy. destruct (d_raises d); cbn in Hy; repeat (destruct Hy as [Hy|Hy]; [discriminate|]); destruct Hy. }
    destruct (d_raises d && negb guard) eqn:E.
    + inversion H; subst. exists (d_spawns d). split; [reflexivity|]. split; [exact Hsp|]. split; [exact Hn1|]. split; [exact Hf1|].
      split; [discriminate|]. intros ->. rewrite andb_false_r in E. discriminate.
    + destruct (call_batch_s guard jit c (set_dq s (dq s ++ d_spawns d)) b) as [[s3 ev3] x3] eqn:R. inversion H; subst.
      destruct (IH _ _ _ _ Hb R) as [q [-> [Hq [Hn [Hf [Hx Hg]]]]]]. cbn [dq set_dq].
      exists (d_spawns d ++ q). split; [destruct s; cbn; rewrite app_assoc; reflexivity|].
      split; [rewrite forallb_app, Hsp, Hq; reflexivity|].
      split; [change (noise ((EvCall (d_id d) :: (if d_raises d then [EvRaise] else [])) ++ ev3)); apply noise_app; assumption|].
      split; [|split].
      * exact (nofuel_app _ _ Hf1 Hf).
      * intros Hx0. rewrite (Hx Hx0). reflexivity.
      * exact Hg.
Qed.

Lemma sdrain_passive : forall guard jit c fuel s s' ev x, passive_dq s -> (f_size (dq s) <= fuel)%nat ->
  sdrain guard jit c fuel s = (s', ev, x) ->
  exists q, s' = set_dq s q /\ forallb no_acts q = true /\ noise ev /\
            (guard = true -> x = false /\ q = [] /\ nofuel ev).
Proof.
  induction fuel as [|f IH]; intros s s' ev x Hp Hf H; cbn [sdrain] in H.
  - destruct (dq s) as [|d0 q0] eqn:Q.
    + inversion H; subst. exists []. split; [rewrite <- Q; symmetry; apply set_dq_id|].
      split; [reflexivity|]. split; [intros y []|]. intros _. split; [reflexivity|]. split; [reflexivity | intros []].
    + discriminate (f_size_zero _ Hf).
  - destruct (dq s) as [|d0 q0] eqn:Q.
    + inversion H; subst. exists []. split; [rewrite <- Q; symmetry; apply set_dq_id|].
      split; [reflexivity|]. split; [intros y []|]. intros _. split; [reflexivity|]. split; [reflexivity | intros []].
    + unfold passive_dq in Hp. rewrite Q in Hp.
      destruct (call_batch_s guard jit c (set_dq s []) (d0 :: q0)) as [[s1 ev1] x1] eqn:B.
      destruct (call_batch_s_passive _ _ _ _ _ _ _ _ Hp B) as [q [-> [Hq [Hn [Hfu [Hx Hg]]]]]].
      cbn [dq set_dq app] in *. rewrite set_dq_set_dq in *.
      destruct x1.
      * inversion H; subst. exists q. split; [reflexivity|]. split; [exact Hq|]. split; [exact Hn|].
        intros Hgd. specialize (Hg Hgd). discriminate.
      * destruct (sdrain guard jit c f (set_dq s q)) as [[s2 ev2] x2] eqn:R. inversion H; subst.
        assert (Hsz : (f_size q <= f)%nat).
        { rewrite (Hx eq_refl). pose proof (f_size_spawns (d0 :: q0)) as Hs. cbn [length] in Hs. lia. }
        assert (Hp2 : passive_dq (set_dq s q)) by exact Hq.
        destruct (IH _ _ _ _ Hp2 Hsz R) as [q2 [-> [Hq2 [Hn2 Hg2]]]]. rewrite set_dq_set_dq.
        exists q2. split; [reflexivity|]. split; [exact Hq2|]. split; [apply noise_app; assumption|].
        intros Hgd. destruct (Hg2 Hgd) as [-> [-> Hf2]]. split; [reflexivity|]. split; [reflexivity|].
        apply nofuel_app; assumption.
Qed.

Lemma do_drain_passive : forall guard jit c s s' ev x, passive_dq s -> do_drain guard jit c s = (s', ev, x) ->
  exists q, s' = set_dq s q /\ forallb no_acts q = true /\ noise ev /\
            (guard = true -> x = false /\ q = [] /\ nofuel ev).
Proof. intros guard jit c s s' ev x Hp H. unfold do_drain in H. eapply sdrain_passive; [exact Hp | apply le_n | exact H]. Qed.

Lemma do_drain_guarded : forall jit c s s' ev x, passive_dq s -> do_drain true jit c s = (s', ev, x) ->
  s' = set_dq s [] /\ x = false /\ nofuel ev.
Proof.
  intros jit c s s' ev x Hp D. destruct (do_drain_passive _ _ _ _ _ _ _ Hp D) as [q [-> [_ [_ Hg]]]].
  destruct (Hg eq_refl) as [-> [-> Hnf]]. repeat split. exact Hnf.
Qed.

Lemma process_task_passive : forall jit c s e s2 ev r, passive_cfg c -> process_task jit c s e = (s2, ev, r) ->
  let s1 := set_dq s (dq s ++ t_defers (cfg_get c (e_tid e))) in
  (s2 = s1 /\ ev = [fire_of s e]) \/
  exists iv off, t_kind (cfg_get c (e_tid e)) = Recurring iv off /\ 0 < iv /\ r = false /\
    t_raises (cfg_get c (e_tid e)) = false /\
    tm_install (set_ttime s1 (upd (ttime s1) (e_tid e) (Some (next_slot jit iv off (now s))))) (e_tid e) = Ok s2 /\
    ev = [fire_of s e; EvInst (e_tid e) true].
Proof.
  intros jit c s e s2 ev r Hc P s1.
  destruct (process_task_cases _ _ _ _ _ _ _ P) as [sa [eva [failed [RA Hx]]]].
  rewrite (proj1 (Hc (e_tid e))) in RA. cbn [run_acts] in RA. inversion RA; subst sa eva failed.
  destruct Hx as [[-> ->]|[iv [off [K [Hiv [-> [_ [Hr [T ->]]]]]]]]]; [left; split; reflexivity|].
  right. exists iv, off. repeat split; try assumption.
Qed.

Lemma process_task_raising : forall jit c s e, passive_cfg c -> t_raises (cfg_get c (e_tid e)) = true ->
  process_task jit c s e = (set_dq s (dq s ++ t_defers (cfg_get c (e_tid e))), [fire_of s e], true).
Proof.
  intros jit c s e Hc H. unfold process_task. rewrite (proj1 (Hc (e_tid e))). cbn [run_acts]. rewrite H.
  reflexivity.
Qed.

Lemma process_task_requeues : forall jit c s e s2 ev r iv off, passive_cfg c -> process_task jit c s e = (s2, ev, r) ->
  t_kind (cfg_get c (e_tid e)) = Recurring iv off -> t_raises (cfg_get c (e_tid e)) = false -> 0 < iv ->
  r = false /\ In (next_slot jit iv off (now s), ctr s, e_tid e) (heap s2).
Proof.
  intros jit c s e s2 ev r iv off Hc P K Hr Hiv. unfold process_task in P.
  rewrite (proj1 (Hc (e_tid e))), Hr, K in P. cbn [run_acts orb] in P. unfold rec_install in P.
  destruct (iv <=? 0) eqn:E; [lia|].
  set (s1 := set_dq s (dq s ++ t_defers (cfg_get c (e_tid e)))) in P.
  destruct (tm_install_set_time s1 (e_tid e) (next_slot jit iv off (now s1))) as [s3 [T [_ Hin]]].
  rewrite T in P. inversion P; subst. split; [reflexivity | exact Hin].
Qed.

(* `new` is at most the next slot of the recurring task that fired, which lies after the clock *)
Lemma fire_step_passive : forall jit c s s2 ev r z, passive_cfg c -> 0 <= jit -> Inv s -> passive_dq s ->
  fire_step jit c s = (s2, ev, r, z) ->
  (get_next_task s = (None, s, false) /\ s2 = s /\ ev = [] /\ r = false /\ z = false) \/
  exists e rest new, heap s = e :: rest /\ e_when e <= now s /\ now s2 = now s /\ Inv s2 /\ passive_dq s2 /\
    fired ev = [e] /\ nofuel ev /\ z = match rest with [] => false | e' :: _ => e_when e' <=? now s end /\
    Permutation (heap s2) (new ++ rest) /\ forall x, In x new -> now s < e_when x.
Proof.
  intros jit c s s2 ev r z Hc Hj Hi Hp F.
  destruct (fire_step_cases _ _ _ _ _ _ _ F) as [H0|[e [s1 [ev1 [G [P ->]]]]]]; [left; exact H0 | right].
  destruct (get_next_inv _ _ _ _ Hi G) as [Hi1 Hni].
  destruct (get_next_some _ _ _ _ G) as [rest [Hh [Hd [Hs1 Hz]]]].
  assert (Hp1 : passive_dq (set_dq s1 (dq s1 ++ t_defers (cfg_get c (e_tid e))))).
  { unfold passive_dq. cbn [dq set_dq]. rewrite forallb_app. subst s1. cbn [dq]. rewrite Hp.
    rewrite (proj2 (Hc (e_tid e))). reflexivity. }
  assert (Hev : forall a, (a = [] \/ a = [EvInst (e_tid e) true]) ->
            fired (pop_events s e s1 ++ fire_of s1 e :: a) = [e] /\ nofuel (pop_events s e s1 ++ fire_of s1 e :: a)).
  { intros a Ha. split; [destruct e as [[w n] i]; destruct Ha as [->| ->]; reflexivity|].
    intros Hx. destruct Ha as [->| ->]; cbn in Hx; repeat (destruct Hx as [Hx|Hx]; [discriminate Hx|]); exact Hx. }
  destruct (process_task_passive _ _ _ _ _ _ _ Hc P) as [[-> ->]|[iv [off [K [Hiv [-> [_ [T ->]]]]]]]].
  - exists e, rest, []. split; [exact Hh|]. split; [exact Hd|].
    split; [subst s1; reflexivity|]. split; [apply Inv_set_dq, Hi1|]. split; [exact Hp1|].
    split; [apply Hev; left; reflexivity|]. split; [apply Hev; left; reflexivity|]. split; [exact Hz|].
    split; [subst s1; reflexivity | intros x []].
  - (* the popped task is re-installed: get_next_task has just unscheduled it, so the suspend inside tm_install does
       nothing (tm_suspend_unsched) and the permutation of tm_install_facts reads "new entry :: rest" *)
    exists e, rest, [(next_slot jit iv off (now s), ctr s, e_tid e)]. split; [exact Hh|]. split; [exact Hd|].
    assert (Hb : InvBut (e_tid e) (set_ttime (set_dq s1 (dq s1 ++ t_defers (cfg_get c (e_tid e))))
                   (upd (ttime (set_dq s1 (dq s1 ++ t_defers (cfg_get c (e_tid e))))) (e_tid e)
                      (Some (next_slot jit iv off (now s1)))))).
    { apply InvBut_set_time, Inv_set_dq, Hi1. }
    destruct (tm_install_facts _ _ _ Hb T) as [t [Ht [Hi2 [_ Hperm]]]].
    destruct (tm_install_frame _ _ _ T) as [Hn [_ [_ Hdq]]].
    assert (Hsf : sched s1 (e_tid e) = false) by (subst s1; cbn [sched]; apply upd_same).
    rewrite (tm_suspend_unsched _ _ (proj1 Hb) Hsf) in Hperm.
    cbn [ttime set_ttime set_dq ctr now dq heap] in *. rewrite upd_same in Ht. inversion Ht; subst t.
    split; [rewrite Hn; subst s1; reflexivity|]. split; [exact Hi2|].
    split; [unfold passive_dq; rewrite Hdq; exact Hp1|].
    split; [apply Hev; right; reflexivity|]. split; [apply Hev; right; reflexivity|]. split; [exact Hz|].
    split; [subst s1; exact Hperm|]. intros x [<-|[]]. cbn [e_when fst].
    pose proof (next_slot_after jit iv off (now s) Hiv Hj). lia.
Qed.

(* SchedFacts.LoopSkeleton once more, for the invariant "I and passive_dq": passive_dq is what makes the drain loop
   a sequence of I_dq and I_noise steps (do_drain_passive), so only the shared step is left as a hypothesis *)
Section PLoops.
  Context (I : st -> list event -> Prop) (guard : bool) (jit : Z) (c : cfg).
  Context (I_fire : forall s acc s2 ev r z, I s acc /\ passive_dq s -> fire_step jit c s = (s2, ev, r, z) ->
             I s2 (acc ++ ev) /\ passive_dq s2).
  Context (I_dq : forall s acc q, I s acc -> I (set_dq s q) acc).
  Context (I_noise : forall s acc ev, I s acc -> noise ev -> I s (acc ++ ev)).

  Lemma loops_pres_passive : forall s acc s' ev, I s acc -> passive_dq s ->
    run_once guard jit c s = (s', ev) \/ run guard jit c s = (s', ev) -> I s' (acc ++ ev) /\ passive_dq s'.
  Proof.
    assert (P_drain : forall s acc s2 ev r, I s acc /\ passive_dq s -> do_drain guard jit c s = (s2, ev, r) ->
              I s2 (acc ++ ev) /\ passive_dq s2).
    { intros s acc s2 ev r [Hi Hp] D. destruct (do_drain_passive _ _ _ _ _ _ _ Hp D) as [q [-> [Hq [Hn _]]]].
      split; [apply I_noise; [apply I_dq, Hi | exact Hn] | exact Hq]. }
    assert (P_noise : forall s acc ev, I s acc /\ passive_dq s -> noise ev -> I s (acc ++ ev) /\ passive_dq s).
    { intros s acc ev [Hi Hp] Hn. split; [apply I_noise; assumption | exact Hp]. }
    intros s acc s' ev Hi Hp [H|H].
    - exact (run_once_loop_pres _ guard jit c I_fire P_drain P_noise _ s acc s' ev (conj Hi Hp) H).
    - exact (run_loop_pres _ guard jit c I_fire P_drain P_noise _ s acc s' ev (conj Hi Hp) H).
  Qed.
End PLoops.
