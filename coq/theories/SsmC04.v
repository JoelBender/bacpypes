(* SsmC04.v — C04 on the client transaction over whole event sequences (uses the per-handler facts of SsmC04a.v). *)
From Bac Require Import Base PyRt Ssm SsmFrame SsmC04a.
Open Scope Z_scope.

Lemma c_confirmation_post : forall a st, pre st -> post st (c_confirmation a st).
Proof.
  intros a st Hpre. apply (c_confirmation_cases (post st));
    [apply c_segmented_request_post | apply c_await_confirmation_post | apply c_segmented_confirmation_post |]; try exact Hpre.
  revert st Hpre. start_handler. finish_post.
Qed.

(* ClientSSM only ever is in one of these while listed *)
Definition c_state_ok (s : ssm) : bool :=
  (s_state s =? SEGMENTED_REQUEST) || (s_state s =? AWAIT_CONFIRMATION) || (s_state s =? SEGMENTED_CONFIRMATION).

Lemma c_process_task_cases : forall (P : hst * option err -> Prop) st,
  (c_state_ok (h_s st) = true ->
   P (c_segmented_request_timeout st) /\ P (c_await_confirmation_timeout st) /\ P (c_segmented_confirmation_timeout st)) ->
  (c_state_ok (h_s st) = false -> P (st, if terminal (h_s st) then None else Some RuntimeErr)) ->
  P (c_process_task st).
Proof.
  intros P st H1 H2. unfold c_process_task, withs, c_state_ok in *.
  destruct (s_state (h_s st) =? SEGMENTED_REQUEST); [apply H1; reflexivity|].
  destruct (s_state (h_s st) =? AWAIT_CONFIRMATION); [apply H1; reflexivity|].
  destruct (s_state (h_s st) =? SEGMENTED_CONFIRMATION); [apply H1; reflexivity|].
  specialize (H2 eq_refl). fold (terminal (h_s st)). destruct (terminal (h_s st)); exact H2.
Qed.

Lemma c_process_task_post : forall st, pre st -> c_state_ok (h_s st) = true -> post st (c_process_task st).
Proof.
  intros st Hpre Hok. apply c_process_task_cases; [intros _ | congruence].
  auto using c_segmented_request_timeout_post, c_await_confirmation_timeout_post, c_segmented_confirmation_timeout_post.
Qed.

Lemma c_process_task_other : forall st, terminal (h_s st) = false -> c_state_ok (h_s st) = false ->
  c_process_task st = (st, Some RuntimeErr).
Proof. intros st Ht Hok. apply c_process_task_cases; [congruence | rewrite Ht; reflexivity]. Qed.

Inductive cevent := Rx (a : apdu) | Timeout.

(* what the SMAP (for a frame that matches) and the TaskManager (for the timer: popped first) do *)
Definition c_handle (ev : cevent) (s : ssm) (ctr now : Z) : hst * option err :=
  match ev with
  | Rx a => c_confirmation a (mkH s [] ctr now true)
  | Timeout => c_process_task (mkH (set_timer_f None s) [] ctr now true)
  end.

(* oldest first (h_outs is newest first); no further event once the transaction has left the table *)
Fixpoint c_run (evs : list (Z * cevent)) (s : ssm) (ctr : Z) : list out :=
  match evs with
  | [] => []
  | (now, ev) :: r =>
    let st' := fst (c_handle ev s ctr now) in
    rev (h_outs st') ++ (if h_live st' then c_run r (h_s st') (h_ctr st') else [])
  end.

Lemma ntoapp_app : forall a b, ntoapp (a ++ b) = ntoapp a + ntoapp b.
Proof. intros. unfold ntoapp, zlen. rewrite filter_app, app_length. lia. Qed.

Lemma ntoapp_rev : forall a, ntoapp (rev a) = ntoapp a.
Proof.
  induction a as [|o r IH]; [reflexivity|]. cbn [rev]. rewrite ntoapp_app, IH.
  unfold ntoapp, zlen. cbn [filter]. destruct (is_toapp o); cbn [length filter app]; lia.
Qed.

Lemma ntoapp_nonneg : forall a, 0 <= ntoapp a.
Proof. intros. unfold ntoapp, zlen. lia. Qed.

Definition c_ready (s : ssm) : Prop := terminal s = false /\ 0 < s_apdu_to s /\ 0 < s_seg_to s.

Lemma set_timer_ready : forall s, c_ready s -> c_ready (set_timer_f None s).
Proof. intros s H. exact H. Qed.

Lemma c_ready_pre : forall s ctr now, c_ready s -> pre (fresh_h s ctr now).
Proof. intros s ctr now (Ht & Ha & Hs). repeat split; assumption. Qed.

Definition step_ok (st' : hst) : Prop :=
  ntoapp (h_outs st') <= 1 /\
  (ntoapp (h_outs st') = 1 <-> h_live st' = false) /\
  (h_live st' = true -> c_ready (h_s st')) /\
  (h_live st' = false -> s_timer (h_s st') = None /\ terminal (h_s st') = true /\
                         match h_outs st' with ToApp _ :: _ => True | _ => False end).

Lemma post_step : forall st r, pre st -> post st r -> step_ok (fst r).
Proof.
  intros st r (_ & _ & _ & Ha & Hs) (_ & _ & Hcfg & H1 & H2 & H3 & H4 & _ & _ & H7).
  destruct Hcfg as (_ & _ & Hc1 & Hc2 & _).
  assert (Hterm : h_live (fst r) = true -> terminal (h_s (fst r)) = false).
  { intros Hl. destruct (terminal (h_s (fst r))) eqn:E; [|reflexivity]. rewrite (proj2 H3 eq_refl) in Hl. discriminate Hl. }
  repeat split; auto; try tauto; lia.
Qed.

Lemma c_handle_step : forall ev s ctr now, c_ready s -> step_ok (fst (c_handle ev s ctr now)).
Proof.
  intros ev s ctr now Hr. destruct ev as [a|]; unfold c_handle.
  - pose proof (c_ready_pre s ctr now Hr) as Hpre. exact (post_step _ _ Hpre (c_confirmation_post a _ Hpre)).
  - pose proof (c_ready_pre (set_timer_f None s) ctr now Hr) as Hpre.
    destruct (c_state_ok (set_timer_f None s)) eqn:Eok.
    + exact (post_step _ _ Hpre (c_process_task_post _ Hpre Eok)).
    + (* no time-out handler for this state: RuntimeError, nothing emitted, still listed *)
      rewrite c_process_task_other; [| exact (proj1 Hr) | exact Eok].
      repeat split; try discriminate; try (intros; discriminate); apply Hr.
Qed.

Lemma at_most_one_step : forall (st' : hst) (rest : list out),
  ntoapp (h_outs st') <= 1 -> (ntoapp (h_outs st') = 1 <-> h_live st' = false) -> (h_live st' = true -> ntoapp rest <= 1) ->
  ntoapp (rev (h_outs st') ++ (if h_live st' then rest else [])) <= 1.
Proof.
  intros st' rest H1 H2 H3. rewrite ntoapp_app, ntoapp_rev. pose proof (ntoapp_nonneg (h_outs st')).
  destruct (h_live st') eqn:El.
  - assert (ntoapp (h_outs st') <> 1) by (intro X; apply H2 in X; congruence). specialize (H3 eq_refl). lia.
  - unfold ntoapp at 2. unfold zlen. cbn. lia.
Qed.

Lemma c_run_at_most_one : forall evs s ctr, c_ready s -> ntoapp (c_run evs s ctr) <= 1.
Proof.
  induction evs as [|[now ev] r IH]; intros s ctr Hr; cbn [c_run].
  - unfold ntoapp, zlen; cbn; lia.
  - destruct (c_handle_step ev s ctr now Hr) as (H1 & H2 & H3 & _).
    apply at_most_one_step; [exact H1 | exact H2 | intros Hl; apply IH; exact (H3 Hl)].
Qed.

Lemma c_run_outcome_last : forall evs s ctr, c_ready s -> ntoapp (c_run evs s ctr) = 1 ->
  exists pre_outs a, c_run evs s ctr = pre_outs ++ [ToApp a] /\ ntoapp pre_outs = 0.
Proof.
  induction evs as [|[now ev] r IH]; intros s ctr Hr Hn; cbn [c_run] in *.
  - unfold ntoapp, zlen in Hn; cbn in Hn; lia.
  - destruct (c_handle_step ev s ctr now Hr) as (H1 & H2 & H3 & H4).
    rewrite ntoapp_app, ntoapp_rev in Hn.
    destruct (h_live (fst (c_handle ev s ctr now))) eqn:El.
    + assert (ntoapp (h_outs (fst (c_handle ev s ctr now))) <> 1) by (intro X; apply H2 in X; congruence).
      pose proof (ntoapp_nonneg (h_outs (fst (c_handle ev s ctr now)))).
      pose proof (c_run_at_most_one r _ (h_ctr (fst (c_handle ev s ctr now))) (H3 eq_refl)).
      destruct (IH _ (h_ctr (fst (c_handle ev s ctr now))) (H3 eq_refl)) as (p & a & Hp & Hp0); [lia|].
      exists (rev (h_outs (fst (c_handle ev s ctr now))) ++ p), a. rewrite Hp, app_assoc. split; [reflexivity|].
      rewrite ntoapp_app, ntoapp_rev. lia.
    + destruct (H4 eq_refl) as (_ & _ & Hlast).
      destruct (h_outs (fst (c_handle ev s ctr now))) as [|[x|x] rest] eqn:Eo; try contradiction.
      exists (rev rest), x. cbn [rev]. rewrite app_nil_r. split; [reflexivity|].
      assert (ntoapp (ToApp x :: rest) = 1) by (apply H2; reflexivity).
      rewrite ntoapp_rev. unfold ntoapp, zlen in *. cbn [filter is_toapp length] in *. lia.
Qed.

(* the whole life of a request: ClientSSM.indication on a fresh transaction, then any events *)
Definition c_life (a : apdu) (s0 : ssm) (ctr now : Z) (evs : list (Z * cevent)) : list out :=
  let st := fst (c_indication a (mkH s0 [] ctr now true)) in
  rev (h_outs st) ++ (if h_live st then c_run evs (h_s st) (h_ctr st) else []).

Lemma c_live_iff_armed : forall ev s ctr now, c_ready s ->
  (match ev with Timeout => c_state_ok s = true | Rx _ => True end) ->
  snd (c_handle ev s ctr now) = None ->
  (h_live (fst (c_handle ev s ctr now)) = true <-> s_timer (h_s (fst (c_handle ev s ctr now))) <> None).
Proof.
  intros ev s ctr now Hr Hok He.
  assert (Hp : post (fresh_h (match ev with Rx _ => s | Timeout => set_timer_f None s end) ctr now) (c_handle ev s ctr now)).
  { destruct ev; unfold c_handle.
    - apply c_confirmation_post, c_ready_pre, Hr.
    - apply c_process_task_post; [apply c_ready_pre, Hr | exact Hok]. }
  destruct Hp as (_ & _ & _ & _ & _ & _ & H4 & H5 & _).
  split.
  - intros Hl. apply H5; assumption.
  - intros Hn. destruct (h_live (fst (c_handle ev s ctr now))) eqn:El; [reflexivity|]. exfalso. apply Hn. apply H4. reflexivity.
Qed.

(* a server transaction in the middle of a segmented response *)
Definition busy_server : ssm :=
  mkSsm 1 5 SEGMENTED_RESPONSE (Some (mk_cack false false (-1) (-1) 5 12 [1; 2; 3; 4; 5; 6; 7; 8; 9; 10; 11; 12])) 5 3 0 0 false 0 0 None
        3 3000 1500 3 (Some 64) 50 true (Some (1500, 0)) None 2 3000.
(* a server transaction as StateMachineAccessPoint.confirmation creates it *)
Definition fresh_server : ssm := mkSsm 1 (-1) IDLE None 0 0 0 0 false 0 0 None 3 3000 1500 3 (Some 64) 50 false None None 2 3000.
Definition fresh_client : ssm := mkSsm 2 (-1) IDLE None 0 0 0 0 false 0 0 None 3 3000 1500 3 (Some 64) 50 false None None 2 3000.
