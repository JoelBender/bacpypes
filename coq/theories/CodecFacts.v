(* CodecFacts.v — lemmas about Codec.v: well-typed values (has_ty); how an encoding starts (encode_shape: with
   a tag of FIRST, and it is empty only for a nullable type), for every schema; from that, the round trip of
   the generic constructed-data codec for the [supported] fragment, by a second induction over the schema. *)
From Bac Require Import Base ResFacts BytesFacts Tag TagFacts Schema Codec Prim PrimCtxFacts.
Open Scope N_scope.

Definition leaf_ok (k : N) (x : tag) : Prop :=
  cls x = 0 /\ num x = k /\ atom_check k x = Ok tt /\
  (if k =? 1 then data x = [] /\ lvt x < 256 else lvt x = lenN (data x)).

Fixpoint has_ty (t : ty) (v : val) {struct t} : Prop :=
  match t with
  | TAtom k => match v with VAtom x => leaf_ok k x | _ => False end
  | TAnyAtomic => match v with VAtom x => num x <= 12 /\ leaf_ok (num x) x | _ => False end
  | TAny | TSeqOfAny => match v with VTags ts => balanced ts | _ => False end
  | TSeq els =>
      match v with
      | VSeq fs =>
          (fix go (l : list elem) (fs : list (option val)) {struct l} : Prop :=
             match l, fs with
             | [], [] => True
             | e :: l', f :: fs' => has_el e f /\ go l' fs'
             | _, _ => False
             end) els fs
      | _ => False
      end
  | TChoice els =>
      match v with
      | VChoice i w =>
          (fix go (l : list elem) (i : nat) {struct l} : Prop :=
             match l, i with
             | [], _ => False
             | e :: _, O => sup_alt e = true /\ has_el e (Some w)
             | e :: r, S j => sup_alt e = true /\ go r j
             end) els i
      | _ => False
      end
  | TSeqOf s => match v with VList vs => Forall (has_ty s) vs | _ => False end
  | TArrayOf s f =>
      match v with
      | VList vs => Forall (has_ty s) vs /\ match f with Some n => lenN vs = n | None => True end
      | _ => False
      end
  | TNameValue =>            (* name, then nothing / one atomic value / a DateTime *)
      match v with
      | VSeq [Some (VAtom n); o] =>
          leaf_ok 7 n /\
          match o with
          | None => True
          | Some (VAtom x) => num x <= 12 /\ leaf_ok (num x) x
          | Some (VSeq [Some (VAtom d); Some (VAtom t)]) => leaf_ok 10 d /\ leaf_ok 11 t
          | _ => False
          end
      | _ => False
      end
  end
with has_el (e : elem) (f : option val) {struct e} : Prop :=
  match e with
  | El t _ o => match f with None => o = true | Some v => has_ty t v end
  end.

Fixpoint has_fields (l : list elem) (fs : list (option val)) {struct l} : Prop :=
  match l, fs with
  | [], [] => True
  | e :: l', f :: fs' => has_el e f /\ has_fields l' fs'
  | _, _ => False
  end.
Fixpoint has_alt (l : list elem) (i : nat) (w : val) {struct l} : Prop :=
  match l, i with
  | [], _ => False
  | e :: _, O => sup_alt e = true /\ has_el e (Some w)
  | e :: r, S j => sup_alt e = true /\ has_alt r j w
  end.

Lemma has_ty_seq els fs : has_ty (TSeq els) (VSeq fs) = has_fields els fs.
Proof. reflexivity. Qed.
Lemma has_ty_choice els i w : has_ty (TChoice els) (VChoice i w) = has_alt els i w.
Proof.
  cbn [has_ty]. revert i. induction els as [|e r IH]; intros i; [reflexivity|].
  destruct i as [|j]; [reflexivity|]. cbn [has_alt]. rewrite <- IH. reflexivity.
Qed.

(* ty is nested through list elem, so the generated principle says nothing of the elements: Q is for them *)
Definition ty_ind2 (P : ty -> Prop) (Q : elem -> Prop)
  (Hatom : forall k, P (TAtom k)) (Haa : P TAnyAtomic) (Hany : P TAny) (Hsoa : P TSeqOfAny)
  (Hseq : forall els, Forall Q els -> P (TSeq els))
  (Hch : forall els, Forall Q els -> P (TChoice els))
  (Hof : forall s, P s -> P (TSeqOf s))
  (Harr : forall s f, P s -> P (TArrayOf s f))
  (Hnv : P TNameValue)
  (Hel : forall t c o, P t -> Q (El t c o)) : forall t, P t :=
  fix F (t : ty) : P t :=
    match t with
    | TAtom k => Hatom k
    | TAnyAtomic => Haa
    | TAny => Hany
    | TSeqOfAny => Hsoa
    | TSeq els =>
        Hseq els ((fix G (l : list elem) : Forall Q l :=
                     match l with
                     | [] => Forall_nil Q
                     | e :: r => Forall_cons e (match e with El t c o => Hel t c o (F t) end) (G r)
                     end) els)
    | TChoice els =>
        Hch els ((fix G (l : list elem) : Forall Q l :=
                    match l with
                    | [] => Forall_nil Q
                    | e :: r => Forall_cons e (match e with El t c o => Hel t c o (F t) end) (G r)
                    end) els)
    | TSeqOf s => Hof s (F s)
    | TArrayOf s f => Harr s f (F s)
    | TNameValue => Hnv
    end.

(* the fixpoints nested in wf_ty / first / avoid at TSeq, standing alone (first_els, avoid_els: Schema.v) *)
Fixpoint wf_els (l : list elem) : bool :=
  match l with
  | [] => true
  | e :: r => wf_el e && pdisj_all (avoid_el e) (first_els r) && wf_els r
  end.
Lemma wf_ty_seq els : wf_ty (TSeq els) = wf_els els.
Proof. reflexivity. Qed.
Lemma first_seq els : first (TSeq els) = first_els els.
Proof. reflexivity. Qed.
Lemma avoid_seq els : avoid (TSeq els) = avoid_els els.
Proof. reflexivity. Qed.

Ltac split_andb :=
  repeat match goal with
         | H : (_ && _) = true |- _ => apply andb_true_iff in H; destruct H
         end.

Lemma wf_els_cons e r : wf_els (e :: r) = true ->
  wf_el e = true /\ pdisj_all (avoid_el e) (first_els r) = true /\ wf_els r = true.
Proof. cbn [wf_els]. rewrite !andb_true_iff. tauto. Qed.

Lemma wf_els_all els : wf_els els = true -> forallb wf_el els = true.
Proof.
  induction els as [|e r IH]; [reflexivity|]. intros H. apply wf_els_cons in H as (He & _ & Hr).
  cbn [forallb]. rewrite He, (IH Hr). reflexivity.
Qed.

Definition rest_ok (ps : list pat) (rest : list tag) : Prop :=
  match rest with [] => True | x :: _ => cls x = 3 \/ pmatch_any ps x = false end.

Lemma pmatch_any_app ps qs x : pmatch_any (ps ++ qs) x = pmatch_any ps x || pmatch_any qs x.
Proof. apply existsb_app. Qed.

Lemma rest_ok_app ps qs rest : rest_ok (ps ++ qs) rest <-> rest_ok ps rest /\ rest_ok qs rest.
Proof.
  destruct rest as [|x r]; cbn [rest_ok]; [tauto|]. rewrite pmatch_any_app, orb_false_iff. tauto.
Qed.
Lemma rest_ok_nil rest : rest_ok [] rest.
Proof. destruct rest; cbn; auto. Qed.
Lemma rest_ok_closing ps x r : cls x = 3 -> rest_ok ps (x :: r).
Proof. cbn; auto. Qed.
Lemma rest_ok_head ps x r : rest_ok ps (x :: r) -> (cls x =? 3) = false -> pmatch_any ps x = false.
Proof. intros [H|H] E; [apply N.eqb_neq in E; contradiction|exact H]. Qed.

Lemma rest_ok_any rest : rest_ok [PAny] rest ->
  rest = [] \/ exists c r, rest = c :: r /\ cls c = 3.
Proof.
  destruct rest as [|c r]; [auto|]. cbn [rest_ok pmatch_any existsb pmatch]. rewrite orb_false_r.
  intros [H|H]; right; exists c, r; split; auto; lia.
Qed.
Lemma rest_ok_any_all ps rest : rest_ok [PAny] rest -> rest_ok ps rest.
Proof. intros H. apply rest_ok_any in H as [->|(c & r & -> & Hc)]; [exact I|exact (rest_ok_closing ps c r Hc)]. Qed.

Lemma pdisj_sound p q x : pdisj p q = true -> pmatch p x = true -> pmatch q x = false.
Proof. destruct p, q; cbn [pdisj pmatch]; intros; try discriminate; lia. Qed.

Lemma pdisj_all_sound ps qs x :
  pdisj_all ps qs = true -> pmatch_any qs x = true -> pmatch_any ps x = false.
Proof.
  unfold pdisj_all, pmatch_any. intros H Hq.
  apply existsb_exists in Hq as [q [Hq1 Hq2]].
  destruct (existsb (fun p => pmatch p x) ps) eqn:E; [|reflexivity].
  apply existsb_exists in E as [p [Hp1 Hp2]].
  rewrite forallb_forall in H. specialize (H p Hp1). rewrite forallb_forall in H.
  specialize (H q Hq1). rewrite (pdisj_sound p q x H Hp2) in Hq2. discriminate.
Qed.

Lemma pmatch_any_not_closing ps x : pmatch_any ps x = true -> (cls x =? 3) = false.
Proof.
  unfold pmatch_any. intros H. apply existsb_exists in H as [p [_ Hp]].
  destruct p; cbn [pmatch] in Hp; lia.
Qed.

Definition shape (nul : bool) (ps : list pat) (ts : list tag) : Prop :=
  match ts with [] => nul = true | x :: _ => pmatch_any ps x = true end.

Lemma shape_weaken (n1 n2 : bool) ps ts : (n1 = true -> n2 = true) -> shape n1 ps ts -> shape n2 ps ts.
Proof. destruct ts; cbn [shape]; auto. Qed.

Lemma shape_app n1 n2 p1 p2 a b :
  shape n1 p1 a -> shape n2 p2 b -> shape (n1 && n2) (p1 ++ if n1 then p2 else []) (a ++ b).
Proof.
  destruct a as [|x a]; cbn [shape app].
  - intros -> Hb. destruct b; cbn [shape andb] in *; [exact Hb|]. rewrite pmatch_any_app, Hb. apply orb_true_r.
  - intros Ha _. rewrite pmatch_any_app, Ha. reflexivity.
Qed.

Lemma rest_ok_step ps nul qs b rest :
  pdisj_all ps qs = true -> shape nul qs b -> (nul = true -> rest_ok ps rest) -> rest_ok ps (b ++ rest).
Proof.
  intros Hd Hb He. destruct b as [|x b']; cbn [app shape] in *; [auto|].
  right. eapply pdisj_all_sound; eauto.
Qed.

Lemma tag_eta x : mkTag (cls x) (num x) (lvt x) (data x) = x.
Proof. destruct x; reflexivity. Qed.

(* Codec.v states Tag.app_to_context / context_to_app once more; they are Prim.v's *)
Lemma app_to_context_eq c t : app_to_context c t = app_to_ctx c t.
Proof.
  unfold app_to_context, app_to_ctx, put. destruct (negb _); [reflexivity|].
  destruct (num t =? 1); [|reflexivity]. destruct (lvt t <? 256); reflexivity.
Qed.

Lemma leaf_app_shape k x : leaf_ok k x -> app_shape k x.
Proof. intros (Hc & Hn & _ & Hk). exact (conj Hc (conj Hn Hk)). Qed.

Lemma leaf_ctx_roundtrip k c x : leaf_ok k x ->
  exists x', app_to_context c x = Ok x' /\ cls x' = 1 /\ num x' = c /\ context_to_app k x' = Ok x.
Proof.
  intros H. destruct (ctx_roundtrip c k x (leaf_app_shape k x H)) as (d & A & R & _).
  rewrite app_to_context_eq. eexists. split; [exact A|]. repeat split. exact R.
Qed.

Lemma leaf_check k x : leaf_ok k x -> atom_check k x = Ok tt.
Proof. intros (_ & _ & H & _). exact H. Qed.

Lemma enc_leaf_inv k c x ts : leaf_ok k x -> enc_leaf c x = Ok ts ->
  exists y, ts = [y] /\
    match c with
    | None => y = x
    | Some c => cls y = 1 /\ num y = c /\ context_to_app k y = Ok x
    end.
Proof.
  intros Hl He. destruct c as [c|]; cbn [enc_leaf] in He.
  - destruct (leaf_ctx_roundtrip k c x Hl) as (y & Ha & H). rewrite Ha in He. injection He as <-. eauto.
  - injection He as <-. eauto.
Qed.

Lemma anyatomic_obj_leaf x : num x <= 12 -> leaf_ok (num x) x -> anyatomic_obj x = Ok (Some (VAtom x)).
Proof.
  intros H12 (Hc & _ & Hchk & _). unfold anyatomic_obj. rewrite Hc. cbn [N.eqb negb].
  destruct (16 <=? num x) eqn:E1; [lia|]. destruct (13 <=? num x) eqn:E2; [lia|]. rewrite Hchk. reflexivity.
Qed.

Lemma enc_wrapped_inv t c v ts :
  enc_wrapped encode t c v = Ok ts -> exists b, encode t v = Ok b /\ ts = wrap c b.
Proof. unfold enc_wrapped. intros H. apply bind_ok_inv in H as (b & Hb & H). injection H as <-. eauto. Qed.

Lemma enc_els_cons e r f fs ts :
  enc_els encode (e :: r) (f :: fs) = Ok ts ->
  exists a b, enc_el encode e f = Ok a /\ enc_els encode r fs = Ok b /\ ts = a ++ b.
Proof.
  cbn [enc_els]. intros H. apply bind_ok_inv in H as [a [Ha H]]. apply bind_ok_inv in H as [b [Hb H]].
  injection H as <-. eauto.
Qed.

Lemma enc_list_cons s v vs ts :
  enc_list (encode s) (v :: vs) = Ok ts ->
  exists a b, encode s v = Ok a /\ enc_list (encode s) vs = Ok b /\ ts = a ++ b.
Proof.
  cbn [enc_list]. intros H. apply bind_ok_inv in H as [a [Ha H]]. apply bind_ok_inv in H as [b [Hb H]].
  injection H as <-. eauto.
Qed.

(* Sequence.encode and Choice.encode know two kinds of element: a leaf, and everything else *)
Lemma enc_el_some t c o v : has_ty t v ->
  enc_el encode (El t c o) (Some v) = if is_atomic t then enc_atomv c v else enc_wrapped encode t c v.
Proof. intros Hv. destruct t; try reflexivity. destruct v; try contradiction. reflexivity. Qed.

Lemma enc_alt_el e w : has_el e (Some w) -> enc_alt encode e w = enc_el encode e (Some w).
Proof. destruct e as [t c o]. intros Hw. rewrite (enc_el_some t c o w Hw). destruct t; reflexivity. Qed.

Lemma atomic_inv t v : is_atomic t = true -> has_ty t v ->
  exists k x, v = VAtom x /\ leaf_ok k x /\ (t = TAtom k \/ t = TAnyAtomic).
Proof. destruct t; try discriminate; intros _ Hv; destruct v; try contradiction; [|destruct Hv]; eauto 6. Qed.

Lemma dec_el_struct_eq t c o dec x rest : is_atomic t = false -> is_list t = false ->
  (cls x =? 3) = false -> dec_el dec (El t c o) (x :: rest) = dec_el_struct dec t c o x rest.
Proof. intros Ha Hl E. cbn [dec_el]. rewrite E. destruct t; try discriminate; reflexivity. Qed.

Lemma dec_alts_struct t c o dec more i x rest : is_atomic t = false ->
  dec_alts dec (El t c o :: more) i x rest = dec_alt_struct dec t c i x rest (dec_alts dec more (S i) x rest).
Proof. destruct t; try discriminate; reflexivity. Qed.

(* the forms of has_ty TNameValue, with the tags that follow the name *)
Inductive nv_form (n : tag) : val -> list tag -> Prop :=
| nv_name : nv_form n (VSeq [Some (VAtom n); None]) []
| nv_atom x : num x <= 12 -> leaf_ok (num x) x -> nv_form n (VSeq [Some (VAtom n); Some (VAtom x)]) [x]
| nv_datetime d t : leaf_ok 10 d -> leaf_ok 11 t ->
    nv_form n (VSeq [Some (VAtom n); Some (VSeq [Some (VAtom d); Some (VAtom t)])]) [d; t].

Lemma has_ty_namevalue v : has_ty TNameValue v -> exists n tail, leaf_ok 7 n /\ nv_form n v tail.
Proof.
  cbn [has_ty].
  destruct v as [| |fs| |]; try contradiction.
  destruct fs as [|[[n| | | |]|] [|o [|]]]; try contradiction.
  intros [Hn Ho]. exists n.
  destruct o as [[x| |gs| |]|]; try contradiction.
  - destruct Ho. eexists. split; [exact Hn|]. constructor; assumption.
  - destruct gs as [|[[d| | | |]|] [|[[t| | | |]|] [|]]]; try contradiction.
    destruct Ho. eexists. split; [exact Hn|]. constructor; assumption.
  - eexists. split; [exact Hn|]. constructor.
Qed.

Lemma namevalue_enc n n' v tail : nv_form n v tail -> app_to_context 0 n = Ok n' ->
  encode TNameValue v = Ok (n' :: tail).
Proof. intros Hf Ha. destruct Hf; cbn [encode enc_namevalue]; rewrite Ha; reflexivity. Qed.

Lemma enc_inv t v ts : has_ty t v -> encode t v = Ok ts ->
  match t with
  | TAtom k => exists x, v = VAtom x /\ ts = [x] /\ leaf_ok k x
  | TAnyAtomic => exists x, v = VAtom x /\ ts = [x] /\ num x <= 12 /\ leaf_ok (num x) x
  | TAny | TSeqOfAny => v = VTags ts /\ balanced ts
  | TSeq els => exists fs, v = VSeq fs /\ has_fields els fs /\ enc_els encode els fs = Ok ts
  | TChoice els => exists i w, v = VChoice i w /\ has_alt els i w /\ enc_nth encode els i w = Ok ts
  | TSeqOf s => exists vs, v = VList vs /\ Forall (has_ty s) vs /\ enc_list (encode s) vs = Ok ts
  | TArrayOf s f => exists vs, v = VList vs /\ Forall (has_ty s) vs /\ enc_list (encode s) vs = Ok ts /\
                      match f with Some n => lenN vs = n | None => True end
  | TNameValue => exists n n' tail, leaf_ok 7 n /\ nv_form n v tail /\ app_to_context 0 n = Ok n' /\ ts = n' :: tail
  end.
Proof.
  intros Hv He. destruct t as [k| | | |els|els|s|s f|].
  9: { destruct (has_ty_namevalue v Hv) as (n & tail & Hn & Hf).
       destruct (leaf_ctx_roundtrip 7 0 n Hn) as (n' & Ha & _).
       rewrite (namevalue_enc n n' v tail Hf Ha) in He. injection He as <-. eauto 8. }
  all: destruct v as [x|g|fs|i w|vs]; try contradiction; cbn [encode] in He.
  - injection He as <-. eauto.
  - injection He as <-. destruct Hv. eauto 6.
  - injection He as <-. auto.
  - injection He as <-. auto.
  - rewrite has_ty_seq in Hv. eauto.
  - rewrite has_ty_choice in Hv. eauto.
  - eauto.
  - destruct Hv as [Hv Hl]. destruct f as [n|]; [destruct (lenN vs =? n); [|discriminate]|]; eauto 6.
Qed.

Definition SH (t : ty) : Prop := forall v ts,
  has_ty t v -> encode t v = Ok ts -> shape (nullable t) (first t) ts.
(* an element that is present; only an un-contexted one can encode to nothing *)
Definition SHe (e : elem) : Prop := forall v ts,
  has_el e (Some v) -> enc_el encode e (Some v) = Ok ts ->
  match e with El t c _ => shape (nullable_el (El t c false)) (first_el e) ts end.

Lemma pmatch_open c : pmatch (POpen c) (open_tag c) = true.
Proof. cbn [pmatch open_tag cls num]. rewrite !N.eqb_refl. reflexivity. Qed.

Lemma el_sh t c o : SH t -> SHe (El t c o).
Proof.
  intros Ht v ts Hv He. cbn [has_el] in Hv. rewrite (enc_el_some t c o v Hv) in He.
  destruct (is_atomic t) eqn:Hat.
  - destruct (atomic_inv t v Hat Hv) as (k & x & -> & Hx & Ht'). cbn [enc_atomv] in He.
    destruct (enc_leaf_inv k c x ts Hx He) as (y & -> & Hy).
    cbn [shape first_el]. rewrite Hat. destruct c as [c|].
    + destruct Hy as (H1 & H2 & _). cbn [pmatch_any existsb pmatch]. rewrite H1, H2, !N.eqb_refl. reflexivity.
    + subst y. destruct Hx as (H1 & H2 & _).
      destruct Ht' as [-> | ->]; cbn [first pmatch_any existsb pmatch]; rewrite H1, ?H2, ?N.eqb_refl; reflexivity.
  - apply enc_wrapped_inv in He as (b & Hb & ->). destruct c as [c|]; cbn [wrap shape first_el nullable_el orb].
    + rewrite Hat. cbn [pmatch_any existsb]. rewrite pmatch_open. reflexivity.
    + exact (Ht v b Hv Hb).
Qed.

Lemma els_sh els : Forall SHe els -> forall fs ts, has_fields els fs -> enc_els encode els fs = Ok ts ->
  shape (forallb nullable_el els) (first_els els) ts.
Proof.
  induction 1 as [|e r He _ IH]; intros fs ts Hf Henc.
  - cbn in Henc. injection Henc as <-. reflexivity.
  - destruct fs as [|f fs]; [contradiction|]. destruct Hf as [Hf1 Hf2].
    apply enc_els_cons in Henc as (a & b & Ha & Hb & ->).
    cbn [forallb first_els]. apply shape_app; [|exact (IH fs b Hf2 Hb)].
    destruct e as [t c o]. destruct f as [v|].
    + eapply shape_weaken; [|exact (He v a Hf1 Ha)]. destruct c, o; auto.
    + cbn [has_el] in Hf1. subst o. cbn [enc_el] in Ha. injection Ha as <-. destruct c; reflexivity.
Qed.

Lemma sup_alt_nn t c o : sup_alt (El t c o) = true -> nullable_el (El t c false) = false.
Proof.
  cbn [sup_alt]. intros H. apply andb_true_iff in H as [_ H]. destruct t, c; try discriminate; reflexivity.
Qed.

Lemma alts_sh els : Forall SHe els -> forall i w ts, has_alt els i w -> enc_nth encode els i w = Ok ts ->
  shape false (flat_map first_el els) ts.
Proof.
  induction 1 as [|e r He _ IH]; intros i w ts Hv Henc; [destruct i; contradiction|].
  cbn [flat_map]. destruct i as [|j]; cbn [has_alt enc_nth] in *; destruct Hv as [Hsa Hv].
  - rewrite (enc_alt_el e w Hv) in Henc. specialize (He w ts Hv Henc). destruct e as [t c o].
    rewrite (sup_alt_nn t c o Hsa) in He. destruct ts; [discriminate He|].
    cbn [shape] in *. rewrite pmatch_any_app, He. reflexivity.
  - specialize (IH j w ts Hv Henc). destruct ts; [discriminate IH|].
    cbn [shape] in *. rewrite pmatch_any_app, IH. apply orb_true_r.
Qed.

Lemma list_sh s : SH s -> forall vs ts, Forall (has_ty s) vs -> enc_list (encode s) vs = Ok ts ->
  shape true (first s) ts.
Proof.
  intros Hs. induction vs as [|v vs IH]; intros ts Hall He.
  - cbn in He. injection He as <-. reflexivity.
  - inversion Hall as [|? ? Hv Hvs]; subst. apply enc_list_cons in He as (a & b & Ha & Hb & ->).
    destruct a as [|x a']; [exact (IH b Hvs Hb)|]. exact (Hs v (x :: a') Hv Ha).
Qed.

Theorem encode_shape : forall t, SH t.
Proof.
  assert (Hany : forall ts, balanced ts -> shape true [PAny] ts).
  { intros [|x g] Hb; [reflexivity|]. apply balanced_head in Hb.
    cbn [shape pmatch_any existsb pmatch]. destruct (cls x =? 3) eqn:E; [lia|reflexivity]. }
  apply (ty_ind2 SH SHe).
  - intros k v ts Hv He. destruct (enc_inv _ _ _ Hv He) as (x & _ & -> & Hc & Hn & _).
    cbn [shape first pmatch_any existsb pmatch]. rewrite Hc, Hn, !N.eqb_refl. reflexivity.
  - intros v ts Hv He. destruct (enc_inv _ _ _ Hv He) as (x & _ & -> & _ & Hc & _).
    cbn [shape first pmatch_any existsb pmatch]. rewrite Hc. reflexivity.
  - intros v ts Hv He. exact (Hany ts (proj2 (enc_inv _ _ _ Hv He))).
  - intros v ts Hv He. exact (Hany ts (proj2 (enc_inv _ _ _ Hv He))).
  - intros els Hall v ts Hv He. destruct (enc_inv _ _ _ Hv He) as (fs & _ & Hf & Henc).
    exact (els_sh els Hall fs ts Hf Henc).
  - intros els Hall v ts Hv He. destruct (enc_inv _ _ _ Hv He) as (i & w & _ & Ha & Henc).
    exact (alts_sh els Hall i w ts Ha Henc).
  - intros s Hs v ts Hv He. destruct (enc_inv _ _ _ Hv He) as (vs & _ & Hvs & Henc).
    exact (list_sh s Hs vs ts Hvs Henc).
  - intros s f Hs v ts Hv He. destruct (enc_inv _ _ _ Hv He) as (vs & _ & Hvs & Henc & _).
    exact (list_sh s Hs vs ts Hvs Henc).
  - intros v ts Hv He. destruct (enc_inv _ _ _ Hv He) as (n & n' & tail & Hn & _ & Ha & ->).
    destruct (enc_leaf_inv 7 (Some 0) n [n'] Hn) as (y & Hy & H1 & H2 & _).
    { cbn [enc_leaf]. rewrite Ha. reflexivity. }
    injection Hy as <-. cbn [shape first pmatch_any existsb pmatch]. rewrite H1, H2. reflexivity.
  - exact el_sh.
Qed.

Corollary enc_head t v ts : has_ty t v -> encode t v = Ok ts -> nullable t = false ->
  exists x ts', ts = x :: ts' /\ pmatch_any (first t) x = true.
Proof.
  intros Hv He Hn. pose proof (encode_shape t v ts Hv He) as H. rewrite Hn in H.
  destruct ts as [|x ts']; [discriminate H|eauto].
Qed.

Corollary alt_first els i w x ts : has_alt els i w -> enc_nth encode els i w = Ok (x :: ts) ->
  pmatch_any (flat_map first_el els) x = true.
Proof. rewrite <- has_ty_choice. exact (encode_shape (TChoice els) (VChoice i w) (x :: ts)). Qed.

Definition RT (t : ty) : Prop := forall v ts rest,
  has_ty t v -> encode t v = Ok ts -> rest_ok (avoid t) rest -> decode t (ts ++ rest) = Ok (v, rest).
Definition good (t : ty) : Prop := supported t = true -> wf_ty t = true -> RT t.

Definition RTe (e : elem) : Prop := forall f ts rest,
  has_el e f -> enc_el encode e f = Ok ts -> rest_ok (avoid_el e) rest ->
  dec_el decode e (ts ++ rest) = Ok (f, rest).
Definition ALT (e : elem) : Prop := forall w x ts,
  has_el e (Some w) -> enc_alt encode e w = Ok (x :: ts) ->
  forall more i rest, dec_alts decode (e :: more) i x (ts ++ rest) = Ok (VChoice i w, rest).
(* one element list serves TSeq (fields: RTe) and TChoice (alternatives: ALT), and ty_ind2 has one Q *)
Definition goode (e : elem) : Prop :=
  wf_el e = true -> (sup_seq_el e = true -> RTe e) /\ (sup_alt e = true -> ALT e).

Lemma open_hit c : (cls (open_tag c) =? 2) && (num (open_tag c) =? c) = true.
Proof. cbn [cls num open_tag]. rewrite !N.eqb_refl. reflexivity. Qed.

(* after the opening tag (k, ee: structure, list or alternative) the body is decoded up to its closing tag,
   whatever follows *)
Lemma close_after {A} t c v b rest (k : val -> A) (ee : err) : RT t -> has_ty t v -> encode t v = Ok b ->
  (do (v', ts1) <- decode t ((b ++ [close_tag c]) ++ rest);
   match ts1 with [] => Err ee | y :: ts2 => if is_closing c y then Ok (k v', ts2) else Err InvalidTag end)
  = Ok (k v, rest).
Proof.
  intros Hrt Hv Hb. rewrite <- app_assoc. cbn [app].
  rewrite (Hrt v b (close_tag c :: rest) Hv Hb (rest_ok_closing (avoid t) (close_tag c) rest eq_refl)). cbn [bind].
  unfold is_closing. cbn [cls num close_tag]. rewrite !N.eqb_refl. reflexivity.
Qed.

Lemma wrapped_el t c o v b rest : is_atomic t = false -> RT t -> has_ty t v -> encode t v = Ok b ->
  dec_el decode (El t (Some c) o) (wrap (Some c) b ++ rest) = Ok (Some v, rest).
Proof.
  intros Hat Hrt Hv Hb. cbn [wrap app dec_el]. change (cls (open_tag c) =? 3) with false. cbv iota.
  destruct t; try discriminate; unfold dec_el_struct, dec_el_list; rewrite open_hit;
    apply (close_after _ c v b rest Some); assumption.
Qed.

(* an absent optional element that is not a list and that Sequence.decode recognises by one tag *)
Lemma el_skip t c rest :
  match c with Some _ => is_list t = false /\ t <> TAnyAtomic | None => is_atomic t = true end ->
  rest_ok (avoid_el (El t c true)) rest -> dec_el decode (El t c true) rest = Ok (None, rest).
Proof.
  intros Hk Hr. destruct rest as [|x r]; [reflexivity|].
  cbn [dec_el]. destruct (cls x =? 3) eqn:E3; [reflexivity|].
  assert (Hm : pmatch_any (first_el (El t c true)) x = false).
  { apply (rest_ok_head _ x r); [|exact E3]. destruct c as [c|]; cbn [avoid_el first_el] in *.
    - destruct Hk as [Hk _]. rewrite Hk in Hr. exact Hr.
    - rewrite Hk in Hr. apply rest_ok_app in Hr as [Hr _]. exact Hr. }
  (* every type left by Hk is recognised by one test on x, and Hm says that it fails *)
  destruct c as [c|]; [destruct Hk as [Hl Hk]|]; destruct t; try discriminate; try (contradiction Hk; reflexivity);
    cbn [first_el is_atomic first pmatch_any existsb pmatch] in Hm; rewrite orb_false_r in Hm;
    unfold dec_el_atom, dec_el_anyatomic, dec_el_struct; rewrite Hm; reflexivity.
Qed.

Lemma atom_el k c o : RTe (El (TAtom k) c o).
Proof.
  intros f ts rest Hf He Hr. destruct f as [v|].
  - cbn [has_el has_ty] in Hf. destruct v as [x| | | |]; try contradiction.
    cbn [enc_el enc_atomv] in He. destruct (enc_leaf_inv k c x ts Hf He) as (y & -> & Hy).
    cbn [app dec_el]. unfold dec_el_atom. destruct c as [c|].
    + destruct Hy as (H1 & H2 & Hback). rewrite H1, H2, !N.eqb_refl, Hback. cbn [N.eqb Pos.eqb andb bind].
      rewrite (leaf_check k x Hf). reflexivity.
    + subst y. destruct Hf as (H1 & H2 & Hchk & _). rewrite H1, H2, !N.eqb_refl, Hchk. reflexivity.
  - cbn [has_el] in Hf. subst o. cbn [enc_el] in He. injection He as <-. apply el_skip; [|exact Hr].
    destruct c; [split; [reflexivity|discriminate]|reflexivity].
Qed.

Lemma anyatomic_el o : RTe (El TAnyAtomic None o).
Proof.
  intros f ts rest Hf He Hr. destruct f as [v|].
  - cbn [has_el has_ty] in Hf. destruct v as [x| | | |]; try contradiction. destruct Hf as [H12 Hl].
    cbn [enc_el enc_atomv enc_leaf] in He. injection He as <-. cbn [app dec_el]. unfold dec_el_anyatomic.
    rewrite (proj1 Hl), (anyatomic_obj_leaf x H12 Hl). reflexivity.
  - cbn [has_el] in Hf. subst o. cbn [enc_el] in He. injection He as <-. apply el_skip; [reflexivity|exact Hr].
Qed.

(* try / roll-back: a Sequence starting with a required context-tagged element refuses a foreign tag
   with InvalidTag *)
Lemma clean_reject_err t x r : clean_reject t = true -> (cls x =? 3) = false ->
  pmatch_any (first t) x = false -> decode t (x :: r) = Err InvalidTag.
Proof.
  destruct t as [| | | |els| | | |]; try discriminate.
  destruct els as [|[t' [c|] [|]] more]; try discriminate.
  intros Hc Hx Hm. rewrite first_seq in Hm. cbn [first_els] in Hm. rewrite pmatch_any_app in Hm.
  apply orb_false_iff in Hm as [Hm _]. cbn [clean_reject] in Hc.
  cbn [decode dec_els dec_el]. rewrite Hx.
  destruct t'; cbn [is_list negb] in Hc; try discriminate;
    cbn [first_el is_atomic pmatch_any existsb pmatch] in Hm; rewrite orb_false_r in Hm;
    unfold dec_el_atom, dec_el_anyatomic, dec_el_struct; try rewrite Hm; reflexivity.
Qed.

(* Any, SequenceOfAny, Sequence, Choice and NameValue elements share one code path.  Without context tag the
   structure has to be non-nullable; an optional one is tried and rolled back by Sequence.decode. *)
Lemma struct_el t c o : is_atomic t = false -> is_list t = false -> RT t ->
  (c = None -> nullable t = false) -> RTe (El t c o).
Proof.
  intros Hat Hli Hrt Hnul f ts rest Hf He Hr. destruct f as [v|].
  - cbn [has_el] in Hf. rewrite (enc_el_some t c o v Hf), Hat in He. apply enc_wrapped_inv in He as (b & Hb & ->).
    destruct c as [c|]; [apply wrapped_el; assumption|].
    cbn [avoid_el] in Hr. apply rest_ok_app in Hr as [_ Hr].
    destruct (enc_head t v b Hf Hb (Hnul eq_refl)) as (x & b' & -> & Hx). apply pmatch_any_not_closing in Hx.
    cbn [wrap app]. rewrite dec_el_struct_eq by assumption. unfold dec_el_struct.
    change (x :: b' ++ rest) with ((x :: b') ++ rest). rewrite (Hrt v (x :: b') rest Hf Hb Hr). reflexivity.
  - cbn [has_el] in Hf. subst o. cbn [enc_el] in He. injection He as <-. cbn [app].
    destruct c as [c|]; [apply el_skip; [split; [exact Hli|intros ->; discriminate]|exact Hr]|].
    cbn [avoid_el] in Hr. rewrite Hat in Hr. apply rest_ok_app in Hr as [Hr _].
    destruct rest as [|x r]; [reflexivity|].
    destruct (cls x =? 3) eqn:E3; [cbn [dec_el]; rewrite E3; reflexivity|].
    rewrite dec_el_struct_eq by assumption. unfold dec_el_struct.
    apply rest_ok_head in Hr; [|exact E3]. destruct (clean_reject t) eqn:Ecr; cbn [orb] in Hr.
    + rewrite (clean_reject_err t x r Ecr E3 Hr). reflexivity.
    + cbn [pmatch_any existsb pmatch] in Hr. rewrite E3 in Hr. discriminate.
Qed.

Lemma list_el s c o : (o = true -> c <> None) -> RT (TSeqOf s) -> RTe (El (TSeqOf s) c o).
Proof.
  intros Hoc Hrt f ts rest Hf He Hr. destruct f as [v|].
  - cbn [has_el] in Hf. rewrite (enc_el_some _ c o v Hf) in He. cbn [is_atomic] in He.
    apply enc_wrapped_inv in He as (b & Hb & ->).
    destruct c as [c|]; [apply wrapped_el; auto|].
    destruct o; [contradiction (Hoc eq_refl); reflexivity|].
    cbn [wrap avoid_el app] in *. pose proof (Hrt v b rest Hf Hb Hr) as Hd.
    destruct (b ++ rest) as [|x r] eqn:E.
    + cbn in Hd. injection Hd as <- <-. reflexivity.
    + cbn [dec_el]. destruct (cls x =? 3) eqn:E3.
      * cbn [decode length dec_loop] in Hd. rewrite E3 in Hd. cbn [bind] in Hd.
        injection Hd as <- <-. reflexivity.
      * unfold dec_el_list. rewrite Hd. reflexivity.
  - cbn [has_el] in Hf. subst o. destruct c as [c|]; [|contradiction (Hoc eq_refl); reflexivity].
    cbn [enc_el] in He. injection He as <-. cbn [app].
    cbn [avoid_el is_list] in Hr. apply rest_ok_any in Hr as [->|(y & r & -> & Hy)]; [reflexivity|].
    cbn [dec_el]. rewrite Hy. reflexivity.
Qed.

Lemma atom_alt k c o : ALT (El (TAtom k) c o).
Proof.
  intros w y ts Hw He more i rest. cbn [has_el has_ty] in Hw. destruct w as [x| | | |]; try contradiction.
  cbn [enc_alt enc_atomv] in He. destruct (enc_leaf_inv k c x _ Hw He) as (y' & Heq & Hy). injection Heq as <- ->.
  cbn [app dec_alts]. unfold dec_alt_atom. destruct c as [c|].
  - destruct Hy as (H1 & H2 & Hback). rewrite H1, H2, !N.eqb_refl, Hback. cbn [andb bind].
    rewrite (leaf_check k x Hw). reflexivity.
  - subst y. destruct Hw as (H1 & H2 & Hchk & _). rewrite H1, H2, !N.eqb_refl, Hchk. reflexivity.
Qed.

Lemma wrapped_alt t c o : is_atomic t = false -> RT t -> ALT (El t (Some c) o).
Proof.
  intros Hat Hrt w x ts Hw He more i rest.
  rewrite (enc_alt_el _ w Hw), (enc_el_some t _ o w Hw), Hat in He.
  apply enc_wrapped_inv in He as (b & Hb & Heq). injection Heq as -> ->.
  rewrite dec_alts_struct by exact Hat. unfold dec_alt_struct. rewrite open_hit.
  apply (close_after t c w b rest (VChoice i)); assumption.
Qed.

Lemma alt_skip e more i x rest :
  sup_alt e = true -> pmatch_any (first_el e) x = false ->
  dec_alts decode (e :: more) i x rest = dec_alts decode more (S i) x rest.
Proof.
  destruct e as [t c o]. intros Hs Hm.
  destruct t; cbn [sup_alt andb] in Hs; try (rewrite andb_false_r in Hs; discriminate);
    destruct c as [c|]; try (rewrite andb_false_r in Hs; discriminate);
    cbn [first_el is_atomic first pmatch_any existsb pmatch] in Hm; rewrite orb_false_r in Hm;
    cbn [dec_alts]; unfold dec_alt_atom, dec_alt_struct; rewrite Hm; reflexivity.
Qed.

Lemma sup_unctx_struct t o : sup_seq_el (El t None o) = true -> is_atomic t = false -> is_list t = false ->
  nullable t = false.
Proof.
  cbn [sup_seq_el]. intros H Ha Hl. split_andb. rewrite Hl, orb_false_r in *.
  destruct t, o; try discriminate; cbn [orb] in *; try (apply negb_true_iff; assumption); discriminate.
Qed.
Lemma sup_alt_ctx t c o : sup_alt (El t c o) = true -> is_atomic t = false -> exists c', c = Some c'.
Proof. cbn [sup_alt]. intros H Ha. split_andb. destruct t, c; try discriminate; eauto. Qed.

Lemma el_facts t c o : good t -> goode (El t c o).
Proof.
  intros Hg Hwf. cbn [wf_el] in Hwf. split_andb.
  split; intros Hs; pose proof Hs as Hs'; cbn [sup_seq_el sup_alt] in Hs'; split_andb;
    pose proof (Hg ltac:(assumption) ltac:(assumption)) as Hrt.
  - destruct (is_atomic t) eqn:Hat.
    { destruct t; try discriminate; [apply atom_el|]. destruct c; [discriminate|apply anyatomic_el]. }
    destruct (is_list t) eqn:Hli.
    { destruct t; try discriminate. apply list_el; [|exact Hrt]. intros ->. destruct c; discriminate. }
    apply struct_el; try assumption. intros ->. exact (sup_unctx_struct t o Hs Hat Hli).
  - destruct (is_atomic t) eqn:Hat.
    { destruct t; try discriminate. apply atom_alt. }
    destruct (sup_alt_ctx t c o Hs Hat) as [c' ->]. apply wrapped_alt; assumption.
Qed.

Lemma good_atom k : good (TAtom k).
Proof.
  intros _ _ v ts rest Hv He _. destruct (enc_inv _ _ _ Hv He) as (x & -> & -> & Hx).
  cbn [app decode]. rewrite (leaf_check k x Hx). reflexivity.
Qed.

Lemma good_anyatomic : good TAnyAtomic.
Proof.
  intros _ _ v ts rest Hv He _. destruct (enc_inv _ _ _ Hv He) as (x & -> & -> & H12 & Hx).
  cbn [app decode]. rewrite (anyatomic_obj_leaf x H12 Hx). reflexivity.
Qed.

Lemma any_rt ts rest : balanced ts -> rest_ok [PAny] rest ->
  (do (g, r) <- any_decode (ts ++ rest); Ok (VTags g, r)) = Ok (VTags ts, rest).
Proof.
  intros Hb Hr. apply rest_ok_any in Hr as [->|(c & r & -> & Hc)].
  - rewrite app_nil_r, (any_decode_all ts Hb). reflexivity.
  - rewrite (any_decode_balanced ts c r Hb Hc). reflexivity.
Qed.

Lemma good_any : good TAny.
Proof. intros _ _ v ts rest Hv He Hr. destruct (enc_inv _ _ _ Hv He) as [-> Hb]. exact (any_rt ts rest Hb Hr). Qed.

Lemma seq_rt els : Forall goode els -> forallb sup_seq_el els = true -> wf_els els = true ->
  forall fs ts rest, has_fields els fs -> enc_els encode els fs = Ok ts ->
  rest_ok (avoid_els els) rest -> dec_els decode els (ts ++ rest) = Ok (fs, rest).
Proof.
  induction 1 as [|e r He _ IH]; intros Hs Hw fs ts rest Hf Henc Hr.
  - destruct fs; [|contradiction]. cbn in Henc. injection Henc as <-. reflexivity.
  - cbn [forallb] in Hs. apply andb_true_iff in Hs as [Hse Hsr]. apply wf_els_cons in Hw as (Hwe & Hd & Hwr).
    destruct fs as [|f fs]; [contradiction|]. destruct Hf as [Hf1 Hf2].
    apply enc_els_cons in Henc as (a & b & Ha & Hb & ->).
    destruct (He Hwe) as [Hrt _]. specialize (Hrt Hse).
    cbn [avoid_els] in Hr. apply rest_ok_app in Hr as [Hr1 Hr2].
    cbn [dec_els]. rewrite <- app_assoc, (Hrt f a (b ++ rest) Hf1 Ha).
    + cbn [bind]. rewrite (IH Hsr Hwr fs b rest Hf2 Hb Hr2). reflexivity.
    + (* the next element's tag, if any, is in FIRST of what follows, which wf_els keeps apart from avoid_el e *)
      eapply rest_ok_step; [exact Hd|exact (encode_shape (TSeq r) (VSeq fs) b Hf2 Hb)|].
      cbn [nullable]. intros Hn. rewrite Hn in Hr1. exact Hr1.
Qed.

Lemma good_seq els : Forall goode els -> good (TSeq els).
Proof.
  intros Hall Hs Hw v ts rest Hv He Hr. destruct (enc_inv _ _ _ Hv He) as (fs & -> & Hf & Henc).
  rewrite wf_ty_seq in Hw. rewrite avoid_seq in Hr.
  cbn [decode]. rewrite (seq_rt els Hall Hs Hw fs ts rest Hf Henc Hr). reflexivity.
Qed.

Lemma disj_from_all e r x :
  forallb (fun b => pdisj_all (first_el e) b) (map first_el r) = true ->
  pmatch_any (flat_map first_el r) x = true -> pmatch_any (first_el e) x = false.
Proof.
  induction r as [|e' r IH]; intros Hd Hm; [cbn in Hm; discriminate|].
  cbn [map forallb flat_map] in *. split_andb. rewrite pmatch_any_app in Hm.
  apply orb_true_iff in Hm as [Hm|Hm].
  - eapply pdisj_all_sound; eauto.
  - apply IH; assumption.
Qed.

Lemma choice_rt els : Forall goode els -> forallb wf_el els = true ->
  pairwise_disj (map first_el els) = true ->
  forall i n w x ts, has_alt els i w -> enc_nth encode els i w = Ok (x :: ts) ->
  forall rest, dec_alts decode els n x (ts ++ rest) = Ok (VChoice (n + i) w, rest).
Proof.
  induction 1 as [|e r He _ IH]; intros Hw Hd i n w x ts Ha Henc rest; [destruct i; contradiction|].
  cbn [forallb map pairwise_disj] in Hw, Hd.
  apply andb_true_iff in Hw as [Hwe Hwr]. apply andb_true_iff in Hd as [Hde Hdr].
  destruct i as [|j]; cbn [has_alt enc_nth] in *; destruct Ha as [Hsa Ha].
  - destruct (He Hwe) as [_ Halt]. rewrite Nat.add_0_r. exact (Halt Hsa w x ts Ha Henc r n rest).
  - (* x starts a later alternative, and their FIRST sets are pairwise disjoint *)
    rewrite alt_skip; [|exact Hsa|exact (disj_from_all e r x Hde (alt_first r j w x ts Ha Henc))].
    rewrite (IH Hwr Hdr j (S n) w x ts Ha Henc rest), Nat.add_succ_r. reflexivity.
Qed.

Lemma good_choice els : Forall goode els -> good (TChoice els).
Proof.
  intros Hall Hs Hw v ts rest Hv He _. cbn [wf_ty] in Hw. split_andb.
  destruct (enc_head _ v ts Hv He eq_refl) as (x & ts' & -> & Hx).
  destruct (enc_inv _ _ _ Hv He) as (i & w & -> & Ha & Henc).
  cbn [app decode]. rewrite (pmatch_any_not_closing _ x Hx).
  exact (choice_rt els Hall ltac:(assumption) ltac:(assumption) i 0%nat w x ts' Ha Henc rest).
Qed.

Lemma list_len s : nullable s = false ->
  forall vs ts, Forall (has_ty s) vs -> enc_list (encode s) vs = Ok ts -> (length vs <= length ts)%nat.
Proof.
  intros Hnul. induction vs as [|v vs IH]; intros ts Hall He; [cbn; lia|].
  inversion Hall as [|? ? Hv Hvs]; subst.
  apply enc_list_cons in He as (a & b & Ha & Hb & ->).
  destruct (enc_head s v a Hv Ha Hnul) as (x & a' & -> & _).
  specialize (IH b Hvs Hb). rewrite app_length. cbn [length]. lia.
Qed.

Lemma loop_rt s : RT s -> nullable s = false -> pdisj_all (avoid s) (first s) = true ->
  forall vs fuel ts rest, Forall (has_ty s) vs -> enc_list (encode s) vs = Ok ts ->
  rest_ok [PAny] rest -> (length vs <= fuel)%nat ->
  dec_loop (decode s) fuel (ts ++ rest) = Ok (vs, rest).
Proof.
  intros Hrt Hnul Hd. induction vs as [|v vs IH]; intros fuel ts rest Hall He Hr Hlen.
  - cbn in He. injection He as <-. cbn [app].
    apply rest_ok_any in Hr as [->|(c & r & -> & Hc)].
    + destruct fuel; reflexivity.
    + destruct fuel; cbn [dec_loop]; rewrite Hc; reflexivity.
  - inversion Hall as [|? ? Hv Hvs]; subst.
    apply enc_list_cons in He as (a & b & Ha & Hb & ->).
    destruct (enc_head s v a Hv Ha Hnul) as (x & a' & -> & Hx). apply pmatch_any_not_closing in Hx.
    destruct fuel as [|f]; [cbn in Hlen; lia|]. cbn [length] in Hlen.
    rewrite <- app_assoc. cbn [app dec_loop]. rewrite Hx.
    change (x :: a' ++ b ++ rest) with ((x :: a') ++ b ++ rest).
    rewrite (Hrt v (x :: a') (b ++ rest) Hv Ha).
    + cbn [bind]. rewrite (IH f b rest Hvs Hb Hr ltac:(lia)). reflexivity.
    + (* the next item's tag is in FIRST s, which wf_ty keeps apart from avoid s *)
      eapply rest_ok_step; [exact Hd|exact (encode_shape (TSeqOf s) (VList vs) b Hvs Hb)|].
      intros _. exact (rest_ok_any_all _ rest Hr).
Qed.

(* with the fuel decode gives it: every item is at least one tag *)
Lemma items_rt s : good s -> supported (TSeqOf s) = true -> wf_ty (TSeqOf s) = true ->
  forall vs ts rest, Forall (has_ty s) vs -> enc_list (encode s) vs = Ok ts -> rest_ok [PAny] rest ->
  dec_loop (decode s) (S (length (ts ++ rest))) (ts ++ rest) = Ok (vs, rest).
Proof.
  intros Hg Hs Hw vs ts rest Hvs He Hr. cbn [supported wf_ty] in Hs, Hw. split_andb.
  assert (Hnul : nullable s = false) by (apply negb_true_iff; assumption).
  apply loop_rt; auto. pose proof (list_len s Hnul vs ts Hvs He). rewrite app_length. lia.
Qed.

Lemma good_seqof s : good s -> good (TSeqOf s).
Proof.
  intros Hg Hs Hw v ts rest Hv He Hr. destruct (enc_inv _ _ _ Hv He) as (vs & -> & Hvs & Henc).
  cbn [decode]. rewrite (items_rt s Hg Hs Hw vs ts rest Hvs Henc Hr). reflexivity.
Qed.

Lemma good_arrayof s f : good s -> good (TArrayOf s f).
Proof.
  intros Hg Hs Hw v ts rest Hv He Hr. destruct (enc_inv _ _ _ Hv He) as (vs & -> & Hvs & Henc & Hl).
  cbn [decode]. rewrite (items_rt s Hg Hs Hw vs ts rest Hvs Henc Hr). cbn [bind].
  destruct f as [n|]; [|reflexivity]. apply N.eqb_eq in Hl. rewrite Hl. reflexivity.
Qed.

Lemma good_namevalue : good TNameValue.
Proof.
  intros _ _ v ts rest Hv He Hr. destruct (enc_inv _ _ _ Hv He) as (n & n' & tail & Hn & Hf & Ha & ->).
  destruct (leaf_ctx_roundtrip 7 0 n Hn) as (n'' & Ha' & Hc1 & Hc2 & Hback).
  rewrite Ha in Ha'. injection Ha' as <-.
  cbn [app decode dec_namevalue]. rewrite Hc1, Hc2. cbn [N.eqb Pos.eqb andb].
  rewrite Hback. cbn [bind]. rewrite (leaf_check _ _ Hn).
  (* after the name: an application tag is taken as the value; avoid TNameValue = [PAppAny] *)
  assert (Hz : match rest with [] => True | z :: _ => (cls z =? 0) = false end).
  { destruct rest as [|z r]; [exact I|]. destruct Hr as [Hr|Hr]; [lia|].
    cbn in Hr. rewrite orb_false_r in Hr. exact Hr. }
  destruct Hf as [|x H12 Hx|d t Hd Ht]; cbn [app].
  - destruct rest as [|z r]; [reflexivity|]. rewrite Hz. reflexivity.
  - rewrite (proj1 Hx). cbn [N.eqb]. rewrite (anyatomic_obj_leaf x H12 Hx).
    destruct rest as [|z r]; [reflexivity|]. rewrite Hz, andb_false_r. reflexivity.
  - destruct Hd as (Hcd & Hnd & Hchd & _). destruct Ht as (Hct & Hnt & Hcht & _).
    rewrite Hcd, Hnd, Hct, Hnt. cbn [N.eqb Pos.eqb andb]. rewrite Hchd, Hcht. reflexivity.
Qed.

Theorem codec_good : forall t, good t.
Proof.
  apply (ty_ind2 good goode).
  - exact good_atom.
  - exact good_anyatomic.
  - exact good_any.
  - exact good_any.      (* SequenceOfAny has the codec of Any: the same statement up to computation *)
  - exact good_seq.
  - exact good_choice.
  - exact good_seqof.
  - exact good_arrayof.
  - exact good_namevalue.
  - exact el_facts.
Qed.

Theorem roundtrip t : supported t = true -> wf_ty t = true ->
  forall v ts rest, has_ty t v -> encode t v = Ok ts -> rest_ok (avoid t) rest ->
  decode t (ts ++ rest) = Ok (v, rest).
Proof. exact (codec_good t). Qed.

Lemma roundtrip_els els : supported (TSeq els) = true -> wf_ty (TSeq els) = true ->
  forall v ts rest, has_ty (TSeq els) v -> encode (TSeq els) v = Ok ts -> rest_ok (avoid (TSeq els)) rest ->
  exists fs, v = VSeq fs /\ dec_els decode els (ts ++ rest) = Ok (fs, rest).
Proof.
  intros Hs Hw v ts rest Hv He Hr. destruct (enc_inv _ _ _ Hv He) as (fs & -> & Hf & Henc).
  rewrite wf_ty_seq in Hw. rewrite avoid_seq in Hr. exists fs. split; [reflexivity|]. apply seq_rt; try assumption.
  apply Forall_forall. intros [t c o] _. apply el_facts, codec_good.
Qed.

(* APCISequence.decode refuses what is left over after a complete PDU, unless the PDU's own decoder would have
   taken it *)
Theorem pdu_trailing_tags_refused els : supported (TSeq els) = true -> wf_ty (TSeq els) = true ->
  forall v ts rest bs, has_ty (TSeq els) v -> encode (TSeq els) v = Ok ts ->
  rest <> [] -> rest_ok (avoid (TSeq els)) rest -> dec_tags bs = Ok (ts ++ rest) ->
  decode_pdu (TSeq els) bs = Err TooManyArguments.
Proof.
  intros Hs Hw v ts rest bs Hv He Hne Hr Hd.
  destruct (roundtrip_els els Hs Hw v ts rest Hv He Hr) as (fs & _ & Hrt).
  unfold decode_pdu. rewrite Hd. cbn [bind]. rewrite Hrt. cbn [bind]. destruct rest; [contradiction|reflexivity].
Qed.

Theorem fuel_enough_on_encodings t : supported t = true -> wf_ty t = true ->
  forall v ts rest, has_ty t v -> encode t v = Ok ts -> rest_ok (avoid t) rest ->
  decode t (ts ++ rest) <> Err OutOfFuel.
Proof.
  intros Hs Hw v ts rest Hv He Hr. rewrite (roundtrip t Hs Hw v ts rest Hv He Hr). discriminate.
Qed.

Theorem unctx_alternative_refused pre t o post x rest :
  forallb (fun e => match e with El (TAtom k) _ _ => k <=? 12 | _ => false end) pre = true ->
  is_atomic t = false ->
  pmatch_any (flat_map first_el pre) x = false ->
  dec_alts decode (pre ++ El t None o :: post) 0 x rest = Err RuntimeErr.
Proof.
  intros Hpre Hat. generalize 0%nat. induction pre as [|e pre IH]; intros n Hm.
  - cbn [app]. rewrite dec_alts_struct by exact Hat. reflexivity.
  - cbn [forallb flat_map] in *. split_andb. rewrite pmatch_any_app in Hm.
    apply orb_false_iff in Hm as [Hm1 Hm2].
    destruct e as [t' c' o']. destruct t'; try discriminate.
    cbn [app]. rewrite alt_skip; [apply IH; auto| cbn [sup_alt supported]; rewrite andb_true_r; assumption | exact Hm1].
Qed.
