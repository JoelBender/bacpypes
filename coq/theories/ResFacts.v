(* ResFacts.v — reading a result of the `res` monad of Base.v backwards. *)
From Bac Require Import Base.

Lemma bind_ok_inv {A B} (r : res A) (f : A -> res B) y :
  bind r f = Ok y -> exists x, r = Ok x /\ f x = Ok y.
Proof. destruct r as [x|e]; [exists x; auto|discriminate]. Qed.

Lemma bind_err_inv {A B} (r : res A) (f : A -> res B) e :
  bind r f = Err e -> r = Err e \/ exists x, r = Ok x /\ f x = Err e.
Proof. destruct r as [x|e']; intros H; [right; exists x; auto|left; injection H as <-; reflexivity]. Qed.

Lemma bind_ret {A} (r : res A) : (do x <- r; Ok x) = r.
Proof. destruct r; reflexivity. Qed.

Lemma bind_ok_fails {A B} (r : res A) (f : A -> B) :
  (exists e, (do x <- r; Ok (f x)) = Err e) <-> exists e, r = Err e.
Proof. destruct r as [x|e]; cbn [bind]; split; intros [e' H]; try discriminate; eauto. Qed.

Lemma guard_fails {A} (b : bool) (x : A) e0 : (exists e, (if b then Ok x else Err e0) = Err e) <-> b = false.
Proof. destruct b; split; [intros [e [=]]|discriminate|reflexivity|eauto]. Qed.
