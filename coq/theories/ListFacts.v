(* ListFacts.v — facts about filter, flat_map, map and NoDup of the standard library's lists that the lemma
   files of several models use; nothing here mentions a model. *)
From Coq Require Import List Bool Permutation.
Import ListNotations.

Lemma filter_none {A} (p : A -> bool) l : (forall x, In x l -> p x = false) -> filter p l = [].
Proof.
  induction l as [|x l IH]; intros H; [reflexivity|]. cbn [filter].
  rewrite (H x (or_introl eq_refl)). apply IH. intros y I. apply H. right. exact I.
Qed.
Lemma filter_all {A} (p : A -> bool) l : (forall x, In x l -> p x = true) -> filter p l = l.
Proof.
  induction l as [|x l IH]; intros H; [reflexivity|]. cbn [filter].
  rewrite (H x (or_introl eq_refl)). f_equal. apply IH. intros y I. apply H. right. exact I.
Qed.
Lemma filter_map_comm {A B} (f : A -> B) (p : B -> bool) l :
  filter p (map f l) = map f (filter (fun x => p (f x)) l).
Proof.
  induction l as [|x l IH]; [reflexivity|]. cbn [map filter]. destruct (p (f x)); cbn [map]; rewrite IH; reflexivity.
Qed.
Lemma filter_filter {A} (p q : A -> bool) l : filter p (filter q l) = filter (fun x => q x && p x) l.
Proof.
  induction l as [|x l IH]; [reflexivity|]. cbn [filter].
  destruct (q x); cbn [filter andb]; [destruct (p x)|]; rewrite IH; reflexivity.
Qed.

Lemma Forall_forallb {A} (p : A -> bool) (R : A -> Prop) l :
  Forall (fun a => p a = true -> R a) l -> forallb p l = true -> Forall R l.
Proof. rewrite forallb_forall, !Forall_forall. auto. Qed.

(* the duplicate test of a checker: `a` does not occur in r when no element of r tests equal to it *)
Lemma existsb_refl_notin {A} (eqb : A -> A -> bool) : (forall a, eqb a a = true) ->
  forall a r, existsb (eqb a) r = false -> ~ In a r.
Proof.
  intros Hrefl a r H Hin. assert (E : existsb (eqb a) r = true) by (apply existsb_exists; exists a; auto).
  congruence.
Qed.

Lemma not_in_map {A B} (f : A -> B) l b : (forall x, f x <> b) -> ~ In b (map f l).
Proof. intros H I. apply in_map_iff in I. destruct I as [x [E _]]. exact (H x E). Qed.

Lemma flat_map_nil {A B} (f : A -> list B) l : (forall x, In x l -> f x = []) -> flat_map f l = [].
Proof.
  induction l as [|x l IH]; intros H; [reflexivity|]. cbn [flat_map].
  rewrite (H x (or_introl eq_refl)), IH; [reflexivity|]. intros y I. apply H. right. exact I.
Qed.
Lemma flat_map_eq_nil {A B} (f : A -> list B) l : flat_map f l = [] -> forall x, In x l -> f x = [].
Proof.
  induction l as [|y l IH]; intros H x I; [contradiction|]. cbn [flat_map] in H. apply app_eq_nil in H.
  destruct H as [H1 H2]. destruct I as [<-|I]; [exact H1 | apply IH; assumption].
Qed.
Lemma flat_map_ext_in {A B} (f g : A -> list B) l : (forall x, In x l -> f x = g x) -> flat_map f l = flat_map g l.
Proof.
  induction l as [|x l IH]; intros H; [reflexivity|]. cbn [flat_map].
  rewrite (H x (or_introl eq_refl)), IH; [reflexivity|]. intros y I. apply H. right. exact I.
Qed.
Lemma flat_map_map {A B C} (f : A -> B) (g : B -> list C) l : flat_map g (map f l) = flat_map (fun x => g (f x)) l.
Proof. induction l as [|x l IH]; [reflexivity|]. cbn [map flat_map]. rewrite IH. reflexivity. Qed.
Lemma map_flat_map {A B C} (f : B -> C) (g : A -> list B) l : map f (flat_map g l) = flat_map (fun x => map f (g x)) l.
Proof. induction l as [|x l IH]; [reflexivity|]. cbn [flat_map]. rewrite map_app, IH. reflexivity. Qed.
Lemma flat_map_single {A B} (f : A -> B) l : flat_map (fun x => [f x]) l = map f l.
Proof. induction l as [|x l IH]; [reflexivity|]. cbn [flat_map map app]. rewrite IH. reflexivity. Qed.
Lemma flat_map_flat_map {A B C} (f : B -> list C) (h : A -> list B) l :
  flat_map f (flat_map h l) = flat_map (fun x => flat_map f (h x)) l.
Proof. induction l as [|x l IH]; [reflexivity|]. cbn [flat_map]. rewrite flat_map_app, IH. reflexivity. Qed.
Lemma flat_map_if {A B} (p : A -> bool) (f : A -> list B) l :
  flat_map (fun x => if p x then f x else []) l = flat_map f (filter p l).
Proof.
  induction l as [|x l IH]; [reflexivity|]. cbn [flat_map filter]. destruct (p x); cbn [flat_map app]; rewrite IH; reflexivity.
Qed.
Lemma flat_map_filter {A B} (p : A -> bool) (f : A -> B) l :
  flat_map (fun x => if p x then [f x] else []) l = map f (filter p l).
Proof. rewrite <- flat_map_single. exact (flat_map_if p (fun x => [f x]) l). Qed.
Lemma flat_map_pick {A B} (f : A -> list B) l x :
  NoDup l -> In x l -> (forall y, In y l -> y <> x -> f y = []) -> flat_map f l = f x.
Proof.
  induction l as [|z l IH]; intros N I H; [contradiction|]. inversion N as [|? ? Hn Hd]; subst. cbn [flat_map].
  destruct I as [->|I].
  - rewrite flat_map_nil; [apply app_nil_r|]. intros y Iy. apply H; [right; exact Iy|]. intros ->. contradiction.
  - rewrite (H z); [|left; reflexivity | intros ->; contradiction]. cbn [app]. apply IH; [exact Hd | exact I |].
    intros y Iy. apply H. right. exact Iy.
Qed.

Lemma perm_flat_map_app {A B} (f h : A -> list B) l :
  Permutation (flat_map (fun x => f x ++ h x) l) (flat_map f l ++ flat_map h l).
Proof.
  induction l as [|x l IH]; [apply Permutation_refl|]. cbn [flat_map].
  eapply Permutation_trans; [apply Permutation_app_head; exact IH|].
  rewrite <- !app_assoc. apply Permutation_app_head.
  rewrite !app_assoc. apply Permutation_app_tail. apply Permutation_app_comm.
Qed.
Lemma perm_flat_map_ext {A B} (f h : A -> list B) l :
  (forall x, In x l -> Permutation (f x) (h x)) -> Permutation (flat_map f l) (flat_map h l).
Proof.
  induction l as [|x l IH]; intros H; [apply Permutation_refl|]. cbn [flat_map].
  apply Permutation_app; [apply H; left; reflexivity | apply IH; intros y Iy; apply H; right; exact Iy].
Qed.

Lemma nodup_app_intro {A} (l1 l2 : list A) :
  NoDup l1 -> NoDup l2 -> (forall a, In a l1 -> In a l2 -> False) -> NoDup (l1 ++ l2).
Proof.
  induction l1 as [|x l1 IH]; intros N1 N2 D; [exact N2|]. inversion N1 as [|? ? Hn Hd]; subst.
  cbn [app]. constructor.
  - rewrite in_app_iff. intros [I|I]; [contradiction | apply (D x); [left; reflexivity | exact I]].
  - apply IH; [exact Hd | exact N2 |]. intros a I1 I2. apply (D a); [right; exact I1 | exact I2].
Qed.
Lemma nodup_app_inv {A} (l1 l2 : list A) :
  NoDup (l1 ++ l2) -> NoDup l1 /\ NoDup l2 /\ (forall a, In a l1 -> In a l2 -> False).
Proof.
  induction l1 as [|x l1 IH]; intros N; cbn [app] in N.
  - repeat split; [constructor | exact N | intros a []].
  - inversion N as [|? ? Hn Hd]; subst. destruct (IH Hd) as [N1 [N2 D]]. repeat split.
    + constructor; [|exact N1]. intros I. apply Hn. apply in_or_app. left. exact I.
    + exact N2.
    + intros a [->|I1] I2; [apply Hn; apply in_or_app; right; exact I2 | apply (D a); assumption].
Qed.
Lemma nodup_snoc {A} (l : list A) x : NoDup l -> ~ In x l -> NoDup (l ++ [x]).
Proof. intros N Hx. apply nodup_app_intro; [exact N | repeat constructor; intros [] |]. intros a I [<-|[]]. exact (Hx I). Qed.
Lemma nodup_flat_map {A B} (g : A -> list B) l :
  NoDup l -> (forall s, In s l -> NoDup (g s)) ->
  (forall s s' a, In s l -> In s' l -> s <> s' -> In a (g s) -> In a (g s') -> False) ->
  NoDup (flat_map g l).
Proof.
  induction l as [|x l IH]; intros N Hg D; [constructor|]. inversion N as [|? ? Hn Hd]; subst. cbn [flat_map].
  apply nodup_app_intro.
  - apply Hg. left. reflexivity.
  - apply IH; [exact Hd | intros s I; apply Hg; right; exact I |].
    intros s s' a I I'. apply D; right; assumption.
  - intros a I1 I2. apply in_flat_map in I2. destruct I2 as [s [Is Ia]].
    apply (D x s a); [left; reflexivity | right; exact Is | | exact I1 | exact Ia].
    intros ->. contradiction.
Qed.
Lemma nodup_map_inj {A B} (f : A -> B) l x y :
  NoDup (map f l) -> In x l -> In y l -> f x = f y -> x = y.
Proof.
  induction l as [|z l IH]; intros N Ix Iy E; [contradiction|].
  cbn [map] in N. inversion N as [|? ? Hn Hd]; subst.
  destruct Ix as [->|Ix], Iy as [->|Iy]; try reflexivity.
  - exfalso. apply Hn. rewrite E. apply in_map. exact Iy.
  - exfalso. apply Hn. rewrite <- E. apply in_map. exact Ix.
  - apply IH; assumption.
Qed.
Lemma nodup_map_on {A B} (f : A -> B) l :
  NoDup l -> (forall x y, In x l -> In y l -> f x = f y -> x = y) -> NoDup (map f l).
Proof.
  induction l as [|z l IH]; intros N H; [constructor|]. inversion N as [|? ? Hn Hd]; subst. cbn [map].
  constructor.
  - intros I. apply in_map_iff in I. destruct I as [y [E I]]. apply Hn.
    assert (y = z) as -> by (apply H; [right; exact I | left; reflexivity | exact E]). exact I.
  - apply IH; [exact Hd|]. intros x y Ix Iy. apply H; right; assumption.
Qed.
