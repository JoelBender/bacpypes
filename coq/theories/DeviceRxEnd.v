(* DeviceRxEnd.v — C10 end to end: from the octets of a frame on the LAN to the frames the device answers with. *)
From Bac Require Import Base Ssm SsmC04a SsmC04h.
From Bac Require Npci Apci RouterCache SsmWorld.
From Bac Require Import Asap AsapCodec AsapCodecFacts DeviceRx DeviceRxFacts DeviceRxReply.
From BacGen Require Import ApduFns.
Open Scope Z_scope.

Lemma device_rx_local_request st now f x m a : request_of f = Some (None, m, a) ->
  device_rx st now f x = smap_rx st now None m a x /\ m = f_src f /\ wf_request a.
Proof.
  unfold request_of, device_rx.
  destruct (Npci.dec_npci (f_data f)) as [[[c h] rest]|e]; [|discriminate].
  destruct (Npci.dadr h) as [[?|?|]|] eqn:Ed; destruct (Npci.nmsg h) eqn:En; try discriminate;
  (destruct (Apci.dec_apci rest) as [[ah payload]|e] eqn:Eda; [|discriminate];
   destruct (a_type (to_apdu ah payload) =? 0) eqn:Et; [|discriminate];
   assert (Hwf : wf_request (to_apdu ah payload)) by (eapply dec_apci_request_wf; [eassumption | lia]);
   destruct (Npci.sadr h) as [[snet smac|?|]|]; intros H; inversion H; subst; cbn [negb]; cbv beta iota; auto).
Qed.

(* the run is followed here because s_idle_spec does not tie the output to the outcome of the max-APDU decoder *)
Lemma s_idle_unseg a t0 c now : wf_request a -> a_seg a = false -> s_dinfo t0 = None -> s_state t0 = IDLE ->
  let r := fst (s_idle a (mkH t0 [] c now true)) in
  (exists fr, h_outs r = [Tx fr] /\ a_invoke fr = a_invoke a /\ a_type fr = 7 /\
              decode_max_apdu_length_accepted (a_maxresp a) = Err ValueErr) \/
  (exists dec, decode_max_apdu_length_accepted (a_maxresp a) = Ok (Some dec) /\ 0 < dec /\
     h_outs r = [ToApp a] /\ h_live r = true /\ terminal (h_s r) = false /\ s_invoke (h_s r) = a_invoke a /\
     server_segsize (h_s r) = dec).
Proof.
  intros (Ht & Hms & Hmr) Hseg Hd Hst r.
  assert (T : terminal t0 = false) by (unfold terminal; rewrite Hst; reflexivity).
  destruct (dec_maxsegs_total _ Hms) as (ms & Ems).
  assert (E : r = fst (s_idle a (mkH t0 [] c now true))) by reflexivity. clearbody r. revert E.
  unfold s_idle. rewrite Ht. cbn [Z.eqb negb]. run_m.
  destruct (dec_maxresp_total _ Hmr) as [(v & Ev & Hpos) | Ev]; rewrite Ev.
  - rewrite Ems, Hseg. cbn [negb]. run_m. rewrite set_state_run by exact T. intros ->. right. exists v.
    split; [reflexivity|]. split; [exact Hpos|]. cbn [fst emit h_s h_outs h_live].
    repeat split. unfold server_segsize.
    cbn [s_dinfo s_maxapdu set_timer_f set_state_f set_limits_f set_invoke_f]. now rewrite Hd.
  - run_m. rewrite s_abort_run by exact T. intros ->. left. eexists. repeat split.
Qed.

Lemma reply_frames_one cfg dcc now m a x r :
  dcc_passes dcc a = true -> wf_request a -> a_seg a = false ->
  SsmWorld.assoc (peer_code None m) (SsmWorld.c_know cfg) = None ->
  app_replies x a = [reply_apdu a x r] ->
  exists fr, reply_frames cfg dcc now m a x = [DFrame (mac_code m) None fr] /\ a_invoke fr = a_invoke a /\
    (forall dec, decode_max_apdu_length_accepted (a_maxresp a) = Ok (Some dec) ->
                 a_type (reply_apdu a x r) <> 3 -> fr = reply_apdu a x r).
Proof.
  intros Hd Hwf Hseg Hk Hr. unfold reply_frames. rewrite Hd. cbn [negb].
  set (t0 := SsmWorld.new_ssm cfg (peer_code None m) false).
  assert (Hd0 : s_dinfo t0 = None) by exact Hk.
  destruct (s_idle_unseg a t0 0 now Hwf Hseg Hd0 eq_refl) as [(fr & Ho & Hi & Hty & He) | (dec & He & Hpos & Ho & Hl & Hterm & Hinv & Hsz)].
  - rewrite Ho. cbn [rev app flat_map]. exists fr. split; [reflexivity|]. split; [exact Hi|].
    intros dec Hdec. congruence.
  - rewrite Ho. cbn [rev app flat_map]. rewrite (proj1 Hwf). cbn [Z.eqb]. rewrite Hr. cbn [flat_map]. rewrite !app_nil_r.
    destruct (reply_apdu_header a x r) as (Hra & Hrt). set (ra := reply_apdu a x r) in *.
    assert (Hrt' : a_type ra = 2 \/ a_type ra = 3 \/ a_type ra = 5 \/ a_type ra = 6 \/ a_type ra = 7).
    { rewrite Hrt. cbv zeta. destruct (_ || _) eqn:E; lia. }
    set (t1 := h_s (fst (s_idle a (mkH t0 [] 0 now true)))) in *.
    destruct (s_confirmation_one_frame ra t1 0 now Hrt' Hterm ltac:(lia) ltac:(congruence)) as (fr & Hf & Hfi & Hfe).
    rewrite Hf. cbn [rev app frames_of flat_map]. exists fr. split; [reflexivity|]. split; [congruence|].
    intros _ _ Hn3. apply Hfe. exact Hn3.
Qed.

(* x_exec <> XSilent: the service answers or raises; then the ASAP hands exactly one reply down *)
Lemma app_replies_one x a : x_exec x <> XSilent -> exists r, app_replies x a = [reply_apdu a x r] /\
  asap_octets (Z.to_N (a_service a)) (map Z.to_N (a_data a)) (x_helper x) (x_exec x) = [r].
Proof.
  intros H. destruct (octets_one_reply (Z.to_N (a_service a)) (map Z.to_N (a_data a)) (x_helper x) (x_exec x) H) as (r & Hr).
  exists r. unfold app_replies. rewrite Hr. split; reflexivity.
Qed.

Theorem one_reply_end_to_end st now f x m a :
  request_of f = Some (None, m, a) -> a_seg a = false ->
  dcc_passes (d_dcc st) a = true ->
  find_tr (a_invoke a) (peer_code None m) (d_str st) O = None ->
  SsmWorld.assoc (peer_code None m) (SsmWorld.c_know (d_cfg st)) = None ->
  x_exec x <> XSilent ->
  exists fr, snd (device_rx st now f x) = [DFrame (mac_code (f_src f)) None fr] /\ a_invoke fr = a_invoke a.
Proof.
  intros Hreq Hseg Hd Hf Hk Hx.
  destruct (device_rx_local_request st now f x m a Hreq) as (-> & Hm & Hwf). subst m.
  rewrite (fresh_request_outs st now (f_src f) a x (proj1 Hwf) Hf).
  destruct (app_replies_one x a Hx) as (r & Hr & _).
  destruct (reply_frames_one (d_cfg st) (d_dcc st) now (f_src f) a x r Hd Hwf Hseg Hk Hr) as (fr & H1 & H2 & _).
  exists fr. split; assumption.
Qed.

(* a well-framed confirmed request from a local station with no live transaction under that invoke ID is answered by the
   history-free reply function — in particular after ANY history (frames of any content from anybody, timers) ... *)
Theorem local_request_frames st now f x m a :
  request_of f = Some (None, m, a) ->
  find_tr (a_invoke a) (peer_code None m) (d_str st) O = None ->
  snd (device_rx st now f x) = reply_frames (d_cfg st) (d_dcc st) now (f_src f) a x.
Proof.
  intros Hreq Hf.
  destruct (device_rx_local_request st now f x m a Hreq) as (-> & Hm & Hwf). subst m.
  apply fresh_request_outs; [exact (proj1 Hwf) | exact Hf].
Qed.

Theorem valid_after_garbage cfg evs now f x m a :
  let st := fst (device_run (dev_init cfg) evs) in
  request_of f = Some (None, m, a) ->
  find_tr (a_invoke a) (peer_code None m) (d_str st) O = None ->
  snd (device_rx st now f x) = reply_frames (d_cfg st) (d_dcc st) now (f_src f) a x.
Proof. intros st. apply local_request_frames. Qed.

(* ... which is what a device that has seen nothing gives, and, when the answer is not a ComplexAck (those may need
   segmentation), exactly the reply the ASAP model prescribes for the octets of the request *)
Theorem local_request_fresh st now f x m a :
  request_of f = Some (None, m, a) ->
  find_tr (a_invoke a) (peer_code None m) (d_str st) O = None ->
  snd (device_rx st now f x) = snd (device_rx (mkDev (d_cfg st) [] [] 0 (d_dcc st) RouterCache.empty [] false) now f x).
Proof.
  intros Hreq Hf.
  destruct (device_rx_local_request st now f x m a Hreq) as (-> & Hm & Hwf).
  destruct (device_rx_local_request (mkDev (d_cfg st) [] [] 0 (d_dcc st) RouterCache.empty [] false) now f x m a Hreq) as (-> & _ & _).
  apply local_request_history_independent; auto. exact (proj1 Hwf).
Qed.

Theorem local_request_reply st now f x m a r dec :
  request_of f = Some (None, m, a) -> a_seg a = false ->
  decode_max_apdu_length_accepted (a_maxresp a) = Ok (Some dec) ->
  dcc_passes (d_dcc st) a = true ->
  find_tr (a_invoke a) (peer_code None m) (d_str st) O = None ->
  SsmWorld.assoc (peer_code None m) (SsmWorld.c_know (d_cfg st)) = None ->
  asap_octets (Z.to_N (a_service a)) (map Z.to_N (a_data a)) (x_helper x) (x_exec x) = [r] ->
  (ptype r = 2 \/ ptype r = 5 \/ ptype r = 6 \/ ptype r = 7)%N ->
  snd (device_rx st now f x) = [DFrame (mac_code (f_src f)) None (reply_apdu a x r)].
Proof.
  intros Hreq Hseg Hdec Hd Hf Hk Hr Hn3.
  destruct (device_rx_local_request st now f x m a Hreq) as (-> & Hm & Hwf). subst m.
  rewrite (fresh_request_outs st now (f_src f) a x (proj1 Hwf) Hf).
  assert (Har : app_replies x a = [reply_apdu a x r]) by (unfold app_replies; rewrite Hr; reflexivity).
  destruct (reply_frames_one (d_cfg st) (d_dcc st) now (f_src f) a x r Hd Hwf Hseg Hk Har) as (fr & H1 & _ & H3).
  rewrite H1. f_equal. f_equal. apply (H3 dec Hdec).
  rewrite (proj2 (reply_apdu_header a x r)). cbv zeta. destruct (_ || _) eqn:E; lia.
Qed.
