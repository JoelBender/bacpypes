(* NetLbc.v — a local broadcast is heard exactly once by every other station of its network and by nobody else,
   on every internetwork (no tree needed).  Lemmas about Net.v (property C06). *)
From Bac Require Import Base ListFacts Net NetFacts NetOnce NetRoute NetArrive NetLocal NetBcast NetTree NetFlood.
Open Scope N_scope.

Lemma station_hears_local : forall n a src dst p,
  adapters n = [a] -> has_app n = true ->
  n_msg p = None -> n_dadr p = None -> n_sadr p = None -> apdu_ok (n_data p) = true ->
  process_npdu n 0 src dst p = (n, [Up (ALS src) (ldest_to_addr dst) (n_data p)]).
Proof.
  intros n a src dst p Had Happ Hmsg Hd Hs Hok.
  rewrite (station_up n a src dst p Had Happ Hmsg Hok (or_introl Hd)) by (intros sn sm E; congruence).
  destruct (station_config n a Had) as (Eli & _ & _ & Er & _).
  unfold learned, shown_source, shown_dest. rewrite Hs, Hd, Er. reflexivity.
Qed.

Definition lbc (s : N) (smac : mac) (data : list N) : frame :=
  mkFrame s smac LBcast (mkNpdu None None 255 None data).

Lemma member_local : forall lns ns0 s src ws smac data ns x,
  internet_ok lns ns0 ->
  nth_error ns0 src = Some ws -> w_ports ws = [(s, smac)] -> station_shape ws -> apdu_ok data = true ->
  shape_sim ns0 ns -> In x (lan_members lns s) ->
  hearers (out_obs ns (lbc s smac data) x) = hears ns0 src x.
Proof.
  intros lns ns0 s src ws smac data ns x Hio Hws Hwsp Hwss Hok Hsim Hx.
  destruct (io_members Hio _ _ Hx) as [m Hport]. pose proof Hport as Hport'. unfold port_of in Hport'.
  destruct (nth_error ns0 (fst x)) as [w0|] eqn:Ew0; [|discriminate].
  destruct (shape_nth _ _ _ _ Hsim Ew0) as (w' & Hw' & Hns). pose proof Hns as (Hp1 & Hp2 & Hp3).
  assert (Hsrcport : port_of ns0 (src, 0%nat) = Some (s, smac)) by (exact (port_of_station Hws Hwsp)).
  destruct (io_shape Hio _ _ Ew0) as [Hr|Hst].
  - (* a router has no application *)
    destruct Hr as (_ & _ & _ & E).
    rewrite member_silent by (unfold silentb; rewrite Hw', Hp3, E; reflexivity).
    unfold hears, appb. rewrite Ew0, E. reflexivity.
  - destruct (station_port _ _ _ _ Hst Hport') as [E0 _]. destruct Hst as (lan0 & m0 & a & Hp & Ha & Hn & Hh).
    assert (Happ1 : appb ns0 x = true) by (unfold appb; rewrite Ew0; exact Hh).
    unfold out_obs, member_out. rewrite Hw', Hp1, Hport'.
    destruct (port_eq_or x (src, 0%nat)) as [Es|Es].
    + (* the originator does not hear its own broadcast *)
      subst x. rewrite Hsrcport in Hport. inversion Hport; subst m.
      rewrite (thm_lan_no_echo smac (lbc s smac data) eq_refl eq_refl). cbn [snd].
      unfold hears. cbn [fst]. rewrite Nat.eqb_refl, andb_false_r. reflexivity.
    + rewrite (accepts_other lns ns0 s x (src, 0%nat) m smac (lbc s smac data) Hio Hx
                 (io_listed Hio _ _ _ Hsrcport) Hport Hsrcport Es eq_refl eq_refl), E0.
      rewrite (station_hears_local (w_node w') a (f_src (lbc s smac data)) (f_dst (lbc s smac data)) (f_npdu (lbc s smac data)));
        try reflexivity; try assumption.
      2:{ rewrite Hp2. exact Ha. } 2:{ rewrite Hp3. exact Hh. }
      cbn [emit snd]. unfold hears. rewrite Happ1. destruct (Nat.eqb_spec (fst x) src) as [E|E]; [|reflexivity].
      exfalso. apply Es. destruct x as [xa xb]. cbn in *. congruence.
Qed.

(* C06 local broadcast: stays on its network; every other station of that network exactly once; nobody else *)
Theorem local_broadcast_once : forall w src ws s smac data,
  internet_ok (lans w) (nodes w) -> queue w = [] ->
  nth_error (nodes w) src = Some ws -> w_ports ws = [(s, smac)] -> station_shape ws -> apdu_ok data = true ->
  let w0 := submit w src ALB data in
  exists osn, queue (run 1 w0) = [] /\ (forall k', (1 <= k')%nat -> run k' w0 = run 1 w0) /\
    trace (run 1 w0) = osn ++ trace w /\ NoDup (hearers osn) /\
    forall who, In who (hearers osn) <->
      (who <> src /\ exists wn m, nth_error (nodes w) who = Some wn /\ station_shape wn /\ w_ports wn = [(s, m)]).
Proof.
  intros w src ws s smac data Hio Hq Hws Hwsp Hwss Hok w0.
  pose proof Hwss as (l0 & m0 & a & Hp0 & Ha & Hn & Hh). rewrite Hwsp in Hp0. inversion Hp0; subst l0 m0.
  assert (Hw0 : w0 = mkWorld (set_nth (nodes w) src (mkW (w_node ws) (w_ports ws))) (lans w) [lbc s smac data] (trace w))
    by exact (station_submits_bcast w src ws s smac a ALB data Hq Hws Hwsp Ha (or_introl eq_refl)).
  assert (Hsim : shape_sim (nodes w) (nodes w0)) by (rewrite Hw0; apply (shape_set _ _ _ _ _ (shape_refl _) Hws); repeat split).
  destruct (deliver (set_nth (nodes w) src (mkW (w_node ws) (w_ports ws))) (lbc s smac data) (lan_members (lans w) s) [] [OFrame (lbc s smac data)])
    as [[ns' q'] tr'] eqn:Ed.
  assert (Hrun1 : run 1 w0 = mkWorld ns' (lans w) q' (tr' ++ trace w)).
  { cbn [run]. rewrite Hw0. erewrite step_cons by reflexivity. cbn [lans nodes trace].
    change (f_lan (lbc s smac data)) with s. rewrite Ed. reflexivity. }
  destruct (deliver_nodadr _ _ _ _ _ _ _ _ Ed (io_once Hio s) eq_refl eq_refl) as (Hq' & A2).
  rewrite Hw0 in Hsim. cbn [nodes] in Hsim.
  assert (Hmf := fun x Hx => member_local (lans w) (nodes w) s src ws smac data _ x Hio Hws Hwsp Hwss Hok Hsim Hx).
  exists (rev (flat_map (out_obs (set_nth (nodes w) src (mkW (w_node ws) (w_ports ws))) (lbc s smac data)) (lan_members (lans w) s))
          ++ [OFrame (lbc s smac data)]).
  assert (Hhe : hearers (rev (flat_map (out_obs (set_nth (nodes w) src (mkW (w_node ws) (w_ports ws))) (lbc s smac data)) (lan_members (lans w) s))
                         ++ [OFrame (lbc s smac data)])
                = rev (flat_map (hears (nodes w) src) (lan_members (lans w) s))).
  { rewrite hearers_app. cbn [hearers flat_map app]. rewrite app_nil_r, hearers_rev, hearers_flat_map. f_equal.
    apply flat_map_ext_in. exact Hmf. }
  assert (Hq1 : queue (run 1 w0) = []) by (rewrite Hrun1; exact Hq').
  split; [assumption|]. split.
  { apply quiet_forever. assumption. }
  rewrite Hrun1. cbn [trace].
  split; [rewrite A2, <- app_assoc; reflexivity|]. rewrite Hhe. split.
  - apply NoDup_rev. apply hears_nodup. apply (io_once Hio s).
  - intro who. rewrite <- in_rev, in_flat_map. split.
    + intros (x & Hx & Hwx). apply hears_in in Hwx. destruct Hwx as (E & Happ & Hne). subst who. split; [assumption|].
      destruct (io_members Hio _ _ Hx) as [m Hport]. unfold port_of in Hport. unfold appb in Happ.
      destruct (nth_error (nodes w) (fst x)) as [wn|] eqn:Ew; [|discriminate].
      destruct (io_shape Hio _ _ Ew) as [(_ & _ & _ & Hh')|Hst]; [congruence|].
      exists wn. destruct (station_port _ _ _ _ Hst Hport) as [_ Hp]. exists m. auto.
    + intros (Hne & wn & m & Hwn & Hst & Hp). exists (who, 0%nat). split.
      * eapply io_listed; eauto. exact (port_of_station Hwn Hp).
      * pose proof Hst as (_ & _ & _ & _ & _ & _ & Hh'). unfold hears, appb. cbn [fst]. rewrite Hwn, Hh'.
        destruct (Nat.eqb_spec who src); [contradiction|]. left. reflexivity.
Qed.
