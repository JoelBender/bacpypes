(* SsmC11p.v — C11, sender side: the "server" bit of every Abort / SegmentAck a transaction puts on the wire names the
   role that sent it.  A ClientSSM only ever sends them with srv = 0, so the peer looks them up among its SERVER
   transactions; a ServerSSM only with srv = 1 — except that it sends a PDU it was handed (the client's Abort in
   segmented_request / segmented_response, the application's own Abort) back as it is.  Proved along the text of the
   handlers (SsmFrame.v). *)
From Bac Require Import Base PyRt Ssm SsmFacts SsmFrame.
Open Scope Z_scope.

Definition txs_ok (P : apdu -> Prop) (m : M) : Prop :=
  forall st x, In (Tx x) (h_outs (fst (m st))) -> In (Tx x) (h_outs st) \/ P x.

(* txs_ok as an invariant for SsmFrame.inv *)
Definition sends (P : apdu -> Prop) (outs0 : list out) (st : hst) : Prop :=
  forall x, In (Tx x) (h_outs st) -> In (Tx x) outs0 \/ P x.

Lemma txs_of_inv : forall P m, (forall outs0, inv (sends P outs0) m) -> txs_ok P m.
Proof. intros P m H st x. apply (H (h_outs st) st). intros y Hy. left. exact Hy. Qed.

Lemma sends_toapp : forall P outs0 a, inv (sends P outs0) (emit (ToApp a)).
Proof. intros P outs0 a st H x [Hx|Hx]; [discriminate Hx | exact (H x Hx)]. Qed.

Lemma sends_tx : forall (P : apdu -> Prop) outs0 a, P a -> inv (sends P outs0) (emit (Tx a)).
Proof. intros P outs0 a Pa st H x [Hx|Hx]; [injection Hx as <-; right; exact Pa | exact (H x Hx)]. Qed.

(* a segment is a ConfirmedRequest or a ComplexAck: neither an Abort nor a SegmentAck *)
Lemma get_segment_type : forall s i a, get_segment s i = Ok a -> a_type a = 0 \/ a_type a = 3.
Proof.
  intros s i a H. destruct (get_segment_inv _ _ _ H) as (_ & _ & _ & Ht & _). exact Ht.
Qed.

Definition not_ack_abort (P : apdu -> Prop) : Prop := forall a, a_type a = 0 \/ a_type a = 3 -> P a.

Definition is_ack_abort (x : apdu) : Prop := a_type x = 4 \/ a_type x = 7.
Definition client_pdu (x : apdu) : Prop := is_ack_abort x -> a_srv x = false.
(* a0: the PDU the handler was handed, which it may send back as it is *)
Definition server_pdu (a0 : apdu) (x : apdu) : Prop := is_ack_abort x -> a_srv x = true \/ x = a0.

Lemma client_pdu_seg : not_ack_abort client_pdu.
Proof. intros a H [H4|H7]; lia. Qed.
Lemma server_pdu_seg : forall a0, not_ack_abort (server_pdu a0).
Proof. intros a0 a H [H4|H7]; lia. Qed.

(* a frame is a segment (an equation for get_segment is in the context), the PDU handed in, or written out in the handler *)
Ltac txs_prim seg :=
  idtac; lazymatch goal with
  | |- inv _ (emit (ToApp _)) => apply sends_toapp
  | |- inv _ (emit (Tx _)) =>
      apply sends_tx; first [apply seg; eapply get_segment_type; eassumption
                            | intros _; first [reflexivity | left; reflexivity | right; reflexivity]]
  end.
Ltac client_txs := apply txs_of_inv; intro; inv_auto ltac:(txs_prim client_pdu_seg).
Ltac server_txs := apply txs_of_inv; intro; inv_auto ltac:(txs_prim server_pdu_seg).

Lemma c_indication_txs : forall a, txs_ok client_pdu (c_indication a).
Proof. intro a. unfold c_indication, c_abort, send_seg. client_txs. Qed.

Lemma c_confirmation_txs : forall a, txs_ok client_pdu (c_confirmation a).
Proof.
  intro a. unfold c_confirmation, c_segmented_request, c_await_confirmation, c_segmented_confirmation, c_abort, fill_window,
    append_segment.
  client_txs.
Qed.

Lemma c_process_task_txs : txs_ok client_pdu c_process_task.
Proof.
  unfold c_process_task, c_segmented_request_timeout, c_await_confirmation_timeout, c_segmented_confirmation_timeout,
    c_indication, c_abort, send_seg, fill_window.
  client_txs.
Qed.

Lemma s_indication_txs : forall a, txs_ok (server_pdu a) (s_indication a).
Proof.
  intro a. unfold s_indication, s_idle, s_segmented_request, s_await_response, s_segmented_response, s_abort, dec_maxsegs,
    fill_window, append_segment.
  server_txs.
Qed.

Lemma s_confirmation_txs : forall a, txs_ok (server_pdu a) (s_confirmation a).
Proof. intro a. unfold s_confirmation, s_abort, send_seg. server_txs. Qed.

Lemma s_process_task_txs : forall a0, txs_ok (server_pdu a0) s_process_task.
Proof.
  intro a0. unfold s_process_task, s_segmented_request_timeout, s_await_response_timeout, s_segmented_response_timeout, s_abort,
    send_seg, fill_window.
  server_txs.
Qed.

Lemma client_frames_polarity : forall a st x,
  In (Tx x) (h_outs (fst (c_confirmation a st))) \/ In (Tx x) (h_outs (fst (c_indication a st))) \/ In (Tx x) (h_outs (fst (c_process_task st))) ->
  a_type x = 4 \/ a_type x = 7 -> In (Tx x) (h_outs st) \/ (a_srv x = false /\ to_client_side x = false).
Proof.
  intros a st x H Ht.
  assert (Hc : In (Tx x) (h_outs st) \/ client_pdu x).
  { destruct H as [H|[H|H]]; [exact (c_confirmation_txs a st x H) | exact (c_indication_txs a st x H) | exact (c_process_task_txs st x H)]. }
  destruct Hc as [Hc|Hc]; [left; exact Hc|]. right. specialize (Hc Ht). split; [exact Hc|].
  unfold to_client_side. rewrite Hc. lia.
Qed.

Lemma server_frames_polarity : forall a st x,
  In (Tx x) (h_outs (fst (s_indication a st))) \/ In (Tx x) (h_outs (fst (s_confirmation a st))) \/ In (Tx x) (h_outs (fst (s_process_task st))) ->
  a_type x = 4 \/ a_type x = 7 -> In (Tx x) (h_outs st) \/ x = a \/ (a_srv x = true /\ to_client_side x = true).
Proof.
  intros a st x H Ht.
  assert (Hc : In (Tx x) (h_outs st) \/ server_pdu a x).
  { destruct H as [H|[H|H]]; [exact (s_indication_txs a st x H) | exact (s_confirmation_txs a st x H) | exact (s_process_task_txs a st x H)]. }
  destruct Hc as [Hc|Hc]; [left; exact Hc|]. right. destruct (Hc Ht) as [Hs|He]; [right | left; exact He].
  split; [exact Hs|]. unfold to_client_side. rewrite Hs. lia.
Qed.

(* non-vacuity: a client waiting for its answer that is handed a ComplexAck segment number 1 gives up with an Abort, srv = 0 *)
Definition waiting_client : hst :=
  mkH (mkSsm 2 7 AWAIT_CONFIRMATION None 50 1 0 0 true 0 0 None 3 3000 1500 3 (Some 64) 50 false (Some (3000, 0)) None 2 3000) [] 1 0 true.
Lemma client_abort_example :
  h_outs (fst (c_confirmation (mk_cack true true 1 2 7 12 [1; 2]) waiting_client)) = [ToApp (mk_abort false 7 2); Tx (mk_abort false 7 2)].
Proof. vm_compute. reflexivity. Qed.
