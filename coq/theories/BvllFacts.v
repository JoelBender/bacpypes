(* BvllFacts.v — lemmas about the BVLL model (Bvll.v): the registry, the header, the readers, the two table loops. *)
From Bac Require Import Base BytesFacts Bvll.
Open Scope N_scope.

(* table obligations, re-checked by `make` against what the source says; the first: bvl_pdu_types is exactly
   { fn_of_kind k |-> k } for the twelve classes *)
Lemma registry_table_exact :
  forallb (fun f => match lookup_fn f bvl_pdu_types with
                    | Some k => (fn_of_kind k =? f) && (f <? 12)
                    | None => 12 <=? f end)
          (map N.of_nat (seq 0 256)) = true
  /\ forallb (fun k => match lookup_fn (fn_of_kind k) bvl_pdu_types with
                       | Some k' => kind_eqb k k' | None => false end) all_kinds = true
  /\ forallb (fun p => fst p <? 12) bvl_pdu_types = true.
Proof. repeat split; vm_compute; reflexivity. Qed.

Definition table_is (t : list (bvl_class * N)) (f : bvl_class -> N) : bool :=
  forallb (fun k => match lookup_kind k t with Some v => v =? f k | None => false end) all_kinds
  && (length t =? 12)%nat.

Lemma ctor_function_table : table_is bvl_ctor_function fn_of_kind = true.
Proof. vm_compute; reflexivity. Qed.
Lemma message_type_table : table_is bvl_message_type fn_of_kind = true.
Proof. vm_compute; reflexivity. Qed.
Lemma ctor_type_table : table_is bvl_ctor_type (fun _ => 129) = true /\ bvlci_type = 129.
Proof. split; vm_compute; reflexivity. Qed.
Lemma ctor_length_table :
  table_is bvl_ctor_length
    (fun k => ctor_len match k with
       | K_Result => Result None
       | K_WriteBroadcastDistributionTable => WriteBDT []
       | K_ReadBroadcastDistributionTable => ReadBDT
       | K_ReadBroadcastDistributionTableAck => ReadBDTAck []
       | K_ForwardedNPDU => Forwarded ANone []
       | K_RegisterForeignDevice => RegisterFD None
       | K_ReadForeignDeviceTable => ReadFDT
       | K_ReadForeignDeviceTableAck => ReadFDTAck []
       | K_DeleteForeignDeviceTableEntry => DeleteFDT ANone
       | K_DistributeBroadcastToNetwork => Distribute []
       | K_OriginalUnicastNPDU => OrigUnicast []
       | K_OriginalBroadcastNPDU => OrigBroadcast []
       end) = true.
Proof. vm_compute; reflexivity. Qed.

Lemma lookup_fn_bound n f t : forallb (fun p : N * bvl_class => fst p <? n) t = true -> n <= f -> lookup_fn f t = None.
Proof.
  induction t as [|[c k] t IH]; cbn [forallb lookup_fn fst]; intros H Hf; [reflexivity|].
  apply andb_true_iff in H as [Hc Ht]. destruct (c =? f) eqn:E; [lia|]. now apply IH.
Qed.

Lemma kind_eqb_eq k k' : kind_eqb k k' = true -> k = k'.
Proof. destruct k, k'; intros H; (reflexivity || discriminate H). Qed.

Lemma all_kinds_complete k : In k all_kinds.
Proof. destruct k; cbn [all_kinds In]; tauto. Qed.

Lemma registry_unknown f : 12 <= f -> lookup_fn f bvl_pdu_types = None.
Proof. destruct registry_table_exact as (_ & _ & T). now apply lookup_fn_bound. Qed.

Lemma registry_of_kind k : lookup_fn (fn_of_kind k) bvl_pdu_types = Some k.
Proof.
  destruct registry_table_exact as (_ & T & _). rewrite forallb_forall in T. specialize (T k (all_kinds_complete k)).
  destruct (lookup_fn _ _) as [k'|]; [|discriminate]. apply kind_eqb_eq in T. now subst k'.
Qed.

Lemma registry_exact f k : lookup_fn f bvl_pdu_types = Some k <-> fn_of_kind k = f.
Proof.
  split; [|intros <-; apply registry_of_kind]. intros H.
  destruct (N.lt_ge_cases f 12) as [Hf|Hf]; [|rewrite registry_unknown in H by exact Hf; discriminate].
  destruct registry_table_exact as (T & _ & _). rewrite forallb_forall in T. specialize (T f). rewrite H in T.
  apply andb_true_iff in T as [T _]; [now apply N.eqb_eq|].
  apply in_map_iff. exists (N.to_nat f). split; [lia | apply in_seq; lia].
Qed.

Lemma dec_msg_kind k body : dec_msg (fn_of_kind k) body = dec_body k body.
Proof. unfold dec_msg. now rewrite registry_of_kind. Qed.

Lemma dec_msg_unknown f body : 12 <= f -> dec_msg f body = Err DecodingError.
Proof. intros H. unfold dec_msg. now rewrite registry_unknown. Qed.

Lemma dec_msg_cases f body :
  (exists k, fn_of_kind k = f /\ dec_msg f body = dec_body k body) \/ dec_msg f body = Err DecodingError.
Proof.
  unfold dec_msg. destruct (lookup_fn f bvl_pdu_types) as [k|] eqn:K; [left|now right].
  exists k. split; [now apply registry_exact | reflexivity].
Qed.

Lemma fn_of_lt m : fn_of m < 12.
Proof. destruct m; cbv; reflexivity. Qed.

Lemma lenN_nil {A} : lenN (@nil A) = 0.
Proof. reflexivity. Qed.
Lemma lenN_be2 n : lenN (be2 n) = 2.
Proof. reflexivity. Qed.
Lemma lenN_be4 n : lenN (be4 n) = 4.
Proof. reflexivity. Qed.

Lemma ctor_len_frame_len m : ctor_len m = frame_len m.
Proof. destruct m; reflexivity. Qed.
Lemma enc_len_ctor m : enc_len (ctor_len m) m = frame_len m.
Proof. destruct m; reflexivity. Qed.

Definition frame_of (m : msg) (body : list N) : list N := 129 :: fn_of m :: be2 ((lenN body + 4) mod 65536) ++ body.

Lemma lenN_frame_of m body : lenN (frame_of m body) = lenN body + 4.
Proof. unfold frame_of. cbn [be2 app]. rewrite !lenN_cons. lia. Qed.

Lemma frame_of_header m body :
  nth 0 (frame_of m body) 0 = 129 /\ nth 1 (frame_of m body) 0 = fn_of m /\
  nth 2 (frame_of m body) 0 * 256 + nth 3 (frame_of m body) 0 = lenN (frame_of m body) mod 65536.
Proof.
  rewrite lenN_frame_of. unfold frame_of. rewrite be2_small by (apply N.mod_lt; discriminate).
  cbn [nth app]. repeat split. apply div_mod_256.
Qed.

Lemma enc_frame_with_eq stored m :
  enc_frame_with stored m =
  do body <- enc_body m; if enc_len stored m =? lenN body + 4 then Ok (frame_of m body) else Err EncodingError.
Proof.
  unfold enc_frame_with. destruct (enc_body m) as [body|e]; cbn [bind]; [|reflexivity].
  change (put bvlci_type) with (@Ok (list N) [129]). rewrite put_ok by (pose proof (fn_of_lt m); lia). cbn [bind app].
  destruct (_ =? _) eqn:E; cbn [negb]; [|reflexivity]. unfold put_short, frame_of. apply N.eqb_eq in E. now rewrite E.
Qed.

Lemma enc_frame_with_inv stored m bs :
  enc_frame_with stored m = Ok bs ->
  exists body, enc_body m = Ok body /\ enc_len stored m = lenN body + 4 /\ bs = frame_of m body.
Proof.
  rewrite enc_frame_with_eq. destruct (enc_body m) as [body|e]; cbn [bind]; [|discriminate].
  destruct (_ =? _) eqn:E; [|discriminate]. intros [= <-]. exists body. repeat split. now apply N.eqb_eq.
Qed.

Lemma enc_frame_with_ok stored m body :
  enc_body m = Ok body -> enc_len stored m = lenN body + 4 -> enc_frame_with stored m = Ok (frame_of m body).
Proof. intros Hb Hl. rewrite enc_frame_with_eq, Hb, Hl. cbn [bind]. now rewrite N.eqb_refl. Qed.

Lemma enc_frame_ok m body : enc_body m = Ok body -> lenN body + 4 = frame_len m -> enc_frame m = Ok (frame_of m body).
Proof. intros Hb Hl. apply enc_frame_with_ok; [exact Hb|]. now rewrite enc_len_ctor. Qed.

Lemma length_field_mod stored m bs :
  enc_frame_with stored m = Ok bs ->
  nth 2 bs 0 * 256 + nth 3 bs 0 = lenN bs mod 65536.
Proof. intros H. apply enc_frame_with_inv in H as (body & _ & _ & ->). apply frame_of_header. Qed.

Lemma length_field stored m bs :
  enc_frame_with stored m = Ok bs -> lenN bs < 65536 ->
  nth 0 bs 0 = 129 /\ nth 1 bs 0 = fn_of m /\ nth 2 bs 0 * 256 + nth 3 bs 0 = lenN bs.
Proof.
  intros H Hlt. pose proof (length_field_mod _ _ _ H) as L. rewrite N.mod_small in L by exact Hlt.
  apply enc_frame_with_inv in H as (body & _ & _ & ->). repeat split. exact L.
Qed.

Lemma dec_bvlci_eq bs :
  dec_bvlci bs = match bs with
                 | t :: f :: hi :: lo :: body =>
                     if (t =? 129) && (hi * 256 + lo =? lenN body + 4) then Ok (f, hi * 256 + lo, body)
                     else Err DecodingError
                 | _ => Err DecodingError
                 end.
Proof.
  unfold dec_bvlci. destruct bs as [|t [|f [|hi [|lo body]]]]; cbn [get get_short bind]; try reflexivity;
    destruct (t =? 129); cbn [negb andb bind]; try reflexivity.
  destruct (_ =? _); reflexivity.
Qed.

Lemma dec_frame_eq bs :
  dec_frame bs = match bs with
                 | t :: f :: hi :: lo :: body =>
                     if (t =? 129) && (hi * 256 + lo =? lenN body + 4) then dec_msg f body else Err DecodingError
                 | _ => Err DecodingError
                 end.
Proof.
  unfold dec_frame. rewrite dec_bvlci_eq. destruct bs as [|t [|f [|hi [|lo body]]]]; try reflexivity.
  destruct (_ && _); reflexivity.
Qed.

Lemma dec_frame_frame_of m body : lenN body + 4 < 65536 -> dec_frame (frame_of m body) = dec_body (kind_of m) body.
Proof.
  intros L. unfold frame_of. rewrite N.mod_small, be2_small by exact L. rewrite dec_frame_eq. cbn [app].
  rewrite div_mod_256, !N.eqb_refl. apply dec_msg_kind.
Qed.

Lemma dec_frame_inv bs m : dec_frame bs = Ok m ->
  exists f hi lo body, bs = 129 :: f :: hi :: lo :: body /\ hi * 256 + lo = lenN bs /\ dec_msg f body = Ok m.
Proof.
  rewrite dec_frame_eq. destruct bs as [|t [|f [|hi [|lo body]]]]; try discriminate.
  destruct (_ && _) eqn:E; [|discriminate]. intros H. exists f, hi, lo, body. rewrite !lenN_cons.
  repeat split; [f_equal; lia | lia | exact H].
Qed.

Lemma get_short_spec bs :
  match get_short bs with
  | Ok (v, r) => exists a b, bs = a :: b :: r /\ v = a * 256 + b
  | Err e => e = DecodingError
  end.
Proof. destruct bs as [|a [|b r]]; cbn [get_short]; eauto. Qed.

Lemma get_long_spec bs :
  match get_long bs with
  | Ok (v, r) => exists a b c d, bs = a :: b :: c :: d :: r /\ v = a * 16777216 + b * 65536 + c * 256 + d
  | Err e => e = DecodingError
  end.
Proof. destruct bs as [|a [|b [|c [|d r]]]]; cbn [get_long]; eauto 6. Qed.

Lemma dec_addr_spec bs :
  match dec_addr bs with
  | Ok (a, r) => exists l, a = ABytes l /\ bs = l ++ r /\ lenN l = 6
  | Err e => e = DecodingError
  end.
Proof.
  unfold dec_addr. destruct (get_data 6 bs) as [[d r]|e] eqn:E; cbn [bind].
  - apply get_data_ok in E as [-> Hl]. now exists d.
  - unfold get_data in E. destruct (lenN bs <? 6); [now injection E as <- | discriminate].
Qed.

Lemma bytes_ok_cons_andb a l : bytes_ok (a :: l) = (a <? 256) && bytes_ok l.
Proof. reflexivity. Qed.

(* the two table decoders are one loop over ten-octet rows *)
Section Rows.
Context {A : Type} (step : list N -> res (A * list N)) (enc1 : A -> res (list N)).

Fixpoint rows (fuel : nat) (bs : list N) : res (list A) :=
  match bs with
  | [] => Ok []
  | _ => match fuel with
         | O => Err OutOfFuel
         | S f => do (e, r) <- step bs; do t <- rows f r; Ok (e :: t)
         end
  end.

Fixpoint encs (t : list A) : res (list N) :=
  match t with [] => Ok [] | e :: r => do x <- enc1 e; do y <- encs r; Ok (x ++ y) end.

Lemma rows_step f bs : (0 < length bs)%nat ->
  rows (S f) bs = do (e, r) <- step bs; do t <- rows f r; Ok (e :: t).
Proof. destruct bs; cbn [length]; [lia|reflexivity]. Qed.
End Rows.

(* a step takes ten octets, so with as much fuel as there are octets the loop never runs out *)
Lemma rows_spec {A} (step : list N -> res (A * list N)) (wf : A -> bool) :
  (forall bs, match step bs with
              | Ok (e, r) => exists d, bs = d ++ r /\ lenN d = 10 /\ (bytes_ok bs = true -> wf e = true)
              | Err e => e = DecodingError
              end) ->
  forall fuel bs, (length bs <= fuel)%nat ->
  match rows step fuel bs with
  | Ok t => lenN bs = 10 * lenN t /\ (bytes_ok bs = true -> forallb wf t = true)
  | Err e => e = DecodingError
  end.
Proof.
  intros step_spec.
  induction fuel as [|f IH]; intros [|x bs] Hf; cbn [rows length] in *; try (split; [reflexivity|auto]); [lia|].
  pose proof (step_spec (x :: bs)) as S. destruct (step (x :: bs)) as [[e r]|]; cbn [bind]; [|exact S].
  destruct S as (d & E & Hd & W).
  assert (length r < length (x :: bs))%nat by (rewrite E, app_length; unfold lenN in Hd; lia).
  specialize (IH r ltac:(cbn [length] in *; lia)). destruct (rows step f r) as [t|]; cbn [bind]; [|exact IH].
  destruct IH as (L & Wt). split.
  - rewrite E, lenN_app, lenN_cons. lia.
  - intros B. cbn [forallb]. rewrite (W B). rewrite E, bytes_ok_app in B. apply andb_true_iff in B as [_ B]. now rewrite Wt.
Qed.

Lemma rows_encs {A} (step : list N -> res (A * list N)) (wf : A -> bool) (enc1 : A -> res (list N)) :
  (forall e, wf e = true -> exists x, enc1 e = Ok x /\ lenN x = 10 /\ forall rest, step (x ++ rest) = Ok (e, rest)) ->
  forall t, forallb wf t = true ->
  exists body, encs enc1 t = Ok body /\ lenN body = 10 * lenN t /\
    forall fuel, (length body <= fuel)%nat -> rows step fuel body = Ok t.
Proof.
  intros enc1_spec. induction t as [|e t IH]; cbn [forallb encs]; intros H.
  - exists []. repeat split. intros [|f] _; reflexivity.
  - apply andb_true_iff in H as [He Ht]. destruct (IH Ht) as (body & Hb & Hlen & Hdec).
    destruct (enc1_spec e He) as (x & Hx & Lx & Sx). rewrite Hx, Hb; cbn [bind].
    exists (x ++ body). repeat split; [rewrite lenN_app, lenN_cons; lia|].
    intros fuel Hf. rewrite app_length in Hf. unfold lenN in Lx. destruct fuel as [|f]; [lia|].
    rewrite rows_step by (rewrite app_length; lia). rewrite Sx. cbn [bind]. rewrite Hdec by lia. reflexivity.
Qed.

Definition dec_bdte (bs : list N) : res (bdte * list N) :=
  do (a, r) <- dec_addr bs; do (m, r2) <- get_long r; Ok (mkBdte a (Some (Z.of_N m)), r2).
Definition dec_fdte (bs : list N) : res (fdte * list N) :=
  do (a, r) <- dec_addr bs; do (ttl, r2) <- get_short r; do (rem, r3) <- get_short r2;
  Ok (mkFdte a (Some (Z.of_N ttl)) (Some (Z.of_N rem)), r3).

(* the encoders are these loops by conversion (same fixpoint); the decoders only pointwise: dec_bdt_fuel chains the
   reads of one entry and the recursive call in one sequence of binds, rows binds the whole step first *)
Lemma enc_bdt_encs t : enc_bdt t = encs enc_bdte t.
Proof. reflexivity. Qed.
Lemma enc_fdt_encs t : enc_fdt t = encs enc_fdte t.
Proof. reflexivity. Qed.

Lemma dec_bdt_fuel_rows fuel : forall bs, dec_bdt_fuel fuel bs = rows dec_bdte fuel bs.
Proof.
  induction fuel as [|f IH]; intros [|x bs]; try reflexivity. cbn [dec_bdt_fuel rows]. unfold dec_bdte.
  destruct (dec_addr _) as [[a r]|]; cbn [bind]; [|reflexivity].
  destruct (get_long r) as [[m r2]|]; cbn [bind]; [|reflexivity]. now rewrite IH.
Qed.

Lemma dec_fdt_fuel_rows fuel : forall bs, dec_fdt_fuel fuel bs = rows dec_fdte fuel bs.
Proof.
  induction fuel as [|f IH]; intros [|x bs]; try reflexivity. cbn [dec_fdt_fuel rows]. unfold dec_fdte.
  destruct (dec_addr _) as [[a r]|]; cbn [bind]; [|reflexivity].
  destruct (get_short r) as [[t r2]|]; cbn [bind]; [|reflexivity].
  destruct (get_short r2) as [[q r3]|]; cbn [bind]; [|reflexivity]. now rewrite IH.
Qed.

Lemma dec_bdte_spec bs :
  match dec_bdte bs with
  | Ok (e, r) => exists d, bs = d ++ r /\ lenN d = 10 /\ (bytes_ok bs = true -> wf_bdte e = true)
  | Err e => e = DecodingError
  end.
Proof.
  unfold dec_bdte. pose proof (dec_addr_spec bs) as Ha. destruct (dec_addr bs) as [[a r]|]; cbn [bind]; [|exact Ha].
  destruct Ha as (l & -> & -> & Hl).
  pose proof (get_long_spec r) as Hm. destruct (get_long r) as [[m r2]|]; cbn [bind]; [|exact Hm].
  destruct Hm as (a & b & c & d & -> & ->). exists (l ++ [a; b; c; d]).
  split; [now rewrite <- app_assoc|]. split; [rewrite lenN_app, !lenN_cons; cbn; lia|].
  rewrite bytes_ok_app, !bytes_ok_cons_andb. intros B. apply andb_true_iff in B as [Bl B].
  unfold wf_bdte. cbn [b_addr b_mask wf_addr]. rewrite Bl, Hl. cbn [N.eqb Pos.eqb andb]. lia.
Qed.

Lemma dec_fdte_spec bs :
  match dec_fdte bs with
  | Ok (e, r) => exists d, bs = d ++ r /\ lenN d = 10 /\ (bytes_ok bs = true -> wf_fdte e = true)
  | Err e => e = DecodingError
  end.
Proof.
  unfold dec_fdte. pose proof (dec_addr_spec bs) as Ha. destruct (dec_addr bs) as [[a r]|]; cbn [bind]; [|exact Ha].
  destruct Ha as (l & -> & -> & Hl).
  pose proof (get_short_spec r) as Ht. destruct (get_short r) as [[t r2]|]; cbn [bind]; [|exact Ht].
  destruct Ht as (a & b & -> & ->).
  pose proof (get_short_spec r2) as Hq. destruct (get_short r2) as [[q r3]|]; cbn [bind]; [|exact Hq].
  destruct Hq as (c & d & -> & ->). exists (l ++ [a; b; c; d]).
  split; [now rewrite <- app_assoc|]. split; [rewrite lenN_app, !lenN_cons; cbn; lia|].
  rewrite bytes_ok_app, !bytes_ok_cons_andb. intros B. apply andb_true_iff in B as [Bl B].
  unfold wf_fdte. cbn [f_addr f_ttl f_rem wf_addr wf_short]. rewrite Bl, Hl. cbn [N.eqb Pos.eqb andb]. lia.
Qed.
