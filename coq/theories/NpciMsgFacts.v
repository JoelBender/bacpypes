(* NpciMsgFacts.v — lemmas about the twelve network-layer messages of Npci.v and their registry. *)
From Bac Require Import Base BytesFacts Npci NpciFacts.
Open Scope N_scope.

Lemma put_nets_cons n l : put_nets (n :: l) = put_short n ++ put_nets l.
Proof. reflexivity. Qed.

(* octets after a list are read as further networks: the decoder consumes the whole buffer *)
Lemma dec_nets_app l x : wf_nets l = true ->
  dec_nets (put_nets l ++ x) = do l' <- dec_nets x; Ok (l ++ l').
Proof.
  induction l as [|n l IH]; intros H.
  - cbn [put_nets flat_map app]. destruct (dec_nets x); reflexivity.
  - cbn [wf_nets forallb] in H. apply andb_true_iff in H as [Hn Hl].
    rewrite put_nets_cons, put_short_small, <- app_assoc by lia. cbn [app dec_nets].
    rewrite IH by exact Hl. rewrite div_mod_256. destruct (dec_nets x); reflexivity.
Qed.

Lemma nets_roundtrip l : wf_nets l = true -> dec_nets (put_nets l) = Ok l.
Proof.
  intros H. rewrite <- (app_nil_r (put_nets l)), dec_nets_app by exact H.
  cbn [dec_nets bind]. rewrite app_nil_r. reflexivity.
Qed.

Lemma dec_nets_only : only_dec dec_nets.
Proof.
  intros bs. induction bs as [|a|a b r IH] using list_ind2; intros e H; cbn [dec_nets] in H; try congruence.
  destruct (dec_nets r) eqn:E; cbn [bind] in H; [discriminate|]. injection H as <-. exact (IH _ eq_refl).
Qed.

Lemma rtes_roundtrip t : forallb wf_rte t = true ->
  exists bs, enc_rtes t = Ok bs /\ forall r, dec_rtes (length t) (bs ++ r) = Ok (t, r).
Proof.
  induction t as [|e t IH]; intros H.
  - exists []. split; reflexivity.
  - cbn [forallb] in H. apply andb_true_iff in H as [He Ht].
    destruct (IH Ht) as (bs & Eb & Db). unfold wf_rte in He.
    exists (put_short (rt_dnet e) ++ [rt_port e] ++ [lenN (rt_info e)] ++ rt_info e ++ bs).
    split.
    + cbn [enc_rtes]. rewrite !put_ok by lia. cbn [bind]. rewrite Eb. reflexivity.
    + intros r. cbn [length dec_rtes]. rewrite <- app_assoc, get_short_put_short by lia. cbn [app bind get].
      rewrite <- app_assoc, get_data_app. cbn [bind]. rewrite Db. cbn [bind].
      destruct e; reflexivity.
Qed.

Lemma table_roundtrip t : wf_table t = true ->
  exists bs, enc_table t = Ok bs /\ forall r, dec_table (bs ++ r) = Ok (t, r).
Proof.
  intros H. unfold wf_table in H. apply andb_true_iff in H as [Hl Ht].
  destruct (rtes_roundtrip t Ht) as (bs & Eb & Db).
  exists ([lenN t] ++ bs). split.
  - unfold enc_table. rewrite put_ok by lia. cbn [bind]. rewrite Eb. reflexivity.
  - intros r. unfold dec_table. cbn [app get bind].
    unfold lenN at 1. rewrite Nat2N.id. apply Db.
Qed.

Lemma dec_rtes_reader n : reader (dec_rtes n).
Proof.
  induction n as [|n IH]; cbn [dec_rtes]; [apply reader_ret|].
  apply reader_bind; [exact get_short_reader|intros dnet]. apply reader_bind; [exact get_reader|intros port].
  apply reader_bind; [exact get_reader|intros ilen]. apply reader_bind; [apply get_data_reader|intros info].
  apply reader_bind; [exact IH|intros rest]. apply reader_ret.
Qed.

Lemma dec_table_reader : reader dec_table.
Proof. unfold dec_table. apply reader_bind; [exact get_reader|intros n]. apply dec_rtes_reader. Qed.

Lemma msg_roundtrip m : wf_msg m = true ->
  exists bs, enc_msg m = Ok bs /\ dec_msg (msg_type m) bs = Ok (m, []).
Proof.
  (* the encoder's side first: the octets written, where a table is not involved *)
  destruct m as [[n|] | l | n p | x n | l | l | t | t | n p | n | | n p]; cbn [wf_msg]; intros H;
    cbn [enc_msg msg_type dec_msg N.eqb Pos.eqb]; rewrite ?put_ok by lia; cbn [bind].
  - eexists. split; [reflexivity|]. rewrite put_short_small by lia. cbn [get_short bind]. rewrite div_mod_256. reflexivity.
  - eexists. split; reflexivity.
  - eexists. split; [reflexivity|]. rewrite nets_roundtrip by assumption. reflexivity.
  - eexists. split; [reflexivity|]. rewrite get_short_put_short by lia. reflexivity.
  - eexists. split; [reflexivity|]. rewrite put_short_small by lia. cbn [app get bind]. rewrite get_short_net. reflexivity.
  - eexists. split; [reflexivity|]. rewrite nets_roundtrip by assumption. reflexivity.
  - eexists. split; [reflexivity|]. rewrite nets_roundtrip by assumption. reflexivity.
  - destruct (table_roundtrip t H) as (bs & Eb & Db). exists bs. split; [exact Eb|].
    rewrite <- (app_nil_r bs), Db. reflexivity.
  - destruct (table_roundtrip t H) as (bs & Eb & Db). exists bs. split; [exact Eb|].
    rewrite <- (app_nil_r bs), Db. reflexivity.
  - eexists. split; [reflexivity|]. rewrite get_short_put_short by lia. reflexivity.
  - eexists. split; [reflexivity|]. rewrite <- (app_nil_r (put_short n)), get_short_put_short by lia. reflexivity.
  - eexists. split; reflexivity.
  - eexists. split; [reflexivity|]. rewrite get_short_put_short by lia. reflexivity.
Qed.

Lemma msg_type_registered m : In (msg_type m) registered_types.
Proof. destruct m; cbn; tauto. Qed.

Lemma registered_nodup : NoDup registered_types /\ length registered_types = 12%nat.
Proof.
  split; [|reflexivity].
  unfold registered_types.
  repeat (constructor; [cbn [In]; intros H; repeat destruct H as [H|H]; try discriminate H; exact H|]).
  constructor.
Qed.

Lemma dec_msg_unregistered t bs : ~ In t registered_types -> dec_msg t bs = Err KeyErr.
Proof.
  intros H. unfold dec_msg.
  repeat match goal with
  | |- context [if ?t =? ?k then _ else _] =>
      destruct (t =? k) eqn:?E;
      [exfalso; apply H; assert (t = k) as -> by lia; cbn; tauto|]
  end.
  reflexivity.
Qed.

(* the types of the messages whose decoder reads a fixed sequence of fields (fixed_msg in NpciBodyFacts.v) *)
Definition fixed_types : list N := [2; 3; 6; 7; 8; 9; 0x12; 0x13].

Lemma dec_msg_reader t : In t fixed_types -> reader (dec_msg t).
Proof.
  intros Ht. cbn [In fixed_types] in Ht.
  repeat destruct Ht as [Ht|Ht]; try contradiction; subst t; unfold dec_msg; cbn [N.eqb Pos.eqb].
  - apply reader_bind; [exact get_short_reader|intros n]. apply reader_bind; [exact get_reader|intros p]. apply reader_ret.
  - apply reader_bind; [exact get_reader|intros x]. apply reader_bind; [exact get_short_reader|intros n]. apply reader_ret.
  - apply reader_bind; [exact dec_table_reader|intros tb]. apply reader_ret.
  - apply reader_bind; [exact dec_table_reader|intros tb]. apply reader_ret.
  - apply reader_bind; [exact get_short_reader|intros n]. apply reader_bind; [exact get_reader|intros x]. apply reader_ret.
  - apply reader_bind; [exact get_short_reader|intros n]. apply reader_ret.
  - apply reader_ret.
  - apply reader_bind; [exact get_short_reader|intros n]. apply reader_bind; [exact get_reader|intros f]. apply reader_ret.
Qed.

Lemma dec_msg_registered t : In t registered_types -> only_dec (dec_msg t).
Proof.
  intros H. cbn [In registered_types] in H.
  repeat destruct H as [H|H]; try contradiction; subst t; try (refine (proj2 (dec_msg_reader _ _)); cbn; tauto);
    intros bs e H; cbn [dec_msg N.eqb Pos.eqb] in H.
  - destruct bs as [|a [|b bs]]; cbn in H; congruence.
  - destruct (dec_nets bs) eqn:E; cbn [bind] in H; [discriminate|]. injection H as <-. exact (dec_nets_only _ _ E).
  - destruct (dec_nets bs) eqn:E; cbn [bind] in H; [discriminate|]. injection H as <-. exact (dec_nets_only _ _ E).
  - destruct (dec_nets bs) eqn:E; cbn [bind] in H; [discriminate|]. injection H as <-. exact (dec_nets_only _ _ E).
Qed.

Lemma dec_msg_type t bs m r : dec_msg t bs = Ok (m, r) -> msg_type m = t.
Proof.
  unfold dec_msg.
  repeat match goal with
  | |- context [if ?t =? ?k then _ else _] =>
      destruct (t =? k) eqn:?E; [assert (t = k) as -> by lia; clear E|]
  end; intros H; try discriminate;
  repeat match type of H with
  | match ?l with [] => _ | _ :: _ => _ end = _ => destruct l
  | bind ?m _ = Ok _ => destruct m as [[? ?]|] eqn:?; cbn [bind] in H; [|discriminate]
  | bind ?m _ = Ok _ => destruct m eqn:?; cbn [bind] in H; [|discriminate]
  end; injection H as <- _; reflexivity.
Qed.

Lemma registry t :
  (In t registered_types <-> forall bs, dec_msg t bs <> Err KeyErr).
Proof.
  split.
  - intros H bs E. apply (dec_msg_registered t H) in E. discriminate.
  - intros H. destruct (in_dec N.eq_dec t registered_types) as [I|I]; [exact I|].
    exfalso. exact (H [] (dec_msg_unregistered t [] I)).
Qed.

Lemma frame_roundtrip h m :
  wf_npci (with_msg h (msg_type m)) = true -> wf_msg m = true ->
  exists bs, enc_frame h m = Ok bs
    /\ dec_frame bs = Ok (control_of (with_msg h (msg_type m)), with_msg h (msg_type m), m, []).
Proof.
  intros Hh Hm.
  destruct (msg_roundtrip m Hm) as (b & Eb & Db).
  destruct (npci_roundtrip (with_msg h (msg_type m)) b Hh) as (hd & Eh & Dh).
  exists (hd ++ b). split.
  - unfold enc_frame. rewrite Eb. cbn [bind]. rewrite Eh. reflexivity.
  - unfold dec_frame. rewrite Dh. cbn [bind snd fst nmsg with_msg]. rewrite Db. reflexivity.
Qed.
