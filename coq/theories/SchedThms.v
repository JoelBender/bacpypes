(* SchedThms.v — what holds after every history (run_ops), each as an instance of SchedFacts.run_ops_I: the queue
   invariant with "never early, least entry first", one firing per installation, no firing of a task that is not
   queued unless an installation is recorded; what installing and suspending do to the queue; next-slot arithmetic. *)
From Bac Require Import Base ListFacts Deferred DeferredFacts Sched SchedFacts.
From Coq Require Import Permutation Sorted.
Open Scope Z_scope.

Lemma install_inv : forall s i f s', Inv s ->
  (f = ttime s \/ exists t, f = upd (ttime s) i (Some t)) -> tm_install (set_ttime s f) i = Ok s' -> Inv s'.
Proof.
  intros s i f s' Hi Hf T.
  assert (Hb : InvBut i (set_ttime s f)).
  { destruct Hf as [->|[t ->]]; [rewrite set_ttime_id; apply Inv_InvBut, Hi | apply InvBut_set_time, Hi]. }
  destruct (tm_install_facts _ _ _ Hb T) as [t [_ [H _]]]. exact H.
Qed.

Definition ev_ok (x : event) : Prop :=
  match x with
  | EvFire _ due _ at_ => due <= at_
  | EvPop e rest => forall y, In y rest -> elt e y
  | _ => True
  end.

Lemma run_ops_inv_events : forall guard jit c ops s s' ev, Inv s -> run_ops guard jit c s ops = (s', ev) ->
  Inv s' /\ Forall ev_ok ev.
Proof.
  intros guard jit c ops s s' ev Hi H.
  refine (run_ops_I (fun s acc => Inv s /\ Forall ev_ok acc) guard jit c _ _ _ _ _ _ ops s [] s' ev
            (conj Hi (Forall_nil _)) H).
  - (* I_pop *) intros s0 acc e s1 z [Hi0 Ha] G. split; [eapply get_next_inv; eassumption|].
    destruct (get_next_some _ _ _ _ G) as [rest [Hh [Hd [-> _]]]]. cbn [heap].
    apply Forall_app. split; [exact Ha|]. constructor; [exact (Inv_head_min _ _ _ Hi0 Hh)|].
    constructor; [exact Hd | constructor].
  - (* I_dq *) intros s0 acc q [Hi0 Ha]. split; [apply Inv_set_dq, Hi0 | exact Ha].
  - (* I_noise *) intros s0 acc ev0 [Hi0 Ha] Hn. split; [exact Hi0|]. apply Forall_app. split; [exact Ha|].
    apply Forall_forall. intros x Hx. apply Hn in Hx. destruct x; try discriminate Hx; exact I.
  - (* I_suspend *) intros s0 acc i [Hi0 Ha]. split; [apply tm_suspend_inv, Hi0 | exact Ha].
  - (* I_install *) intros s0 acc i f s1 auto [Hi0 Ha] Hf T. split; [eapply install_inv; eassumption|].
    apply Forall_app. split; [exact Ha|]. constructor; [exact I | constructor].
  - (* I_now *) intros s0 acc t [Hi0 Ha]. split; [apply Inv_set_now, Hi0 | exact Ha].
Qed.

Lemma reach_inv : forall guard jit c ops s' ev, run_ops guard jit c st0 ops = (s', ev) -> Inv s'.
Proof. intros guard jit c ops s' ev H. exact (proj1 (run_ops_inv_events _ _ _ _ _ _ _ Inv_st0 H)). Qed.

Lemma step_inv : forall guard jit c o s s' ev, Inv s -> step guard jit c s o = (s', ev) -> Inv s'.
Proof.
  intros guard jit c o s s' ev Hi H. apply (run_ops_inv_events guard jit c [o] s s' (ev ++ []) Hi).
  cbn [run_ops]. rewrite H. reflexivity.
Qed.

Lemma reach_one_entry : forall guard jit c ops s' ev, run_ops guard jit c st0 ops = (s', ev) ->
  NoDup (map e_tid (heap s')).
Proof. intros. apply reach_inv in H. apply Inv_nodup, H. Qed.

Lemma install_moves : forall c s i t s', Inv s -> do_install_when c s i t = Ok s' ->
  In (t, ctr s, i) (heap s') /\
  (forall x, In x (heap s') -> e_tid x = i -> x = (t, ctr s, i)) /\
  (forall x, e_tid x <> i -> (In x (heap s') <-> In x (heap s))) /\
  length (heap s') = (if sched s i then length (heap s) else S (length (heap s))).
Proof.
  intros c s i t s' Hi H. unfold do_install_when in H.
  destruct (t_kind (cfg_get c i)); [|discriminate].
  pose proof (InvBut_set_time s i (Some t) Hi) as Hb.
  destruct (tm_install_facts _ _ _ Hb H) as [t' [Ht' [_ [Hni Hp]]]].
  cbn [ttime set_ttime] in Ht'. rewrite upd_same in Ht'. inversion Ht'; subst t'. clear Ht'.
  cbn [ctr set_ttime] in Hp. destruct Hb as [Hw _].
  destruct (tm_suspend_facts _ i Hw) as [_ [_ [Hin Hin']]]. cbn [heap set_ttime] in Hin, Hin'.
  pose proof (tm_suspend_heap (set_ttime s (upd (ttime s) i (Some t))) i) as Hh. cbn [heap set_ttime] in Hh.
  set (s1 := tm_suspend (set_ttime s (upd (ttime s) i (Some t))) i) in *.
  split; [apply (Permutation_in _ (Permutation_sym Hp)); left; reflexivity|].
  split; [|split].
  - intros x Hx Hxi. apply (Permutation_in _ Hp) in Hx. destruct Hx as [<-|Hx]; [reflexivity|].
    exfalso. apply Hni. rewrite <- Hxi. apply in_map, Hx.
  - intros x Hx. split; intros Hi'.
    + apply (Permutation_in _ Hp) in Hi'. destruct Hi' as [<-|Hi']; [cbn in Hx; contradiction | apply Hin, Hi'].
    + apply (Permutation_in _ (Permutation_sym Hp)). right. apply Hin'; assumption.
  - rewrite (Permutation_length Hp). cbn [length]. destruct (sched s i) eqn:S.
    + destruct Hh as [Hh|[e [_ Hp']]]; [|rewrite (Permutation_length Hp'); reflexivity].
      exfalso. apply Hni. rewrite Hh. apply (Inv_sched s i Hi), S.
    + subst s1. rewrite (tm_suspend_unsched _ i Hw S). reflexivity.
Qed.

Lemma suspend_removes : forall s i, Inv s ->
  ~ In i (map e_tid (heap (tm_suspend s i))) /\ sched (tm_suspend s i) i = false.
Proof.
  intros s i Hi. destruct (tm_suspend_facts s i (proj1 Hi)) as [_ [Hni _]].
  split; [exact Hni|]. destruct (sched (tm_suspend s i) i) eqn:S; [|reflexivity].
  exfalso. apply Hni, (Inv_sched _ i (tm_suspend_inv s i Hi)), S.
Qed.

Definition fired (ev : list event) : list entry :=
  flat_map (fun x => match x with EvFire i due n _ => [(due, n, i)] | _ => [] end) ev.

Lemma fired_app : forall a b, fired (a ++ b) = fired a ++ fired b.
Proof. intros. apply flat_map_app. Qed.

Lemma fired_noise : forall ev, noise ev -> fired ev = [].
Proof.
  induction ev as [|x ev IH]; intros Hn; [reflexivity|].
  cbn [fired flat_map]. pose proof (Hn x (or_introl eq_refl)) as Hx.
  destruct x; try discriminate; cbn [app]; apply IH; intros y Hy; apply Hn; right; exact Hy.
Qed.

Lemma fired_pop : forall acc e rest s, fired (acc ++ [EvPop e rest; fire_of s e]) = fired acc ++ [e].
Proof. intros acc [[w n] i] rest s. rewrite fired_app. reflexivity. Qed.

Definition seqs (l : list entry) : list N := map e_seq l.
Definition OnceOn (acc : list event) (h : list entry) (c : N) : Prop :=
  NoDup (seqs (fired acc) ++ seqs h) /\ forall n, In n (seqs (fired acc) ++ seqs h) -> (n < c)%N.
Definition Once (s : st) (acc : list event) : Prop := OnceOn acc (heap s) (ctr s).

Lemma Once_perm : forall acc i h0 c h c', OnceOn acc h0 c -> less_one_of i h0 h -> (c <= c')%N -> OnceOn acc h c'.
Proof.
  intros acc i h0 c h c' [Hn Hb] Hh Hc. destruct Hh as [->|[e [_ Hp]]].
  - split; [exact Hn|]. intros n Hi. apply Hb in Hi. lia.
  - assert (Hp' : Permutation (seqs (fired acc) ++ seqs h0) (e_seq e :: seqs (fired acc) ++ seqs h)).
    { unfold seqs at 2. rewrite (Permutation_map e_seq Hp). cbn [map]. symmetry. apply Permutation_middle. }
    pose proof (Permutation_NoDup Hp' Hn) as Hn'. inversion Hn'; subst.
    split; [assumption|]. intros n Hi. assert (Hi' : In n (seqs (fired acc) ++ seqs h0)).
    { apply (Permutation_in _ (Permutation_sym Hp')). right. exact Hi. }
    apply Hb in Hi'. lia.
Qed.

Lemma Once_add : forall acc h t c i h', OnceOn acc h c -> Permutation h' ((t, c, i) :: h) -> OnceOn acc h' (c + 1).
Proof.
  intros acc h t c i h' [Hn Hb] Hp.
  assert (Hp' : Permutation (seqs (fired acc) ++ seqs h') (c :: seqs (fired acc) ++ seqs h)).
  { unfold seqs at 2. rewrite (Permutation_map e_seq Hp). cbn [map e_seq fst snd]. symmetry. apply Permutation_middle. }
  split.
  - apply (Permutation_NoDup (Permutation_sym Hp')). constructor; [|exact Hn].
    intros Hi. apply Hb in Hi. lia.
  - intros n Hi. apply (Permutation_in _ Hp') in Hi. destruct Hi as [<-|Hi]; [lia|]. apply Hb in Hi. lia.
Qed.

Lemma fired_ghost1 : forall x, match x with EvFire _ _ _ _ => False | _ => True end -> fired [x] = [].
Proof. intros [] H; try reflexivity. destruct H. Qed.

Lemma run_ops_once : forall guard jit c ops s s' ev, Once s [] ->
  run_ops guard jit c s ops = (s', ev) -> Once s' ev.
Proof.
  intros guard jit c ops s s' ev H0 H.
  refine (run_ops_I Once guard jit c _ _ _ _ _ _ ops s [] s' ev H0 H).
  - (* I_pop: the head moves from the queue to the end of the fired list *)
    intros s0 acc e s1 z [Hn Hb] G.
    destruct (get_next_some _ _ _ _ G) as [rest [Hh [_ [-> _]]]].
    unfold Once, OnceOn. cbn [heap ctr]. rewrite fired_pop, Hh in *. unfold seqs in *. rewrite map_app, <- app_assoc.
    split; assumption.
  - (* I_dq *) intros s0 acc q Ho. exact Ho.
  - (* I_noise *) intros s0 acc ev0 Ho Hn. unfold Once, OnceOn. rewrite fired_app, (fired_noise _ Hn), app_nil_r. exact Ho.
  - (* I_suspend *) intros s0 acc i Ho. destruct (tm_suspend_frame s0 i) as [_ [Hc _]].
    unfold Once. rewrite Hc. exact (Once_perm _ _ _ _ _ _ Ho (tm_suspend_heap s0 i) (N.le_refl _)).
  - (* I_install: the new entry carries the counter, which then moves on *)
    intros s0 acc i f s1 auto Ho _ T.
    destruct (tm_install_heap _ _ _ T) as [t [h1 [_ [Hh1 Hp]]]]. destruct (tm_install_frame _ _ _ T) as [_ [Hc _]].
    cbn [heap ctr set_ttime] in *. unfold Once, OnceOn. rewrite fired_app. cbn [fired flat_map app]. rewrite app_nil_r, Hc.
    apply (Once_add acc h1 t (ctr s0) i); [|exact Hp]. exact (Once_perm _ _ _ _ _ _ Ho Hh1 (N.le_refl _)).
  - (* I_now *) intros s0 acc t Ho. exact Ho.
Qed.

Lemma reach_once : forall guard jit c ops s' ev, run_ops guard jit c st0 ops = (s', ev) ->
  NoDup (seqs (fired ev)).
Proof.
  intros guard jit c ops s' ev H. apply run_ops_once in H.
  - destruct H as [Hn _]. exact (proj1 (nodup_app_inv _ _ Hn)).
  - split; [constructor | intros n []].
Qed.

Definition fire_tid (x : event) : option nat := match x with EvFire i _ _ _ => Some i | _ => None end.
Definition is_inst (i : nat) (x : event) : bool := match x with EvInst j _ => Nat.eqb j i | _ => false end.
Definition has_inst (i : nat) (acc : list event) : bool := existsb (is_inst i) acc.
(* once an installation of i is on record nothing more is claimed: only an installation can queue i again *)
Definition Quiet (i : nat) (s : st) (acc : list event) : Prop :=
  has_inst i acc = true \/ (~ In i (map e_tid (heap s)) /\ forall x, In x acc -> fire_tid x <> Some i).

Lemma has_inst_app_l : forall i a b, has_inst i a = true -> has_inst i (a ++ b) = true.
Proof. intros i a b H. unfold has_inst in *. rewrite existsb_app, H. reflexivity. Qed.

Lemma run_ops_quiet : forall guard jit c i ops s s' ev,
  ~ In i (map e_tid (heap s)) -> run_ops guard jit c s ops = (s', ev) ->
  has_inst i ev = false -> forall x, In x ev -> fire_tid x <> Some i.
Proof.
  intros guard jit c i ops s s' ev H0 H Hno.
  assert (HQ : Quiet i s' ([] ++ ev)).
  { refine (run_ops_I (Quiet i) guard jit c _ _ _ _ _ _ ops s [] s' ev _ H).
    - (* I_pop *) intros s0 acc e s1 z [Hl|[Hq Hf]] G; [left; apply has_inst_app_l, Hl|]. right.
      destruct (get_next_some _ _ _ _ G) as [rest [Hh [_ [-> _]]]]. cbn [heap].
      rewrite Hh in Hq. cbn [map] in Hq. split; [intros Hi; apply Hq; right; exact Hi|].
      intros x Hx. apply in_app_or in Hx. destruct Hx as [Hx|[<-|[<-|[]]]]; [apply Hf, Hx | discriminate|].
      cbn. intros Heq. inversion Heq. apply Hq. left. assumption.
    - (* I_dq *) intros s0 acc q Hq. exact Hq.
    - (* I_noise *) intros s0 acc ev0 [Hl|[Hq Hf]] Hn; [left; apply has_inst_app_l, Hl|]. right. split; [exact Hq|].
      intros x Hx. apply in_app_or in Hx.
      destruct Hx as [Hx|Hx]; [apply Hf, Hx|]. apply Hn in Hx. destruct x; try discriminate; cbn; discriminate.
    - (* I_suspend *) intros s0 acc j [Hl|[Hq Hf]]; [left; exact Hl|]. right. split; [|exact Hf].
      exact (less_one_of_tids _ _ _ _ (tm_suspend_heap s0 j) Hq).
    - (* I_install *) intros s0 acc j f s1 auto [Hl|[Hq Hf]] _ T; [left; apply has_inst_app_l, Hl|].
      destruct (Nat.eq_dec j i) as [->|Hne].
      + left. unfold has_inst. rewrite existsb_app. cbn [existsb is_inst]. rewrite Nat.eqb_refl.
        rewrite orb_true_r. reflexivity.
      + right. destruct (tm_install_heap _ _ _ T) as [t [h1 [_ [Hh1 Hp]]]]. cbn [heap set_ttime] in *. split.
        * intros Hi. apply (Permutation_in _ (Permutation_map e_tid Hp)) in Hi. cbn [map e_tid snd] in Hi.
          destruct Hi as [Hi|Hi]; [congruence | exact (less_one_of_tids _ _ _ _ Hh1 Hq Hi)].
        * intros x Hx. apply in_app_or in Hx. destruct Hx as [Hx|[<-|[]]]; [apply Hf, Hx | discriminate].
    - (* I_now *) intros s0 acc t Hq. exact Hq.
    - right. split; [exact H0 | intros x []]. }
  cbn [app] in HQ. destruct HQ as [Hl|[_ Hf]]; [congruence | exact Hf].
Qed.

Lemma next_slot_spec : forall jit iv off t, 0 < iv ->
  let k := (t + jit - off) / iv + 1 in
  next_slot jit iv off t = off + iv * k /\ off + iv * k - iv <= t + jit < off + iv * k.
Proof.
  intros jit iv off t Hiv. unfold next_slot. cbv zeta.
  pose proof (Z.div_mod (t + jit - off) iv ltac:(lia)) as Hd.
  pose proof (Z.mod_pos_bound (t + jit - off) iv Hiv) as Hm.
  set (q := (t + jit - off) / iv) in *. set (m := (t + jit - off) mod iv) in *.
  replace (iv * (q + 1)) with (iv * q + iv) by ring. lia.
Qed.

Lemma next_slot_after : forall jit iv off t, 0 < iv -> 0 <= jit -> t < next_slot jit iv off t <= t + jit + iv.
Proof. intros. destruct (next_slot_spec jit iv off t H) as [-> ?]. lia. Qed.

Lemma next_slot_grid : forall jit iv off t, 0 < iv -> 0 <= jit ->
  exists k, next_slot jit iv off t = off + iv * k /\ t + jit < off + iv * k /\
            (forall m, t + jit < off + iv * m -> k <= m) /\ t < next_slot jit iv off t.
Proof.
  intros jit iv off t Hiv Hj. destruct (next_slot_spec jit iv off t Hiv) as [He Hb].
  exists ((t + jit - off) / iv + 1). rewrite He. set (k := (t + jit - off) / iv + 1) in *. clearbody k.
  split; [reflexivity|]. split; [lia|]. split; [intros m Hm; nia | lia].
Qed.

Lemma next_slot_successive : forall jit iv off k, 0 < iv -> 0 <= jit < iv ->
  next_slot jit iv off (off + iv * k) = off + iv * (k + 1).
Proof.
  intros jit iv off k Hiv Hj. destruct (next_slot_spec jit iv off (off + iv * k) Hiv) as [-> Hb].
  set (K := (off + iv * k + jit - off) / iv + 1) in *. clearbody K.
  (* Hb says iv * (K - 1) <= iv * k + jit < iv * K; with 0 <= jit < iv, dividing by iv leaves K - 1 <= k < K *)
  assert (K - 1 < k + 1) by nia. assert (k < K) by nia. f_equal. f_equal. lia.
Qed.

(* a late firing skips the slots that have passed: the next one is the first after the clock *)
Lemma next_slot_late : forall jit iv off k t, 0 < iv -> 0 <= jit ->
  off + iv * k <= t + jit < off + iv * (k + 1) -> next_slot jit iv off t = off + iv * (k + 1).
Proof.
  intros jit iv off k t Hiv Hj Hb. destruct (next_slot_spec jit iv off t Hiv) as [-> Hc].
  set (K := (t + jit - off) / iv + 1) in *. clearbody K.
  (* t + jit lies in slot K - 1 (Hc) and in slot k (Hb); two slots of width iv that share a point are the same *)
  assert (K - 1 < k + 1) by nia. assert (k < K) by nia. f_equal. f_equal. lia.
Qed.
