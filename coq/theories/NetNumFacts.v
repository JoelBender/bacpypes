(* NetNumFacts.v — lemmas about network-number learning (NetNum.v, property C06). *)
From Bac Require Import Base Net NetFacts NetNum.
Open Scope N_scope.

(* what an event can do to the node itself *)
Inductive node_change (n : node) : node -> Prop :=
| nc_same : node_change n n
| nc_pending : forall p, node_change n (set_pending n p)
| nc_learn : forall i a m dn, nth_adapter n i = Some a ->
    node_change n (set_cache n (cache_update (rcache n) (a_net a) m dn))
| nc_arrive : forall i src dst p n' acts, process_npdu n i src dst p = (n', acts) -> node_change n n'
| nc_number : forall i ai net, nth_adapter n i = Some ai ->
    node_change n (set_net n net (cache_rekey (rcache n) (a_net ai) (Some net))).

Lemma indication_change : forall n d data, node_change n (fst (indication n d data)).
Proof.
  intros n d data. unfold indication.
  destruct (nth_adapter n (local_idx n)) as [la|]; [|constructor].
  destruct (negb (modelled_config n)); [constructor|].
  destruct d; try constructor;
    (destruct (optN_eqb (Some net) (a_net la)); [constructor|];
     destruct (pending_get (pending n) net); [constructor|];
     destruct (find_path n net) as [[j m']|]; constructor).
Qed.

Lemma do_event_change : forall n e n' acts, do_event n e = (n', acts) -> node_change n n'.
Proof.
  intros n e n' acts H. destruct e as [i m dn | d data | i s d p | d r data]; cbn [do_event] in H.
  - destruct (nth_adapter n i) eqn:Ea; inversion H; subst; [eapply nc_learn; exact Ea|constructor].
  - pose proof (indication_change n d data) as Hc. rewrite H in Hc. exact Hc.
  - eapply nc_arrive. exact H.
  - unfold indication_routed in H. destruct (nth_adapter n (local_idx n)); [|inversion H; subst; constructor].
    destruct d; inversion H; subst; constructor.
Qed.

Lemma xprocess_change : forall x i src dst p x' acts,
  xprocess x i src dst p = (x', acts) -> node_change (x_node x) (x_node x').
Proof.
  intros x i src dst p x' acts H. unfold xprocess in H.
  assert (Hother : lift x (process_npdu (x_node x) i src dst p) = (x', acts) -> node_change (x_node x) (x_node x')).
  { unfold lift. destruct (process_npdu (x_node x) i src dst p) as [n1 a1] eqn:E. cbn. intro H1. inversion H1; subst.
    eapply nc_arrive. exact E. }
  destruct (n_msg p) as [t|]; [|exact (Hother H)].
  destruct ((t =? 18) || (t =? 19)); [|exact (Hother H)].
  destruct (nth_adapter (x_node x) i) as [ai|] eqn:Ea; [|inversion H; subst; constructor].
  destruct (negb (modelled_config (x_node x))); [inversion H; subst; constructor|].
  destruct (n_dadr p); [inversion H; subst; constructor|].
  destruct (n_sadr p); [inversion H; subst; constructor|].
  destruct (t =? 18).
  - unfold nse_what_num in H. destruct (a_net ai); [|inversion H; subst; constructor].
    destruct dst; [|inversion H; subst; constructor].
    destruct (negb (is_router (x_node x)) && (x_task x =? 0)); inversion H; subst; constructor.
  - destruct (dec_num_is (n_data p)) as [[net flag]|e]; [|inversion H; subst; constructor].
    unfold nse_num_is in H. destruct dst; [|inversion H; subst; constructor].
    (* the only place where the adapter is re-filed *)
    destruct (a_net ai) as [old|] eqn:En.
    + destruct (old =? net); [inversion H; subst; constructor|].
      destruct (conf_of x =? 1); inversion H; subst; cbn [x_node]; [constructor|]. rewrite <- En. eapply nc_number. exact Ea.
    + inversion H; subst; cbn [x_node]. rewrite <- En. eapply nc_number. exact Ea.
Qed.

Lemma do_xevent_change : forall x e x' acts, do_xevent x e = (x', acts) -> node_change (x_node x) (x_node x').
Proof.
  intros x e x' acts H. destruct e as [e| | |]; cbn [do_xevent] in H.
  - destruct e as [i m dn | d data | i s d p | d r data];
      try (unfold lift in H;
           match type of H with context [do_event ?a ?b] => destruct (do_event a b) as [n1 a1] eqn:E end;
           cbn in H; inversion H; subst; cbn; exact (do_event_change _ _ _ _ E)).
    exact (xprocess_change _ _ _ _ _ _ _ H).
  - inversion H; subst; constructor.
  - inversion H; subst; constructor.
  - destruct (x_task x =? 1); [|inversion H; subst; constructor].
    destruct (nth_adapter (x_node x) 0); inversion H; subst; constructor.
Qed.

(* a reflexive and transitive relation that every such change respects holds over any history of events *)
Lemma run_xscript_change : forall R : node -> node -> Prop,
  (forall n, R n n) -> (forall a b c, R a b -> R b c -> R a c) -> (forall n n', node_change n n' -> R n n') ->
  forall es x x' l, run_xscript x es = (x', l) -> R (x_node x) (x_node x').
Proof.
  intros R Hrefl Htrans Hstep. induction es as [|e r IH]; intros x x' l H; cbn [run_xscript] in H.
  - inversion H; subst. apply Hrefl.
  - destruct (do_xevent x e) as [x1 a] eqn:E1. destruct (run_xscript x1 r) as [x2 l2] eqn:E2.
    inversion H; subst. exact (Htrans _ _ _ (Hstep _ _ (do_xevent_change _ _ _ _ E1)) (IH _ _ _ E2)).
Qed.

Definition same_ports (a b : node) : Prop :=
  length (adapters b) = length (adapters a) /\ map a_mac (adapters b) = map a_mac (adapters a) /\ has_app b = has_app a.

Lemma same_ports_refl : forall n, same_ports n n.
Proof. intro n; repeat split. Qed.

Lemma same_ports_trans : forall a b c, same_ports a b -> same_ports b c -> same_ports a c.
Proof. unfold same_ports; intros a b c (A1 & A2 & A3) (B1 & B2 & B3). repeat split; congruence. Qed.

Lemma node_change_ports : forall n n', node_change n n' -> same_ports n n'.
Proof.
  intros n n' H. destruct H as [|pd|i a m dn _|i src dst p n' acts H|i ai net _]; try (repeat split; fail).
  - destruct (process_npdu_split _ _ _ _ _ _ _ H) as (Ha & Hb & _). unfold same_ports. rewrite Ha, Hb. repeat split.
  - unfold set_net. destruct (adapters n) as [|a [|b r]] eqn:E; unfold same_ports; cbn; rewrite ?E; auto.
Qed.

Lemma run_xscript_ports : forall es x x' l, run_xscript x es = (x', l) -> same_ports (x_node x) (x_node x').
Proof. exact (run_xscript_change same_ports same_ports_refl same_ports_trans node_change_ports). Qed.

Lemma modelled_nonempty : forall n, modelled_config n = true -> adapters n <> [].
Proof. intros n H E. unfold modelled_config in H. rewrite E in H. discriminate. Qed.

Lemma global_broadcast_once_per_port : forall n data,
  modelled_config n = true ->
  indication n AGB data =
    (n, map (fun j => Tx j LBcast (mkNpdu (Some DGlobal) None 255 None data)) (seq 0 (length (adapters n)))).
Proof.
  intros n data Hm. unfold indication.
  pose proof (local_idx_lt n (modelled_nonempty n Hm)) as Hl.
  unfold nth_adapter. destruct (nth_error (adapters n) (local_idx n)) eqn:E.
  - rewrite Hm. reflexivity.
  - apply nth_error_None in E. lia.
Qed.

Lemma dec_num_is_enc : forall net flag, net < 65536 -> dec_num_is (n_data (num_is net flag)) = Ok (net, flag).
Proof.
  intros net flag H. unfold num_is, dec_num_is, put_short, be2; cbn.
  rewrite (N.mod_small net 65536), (N.mod_small (net / 256)) by (try apply N.div_lt_upper_bound; lia).
  rewrite N.mul_comm, <- N.div_mod by discriminate. reflexivity.
Qed.

Definition learnable (o : option N) (conf net : N) : Prop :=
  match o with None => True | Some old => old <> net /\ conf <> 1 end.

Definition keys_on (o : option N) (c : cache) : Prop := forall k mm, In (k, mm) c -> fst k = o.

Lemma rekey_get : forall c o new d, keys_on o c -> o <> new ->
  cache_get (map (fun e => if optN_eqb (fst (fst e)) o then ((new, snd (fst e)), snd e) else e)
                 (filter (fun e => negb (optN_eqb (fst (fst e)) new)) c)) new d = cache_get c o d.
Proof.
  induction c as [|[[s dd] mm] r IH]; intros o new d Hk Hne; [reflexivity|].
  assert (Hs : s = o) by (exact (Hk (s, dd) mm (or_introl eq_refl))). subst s.
  assert (Hr : keys_on o r) by (intros k m' Hin; exact (Hk k m' (or_intror Hin))).
  cbn [filter fst snd]. destruct (optN_eqb o new) eqn:En; [apply optN_eqb_eq in En; contradiction|].
  cbn [negb map fst snd]. rewrite optN_eqb_refl. cbn [cache_get]. unfold key_eqb; cbn [fst snd].
  rewrite !optN_eqb_refl. cbn [andb]. destruct (dd =? d); [reflexivity|]. exact (IH o new d Hr Hne).
Qed.

Lemma rekey_find : forall c o new d, keys_on o c -> o <> new ->
  cache_get (cache_rekey c o new) new d = cache_get c o d.
Proof.
  intros c o new d Hk Hne. unfold cache_rekey. destruct (has_snet c o) eqn:Eh; [exact (rekey_get c o new d Hk Hne)|].
  destruct c as [|[[s dd] mm] r]; [reflexivity|].
  exfalso. assert (Hs : s = o) by (exact (Hk (s, dd) mm (or_introl eq_refl))). subst s.
  cbn in Eh. rewrite optN_eqb_refl in Eh. discriminate.
Qed.

Lemma rekey_keys : forall c o new, keys_on o c -> keys_on new (cache_rekey c o new) \/ c = [].
Proof.
  intros c o new Hk. destruct c as [|e r]; [right; reflexivity|left].
  unfold cache_rekey. destruct (has_snet (e :: r) o) eqn:Eh.
  - intros k mm Hin. apply in_map_iff in Hin. destruct Hin as ([[s dd] m0] & Heq & Hin).
    apply filter_In in Hin. destruct Hin as [Hin _]. pose proof (Hk _ _ Hin) as Hs. cbn in Hs. subst s.
    cbn [fst snd] in Heq. rewrite optN_eqb_refl in Heq. inversion Heq; subst. reflexivity.
  - exfalso. destruct e as [[s dd] mm]. assert (Hs : s = o) by (exact (Hk (s, dd) mm (or_introl eq_refl))). subst s.
    cbn in Eh. rewrite optN_eqb_refl in Eh. discriminate.
Qed.

(* a station (one adapter: told nothing, its address, or a number it has only learned) hears a Network-Number-Is
   broadcast: it transmits nothing and becomes the station bound with that number, its cache re-filed; a global
   broadcast it then originates leaves its one port once; and every path it knew is still known, given that the
   cache was filed under the adapter's number (always so for a station: NetNumInv.thm_station_cache_filed) *)
Lemma thm_number_learned : forall o m app c pd conf task src net flag x' acts,
  xprocess (mkX (mkNode [mkAd o m] app c pd) conf task) 0 src LBcast (num_is net flag) = (x', acts) ->
  net < 65536 -> learnable o conf net ->
  acts = [] /\
  x_node x' = mkNode [mkAd (Some net) m] app (cache_rekey c o (Some net)) pd /\
  x_conf x' = (match o with None => 0 | Some _ => flag end) /\ x_task x' = 0 /\
  (forall data, indication (x_node x') AGB data
                = (x_node x', [Tx 0 LBcast (mkNpdu (Some DGlobal) None 255 None data)])) /\
  (keys_on o c -> forall d, find_path (x_node x') d = find_path (mkNode [mkAd o m] app c pd) d).
Proof.
  intros o m app c pd conf task src net flag x' acts H Hnet Hl.
  unfold xprocess in H. cbn [n_msg num_is] in H. change ((19 =? 18) || (19 =? 19)) with true in H.
  cbn [x_node nth_adapter adapters nth_error modelled_config negb n_dadr n_sadr] in H.
  change (19 =? 18) with false in H. cbv iota in H.
  rewrite (dec_num_is_enc net flag Hnet) in H.
  unfold nse_num_is in H. cbn [x_node a_net] in H.
  assert (Hres : x' = mkX (mkNode [mkAd (Some net) m] app (cache_rekey c o (Some net)) pd)
                          (match o with None => 0 | Some _ => flag end) 0 /\ acts = []).
  { destruct o as [old|].
    - destruct Hl as [Hne Hc]. destruct (old =? net) eqn:E1; [apply N.eqb_eq in E1; contradiction|].
      unfold conf_of in H. cbn [x_node is_router adapters length Nat.eqb negb x_conf] in H.
      destruct (conf =? 1) eqn:E2; [apply N.eqb_eq in E2; contradiction|].
      inversion H; subst. split; reflexivity.
    - inversion H; subst. split; reflexivity. }
  destruct Hres as [Hx Ha]. subst x' acts. cbn [x_node x_conf x_task].
  repeat split.
  - intro data. rewrite global_broadcast_once_per_port by reflexivity. reflexivity.
  - intros Hk d. unfold find_path. cbn [adapters rcache find_path_from a_net].
    assert (Hne : o <> Some net).
    { destruct o as [old|]; [|discriminate]. destruct Hl as [Hne _]. intro E. inversion E. contradiction. }
    rewrite (rekey_find c o (Some net) d Hk Hne). reflexivity.
Qed.

(* the invariant that makes the last clause applicable: a station's cache is filed under its adapter's number, and
   re-filing keeps it so *)
Lemma thm_number_learned_keys : forall o net c, keys_on o c -> keys_on (Some net) (cache_rekey c o (Some net)).
Proof.
  intros o net c Hk. destruct (rekey_keys c o (Some net) Hk) as [H|H]; [exact H|].
  subst c. intros k mm Hin. destruct Hin.
Qed.
