(* CascadeStep.v — the same statement through IpNet.do_event (EBcast ..), i.e. with the fuel the
   model itself supplies (cascade_fuel). *)
From Coq Require Import Permutation Lia.
From Bac Require Import Base ListFacts Bip BipFacts IpNet BipDeliv BipDelivFacts CascadeTree CascadeNet CascadeFacts.
Open Scope N_scope.

Lemma set_nth_same {A} : forall (l : list A) i x, nth_error l i = Some x -> set_nth i x l = l.
Proof.
  induction l as [|y l IH]; intros [|i] x H; cbn in *; try discriminate; [inversion H; reflexivity|].
  f_equal. apply IH. exact H.
Qed.

Lemma indication_originate : forall c sl fl o p, indication (node_of c sl fl o) DBcast p = Ok (originate c o p).
Proof. intros c sl fl [s y|s|x] p; reflexivity. Qed.

Lemma emit_no_obs : forall w i n acts, (forall a, In a acts -> exists d m, a = Down d m) -> snd (emit w i n acts) = [].
Proof.
  intros w i n acts H. unfold emit. cbn [snd]. apply flat_map_nil. intros a Ia. destruct (H a Ia) as [d [m ->]]. reflexivity.
Qed.

Lemma originate_downs : forall c o p a, In a (originate c o p) -> exists d m, a = Down d m.
Proof.
  intros c [s y|s|x] p a I; unfold originate in I.
  - destruct I as [<-|[]]. eauto.
  - unfold bbmd_indication in I. destruct I as [<-|I]; [eauto|]. apply in_app_or in I. destruct I as [I|I].
    + unfold to_peers in I. apply in_map_iff in I. destruct I as [e [<- _]]. eauto.
    + unfold to_fdt in I. apply in_map_iff in I. destruct I as [e [<- _]]. eauto.
  - unfold foreign_indication, foreign_of in I. cbn in I. destruct I as [<-|[]]. eauto.
Qed.

Theorem do_event_broadcast_once : forall c lans sl fl now i o n p,
  wf c -> net_ok c lans sl fl -> nth_error (all_rcvs c) i = Some o ->
  let w := world_of c lans sl fl now in
  (list_sum (map (tsize (2 * (3 + n)) w) (emitted c lans sl fl now o (originate c o p))) < cascade_fuel)%nat ->
  exists log, do_event w (EBcast i p) [] = Ok (w, log) /\
    let D := up_addrs w log in
    Permutation D (map dl (broadcast n c o p)) /\
    (forall d, In d D -> d = (a_rcv d, rcv_addr o, DBcast, p)) /\
    NoDup (map a_rcv D) /\ ~ In (rcv_addr o) (map a_rcv D) /\
    (full c -> forall a, In a (all_addrs c) -> a <> rcv_addr o -> In a (map a_rcv D)).
Proof.
  intros c lans sl fl now i o n p W NK Hi w Hf.
  assert (In o (all_rcvs c)) as Io by (apply (nth_error_In _ _ Hi)).
  assert (nth_error (w_nodes w) i = Some (node_of c sl fl o)) as Hn by (apply map_nth_error; exact Hi).
  destruct (cascade_equals_delivery c lans sl fl now W NK o n p cascade_fuel Io Hf) as [log [C P]].
  destruct (cascade_broadcast_once c lans sl fl now o n p cascade_fuel W NK Io Hf) as [log' [C' Q]].
  unfold sent in C. fold w in C, C'. rewrite C in C'. inversion C'; subst log'.
  exists log. split; [|split; [exact P | exact Q]].
  unfold do_event. rewrite Hn, indication_originate. cbn [bind]. unfold act.
  destruct (emit w i (node_of c sl fl o) (originate c o p)) as [ds os] eqn:E.
  assert (ds = emitted c lans sl fl now o (originate c o p)) as Eds by (change ds with (fst (ds, os)); rewrite <- E; reflexivity).
  assert (os = []) as -> by (change os with (snd (ds, os)); rewrite <- E; apply emit_no_obs; apply originate_downs).
  subst ds.
  unfold set_node. rewrite (set_nth_same _ _ _ Hn). cbn [app]. rewrite world_eta. exact C.
Qed.
