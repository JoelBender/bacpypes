(* NpciSound.v — the header decoder does not misread: the fields it returns are well-formed, and whatever
   it accepts (octet input, DLEN = 0 when DNET = 0xFFFF) is the clause 6.2 layout of those fields, up to
   the two reserved bits of the control octet. *)
From Bac Require Import Base BytesFacts Npci NpciFacts.
Open Scope N_scope.

Definition ctl_fields (c : N) : N :=
  128 * b2n (negb (N.land c 0x80 =? 0)) + 32 * b2n (negb (N.land c 0x20 =? 0))
  + 8 * b2n (negb (N.land c 0x08 =? 0)) + 4 * b2n (negb (N.land c 0x04 =? 0)) + N.land c 0x03.

Lemma ctl_fields_mask c : c < 256 -> ctl_fields c = N.land c 0xAF.
Proof. intros Hc. apply N.eqb_eq. revert c Hc. apply byte_sweep. vm_compute. reflexivity. Qed.

(* 0xAF and 0x50 share the octet between them *)
Lemma reserved_clear_mask c : c < 256 -> N.land c 0x50 = 0 -> N.land c 0xAF = c.
Proof.
  intros Hc Hr. assert (E : N.land c 255 = c).
  { change 255 with (N.ones 8). rewrite N.land_ones. apply N.mod_small. exact Hc. }
  change 255 with (N.lor 0xAF 0x50) in E. rewrite N.land_lor_distr_r, Hr, N.lor_0_r in E. exact E.
Qed.

Lemma land3_lt c : N.land c 3 < 4.
Proof. exact (land_ones_lt c 2). Qed.

(* canon x bs: bs is the canonical way of writing x; an obligation only for the global broadcast destination,
   which the decoder accepts with any DLEN *)
Definition sound {A} (wf : A -> bool) (lay : A -> list N) (canon : A -> list N -> Prop)
    (f : list N -> res (A * list N)) : Prop :=
  forall bs x r, bytes_ok bs = true -> f bs = Ok (x, r) ->
    wf x = true /\ bytes_ok r = true /\ (canon x bs -> bs = lay x ++ r).
Definition always {A} (x : A) (bs : list N) : Prop := True.

Lemma dec_opt_sound {A} wf lay canon b (f : list N -> res (A * list N)) : sound wf lay canon f ->
  forall bs o r, bytes_ok bs = true -> dec_opt b f bs = Ok (o, r) ->
    is_some o = b /\ wf_opt wf o = true /\ bytes_ok r = true
    /\ ((forall x, o = Some x -> canon x bs) -> bs = opt_list o lay ++ r).
Proof.
  intros S bs o r Hb H. destruct (dec_opt_inv _ _ _ _ _ H) as [(-> & x & -> & E)|(-> & -> & ->)].
  - destruct (S bs x r Hb E) as (W & B & L). cbn [is_some wf_opt opt_list].
    repeat split; try assumption. intros C. apply L, C. reflexivity.
  - repeat split. exact Hb.
Qed.

Lemma addr_fields_inv bs n q1 dlen q2 mac r :
  bytes_ok bs = true -> get_short bs = Ok (n, q1) -> get q1 = Ok (dlen, q2) -> get_data dlen q2 = Ok (mac, r) ->
  bs = [n / 256; n mod 256; lenN mac] ++ mac ++ r /\ n < 65536 /\ dlen = lenN mac /\ lenN mac < 256
  /\ bytes_ok mac = true /\ bytes_ok r = true.
Proof.
  intros Hb E1 E2 E3.
  apply (get_short_inv _ _ _ Hb) in E1 as (-> & Hn & Hb1). apply get_inv in E2 as ->.
  apply get_data_ok in E3 as [-> L].
  apply bytes_ok_cons in Hb1 as [Hl Hb2]. rewrite bytes_ok_app in Hb2. apply andb_true_iff in Hb2 as [Hm Hr].
  subst dlen. repeat split; assumption.
Qed.

Lemma dec_dadr_sound : sound wf_dadr spec_addr (fun a bs => a = GBroadcast -> nth 2 bs 0 = 0) dec_dadr.
Proof.
  intros bs a r Hb H. unfold dec_dadr in H.
  destruct (get_short bs) as [[n q1]|] eqn:E1; cbn [bind] in H; [|discriminate].
  destruct (get q1) as [[dlen q2]|] eqn:E2; cbn [bind] in H; [|discriminate].
  destruct (get_data dlen q2) as [[mac q3]|] eqn:E3; cbn [bind] in H; [|discriminate].
  injection H as <- <-.
  destruct (addr_fields_inv _ _ _ _ _ _ _ Hb E1 E2 E3) as (Eb & Hn & Hd & Hl & Hm & Hr).
  split; [|split; [exact Hr|]].
  - destruct (n =? 65535) eqn:F1; [reflexivity|].
    destruct (dlen =? 0) eqn:F2; cbn [wf_dadr]; [lia|]. unfold wf_station. rewrite Hm. lia.
  - intros G. rewrite Eb. destruct (n =? 65535) eqn:F1.
    + assert (n = 65535) as -> by lia. specialize (G eq_refl). rewrite Eb in G. cbn [app nth] in G.
      assert (mac = []) as -> by (apply lenN_0; exact G). reflexivity.
    + destruct (dlen =? 0) eqn:F2; cbn [spec_addr]; [|rewrite <- app_assoc; reflexivity].
      assert (mac = []) as -> by (apply lenN_0; lia). reflexivity.
Qed.

Lemma dec_sadr_sound : sound wf_sadr spec_addr always dec_sadr.
Proof.
  intros bs a r Hb H. unfold dec_sadr in H.
  destruct (get_short bs) as [[n q1]|] eqn:E1; cbn [bind] in H; [|discriminate].
  destruct (get q1) as [[dlen q2]|] eqn:E2; cbn [bind] in H; [|discriminate].
  destruct (get_data dlen q2) as [[mac q3]|] eqn:E3; cbn [bind] in H; [|discriminate].
  destruct (addr_fields_inv _ _ _ _ _ _ _ Hb E1 E2 E3) as (Eb & Hn & Hd & Hl & Hm & Hr).
  destruct (n =? 65535) eqn:F1; [discriminate|]. destruct (dlen =? 0) eqn:F2; [discriminate|].
  injection H as <- <-.
  cbn [wf_sadr spec_addr]. unfold wf_station; rewrite Hm. repeat split; try assumption; try lia.
  rewrite Eb, <- app_assoc. reflexivity.
Qed.

Lemma get_sound : sound (fun x => x <? 256) (fun x => [x]) always get.
Proof.
  intros bs x r Hb H. apply get_inv in H as ->. apply bytes_ok_cons in Hb as [Hx Hb].
  split; [lia|]. split; [exact Hb|reflexivity].
Qed.

Definition mt_layout (mv : N * option N) : list N := [fst mv] ++ opt_list (snd mv) (fun v => [v / 256; v mod 256]).

Lemma dec_mt_sound : sound (fun mv => wf_mv (Some (fst mv)) (snd mv)) mt_layout always dec_mt.
Proof.
  intros bs [t vd] r Hb H. unfold dec_mt in H. unfold mt_layout. cbn [fst snd].
  destruct (get bs) as [[t' q1]|] eqn:E1; cbn [bind] in H; [|discriminate].
  apply get_inv in E1 as ->. apply bytes_ok_cons in Hb as [Ht Hb].
  destruct (is_vendor_type t') eqn:V.
  - destruct (get_short q1) as [[v q2]|] eqn:E2; cbn [bind] in H; [|discriminate].
    injection H as <- <- <-.
    apply (get_short_inv _ _ _ Hb) in E2 as (-> & Hv & Hb').
    cbn [wf_mv opt_list app]. rewrite V. split; [lia|]. split; [exact Hb'|reflexivity].
  - injection H as <- <- <-. cbn [wf_mv opt_list app]. split; [|split; [exact Hb|reflexivity]].
    unfold is_vendor_type in V. lia.
Qed.

Definition spec_fields (h : npci) : list N :=
  opt_list (dadr h) spec_addr ++ opt_list (sadr h) spec_addr ++ opt_list (hop h) (fun x => [x])
  ++ opt_list (nmsg h) (fun t => [t]) ++ opt_list (vendor h) (fun v => [v / 256; v mod 256]).

Lemma dec_npci_inv bs c h r : bytes_ok bs = true -> dec_npci bs = Ok (c, h, r) ->
  wf_npci h = true /\ c < 256 /\ spec_control h = N.land c 0xAF
  /\ ((dadr h = Some GBroadcast -> nth 4 bs 0 = 0) -> bs = 1 :: c :: spec_fields h ++ r).
Proof.
  intros Hb H.
  destruct (dec_npci_ok_inv _ _ _ _ H) as (r2 & d & r3 & s & r4 & hp & r5 & mv & -> & E3 & E4 & E5 & E6 & ->).
  apply bytes_ok_cons in Hb as [_ Hb]. apply bytes_ok_cons in Hb as [Hc Hb2].
  destruct (dec_opt_sound _ _ _ _ _ dec_dadr_sound _ _ _ Hb2 E3) as (I3 & W3 & B3 & L3).
  destruct (dec_opt_sound _ _ _ _ _ dec_sadr_sound _ _ _ B3 E4) as (I4 & W4 & B4 & L4).
  destruct (dec_opt_sound _ _ _ _ _ get_sound _ _ _ B4 E5) as (I5 & W5 & B5 & L5).
  destruct (dec_opt_sound _ _ _ _ _ dec_mt_sound _ _ _ B5 E6) as (I6 & W6 & _ & L6).
  assert (M : is_some (option_map fst mv) = is_some mv) by (destruct mv; reflexivity).
  repeat split; [| exact Hc | |].
  - unfold wf_npci. cbn [Npci.ver Npci.er Npci.prio Npci.dadr Npci.sadr Npci.hop Npci.nmsg Npci.vendor].
    rewrite W3, W4, (proj2 (N.ltb_lt _ _) (land3_lt c)).
    assert (Hh : match d, hp with Some _, Some x => x <? 256 | None, None => true | _, _ => false end = true).
    { destruct d, hp; cbn [is_some wf_opt] in *; try assumption; try reflexivity; congruence. }
    rewrite Hh. destruct mv as [[t vd]|]; [exact W6|reflexivity].
  - rewrite <- (ctl_fields_mask c Hc). unfold spec_control, ctl_fields.
    cbn [Npci.er Npci.prio Npci.dadr Npci.sadr Npci.nmsg]. rewrite M, I3, I4, I6. reflexivity.
  - intros G. cbn [nth] in G. unfold spec_fields.
    cbn [Npci.dadr Npci.sadr Npci.hop Npci.nmsg Npci.vendor]. do 2 f_equal.
    rewrite L3, L4, L5, L6; try exact (fun _ _ => I).
    + destruct mv as [[t vd]|]; cbn [opt_list option_map mt_layout fst snd]; rewrite <- ?app_assoc; reflexivity.
    + intros x -> ->. apply G. reflexivity.
Qed.

Lemma dec_npci_wf bs c h r : bytes_ok bs = true -> dec_npci bs = Ok (c, h, r) ->
  wf_npci h = true /\ spec_control h = N.land c 0xAF /\ c < 256.
Proof. intros Hb H. destruct (dec_npci_inv bs c h r Hb H) as (W & Hc & C & _). repeat split; assumption. Qed.

Lemma dec_npci_sound bs c h r :
  bytes_ok bs = true -> dec_npci bs = Ok (c, h, r) ->
  N.land c 0x50 = 0 -> (dadr h = Some GBroadcast -> nth 4 bs 0 = 0) ->
  wf_npci h = true /\ spec_control h = c /\ bs = spec6_2 h ++ r.
Proof.
  intros Hb H Hres Hg. destruct (dec_npci_inv bs c h r Hb H) as (W & Hc & C & L).
  rewrite (reserved_clear_mask c Hc Hres) in C. split; [exact W|]. split; [exact C|].
  rewrite (L Hg). unfold spec6_2. rewrite C. reflexivity.
Qed.
