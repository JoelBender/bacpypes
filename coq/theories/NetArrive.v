(* NetArrive.v — a unicast travelling along a consistent route of ANY length (`arrives`), and the steps of a run
   that follows such a route: the frame alone in flight is taken by exactly one port (lemmas about Net.v,
   property C06; that it arrives is NetRound.route_arrives). *)
From Bac Require Import Base Net NetFacts NetTerm2 NetOnce NetRoute.
Open Scope N_scope.

Lemma deliver_exact : forall members ns f q tr m who port w lan n' acts fs os,
  f_dst f = LStation m -> NoDup (map (port_mac ns) members) -> In (who, port) members ->
  nth_error ns who = Some w -> nth_error (w_ports w) port = Some (lan, m) ->
  process_npdu (w_node w) port (f_src f) (f_dst f) (f_npdu f) = (n', acts) ->
  emit (mkW n' (w_ports w)) who acts = (fs, os) ->
  deliver ns f members q tr = (set_nth ns who (mkW n' (w_ports w)), q ++ fs, rev_append os tr).
Proof.
  intros members ns f q tr m who port w lan n' acts fs os Hd Hnd Hin Hw Hp Hpr He.
  apply in_split in Hin. destruct Hin as [pre [post Hm]]. subst members.
  rewrite map_app in Hnd. cbn [map] in Hnd.
  assert (Hhead : port_mac ns (who, port) = Some m) by (unfold port_mac; cbn; rewrite Hw, Hp; reflexivity).
  assert (Hpre : forall x, In x pre -> port_mac ns x <> Some m).
  { intros x Hx E. apply NoDup_remove_2 in Hnd. apply Hnd. apply in_or_app. left.
    rewrite Hhead, <- E. apply in_map. assumption. }
  assert (Hpost : forall x, In x post -> port_mac ns x <> Some m).
  { intros x Hx E. apply NoDup_remove_2 in Hnd. apply Hnd. apply in_or_app. right.
    rewrite Hhead, <- E. apply in_map. assumption. }
  rewrite (deliver_skip pre _ ns f q tr m Hd Hpre). cbn [deliver].
  assert (Hacc : accepts m f = true) by (unfold accepts; rewrite Hd; apply mac_eqb_refl).
  rewrite Hw, Hp, Hacc, Hpr, He.
  apply (deliver_nobody post _ f _ _ m Hd).
  intros x Hx. rewrite (port_mac_set_nth _ _ _ _ _ Hw). apply Hpost. assumption.
Qed.

(* exactly one member of the frame's LAN has the destination link address: port `port` of node `who` *)
Definition acceptor (lns : list (N * list (nat * nat))) (ns : list wnode) (f : frame)
           (who port : nat) (w : wnode) (m : mac) : Prop :=
  f_dst f = LStation m /\ NoDup (map (port_mac ns) (lan_members lns (f_lan f))) /\
  In (who, port) (lan_members lns (f_lan f)) /\
  nth_error ns who = Some w /\ exists lan, nth_error (w_ports w) port = Some (lan, m).

(* `arrives lns ns f tgt s d x`: from node states ns, frame f alone in flight follows a consistent route to the
   application of node tgt, which is handed payload x with source s and destination d *)
Inductive arrives (lns : list (N * list (nat * nat))) : list wnode -> frame -> nat -> addr -> addr -> list N -> Prop :=
| arr_station : forall ns f who w m a sn sm,
    acceptor lns ns f who 0 w m ->
    adapters (w_node w) = [a] -> has_app (w_node w) = true ->
    n_msg (f_npdu f) = None -> n_dadr (f_npdu f) = None -> apdu_ok (n_data (f_npdu f)) = true ->
    n_sadr (f_npdu f) = Some (sn, sm) -> optN_eqb (a_net a) (Some sn) = false ->
    arrives lns ns f who (ARS sn sm) (ALS m) (n_data (f_npdu f))
| arr_last_router : forall ns f who i w m ai inet d dm j la lan' mj tgt s dd x,
    acceptor lns ns f who i w m ->
    nth_adapter (w_node w) i = Some ai -> nth_adapter (w_node w) (local_idx (w_node w)) = Some la ->
    modelled_config (w_node w) = true -> is_router (w_node w) = true -> a_net ai = Some inet ->
    n_msg (f_npdu f) = None -> n_dadr (f_npdu f) = Some (DStation d dm) -> n_hop (f_npdu f) <> 0 ->
    (forall snet sm, n_sadr (f_npdu f) = Some (snet, sm) -> find_net (w_node w) (Some snet) = None) ->
    find_net (w_node w) (Some d) = Some j -> j <> i ->
    optN_eqb (Some d) (a_net ai) = false -> not_for_me la d dm = true ->
    nth_error (w_ports w) j = Some (lan', mj) ->
    arrives lns (set_nth ns who (mkW (learned (w_node w) ai (f_src f) (f_npdu f)) (w_ports w)))
            (mkFrame lan' mj (LStation dm)
               (mkNpdu None (Some (fwd_sadr inet (f_src f) (f_npdu f))) (n_hop (f_npdu f) - 1) None (n_data (f_npdu f))))
            tgt s dd x ->
    arrives lns ns f tgt s dd x
| arr_router : forall ns f who i w m ai inet d dm j m' lan' mj tgt s dd x,
    acceptor lns ns f who i w m ->
    nth_adapter (w_node w) i = Some ai ->
    modelled_config (w_node w) = true -> is_router (w_node w) = true -> a_net ai = Some inet ->
    n_msg (f_npdu f) = None -> n_dadr (f_npdu f) = Some (DStation d dm) -> n_hop (f_npdu f) <> 0 ->
    (forall snet sm, n_sadr (f_npdu f) = Some (snet, sm) -> find_net (w_node w) (Some snet) = None /\ snet <> d) ->
    find_net (w_node w) (Some d) = None -> find_path (w_node w) d = Some (j, m') ->
    nth_error (w_ports w) j = Some (lan', mj) ->
    arrives lns (set_nth ns who (mkW (learned (w_node w) ai (f_src f) (f_npdu f)) (w_ports w)))
            (mkFrame lan' mj (LStation m')
               (mkNpdu (n_dadr (f_npdu f)) (Some (fwd_sadr inet (f_src f) (f_npdu f))) (n_hop (f_npdu f) - 1) None
                       (n_data (f_npdu f))))
            tgt s dd x ->
    arrives lns ns f tgt s dd x.

Lemma step_exact : forall w f who port wn m n' acts fs os,
  queue w = [f] -> acceptor (lans w) (nodes w) f who port wn m ->
  process_npdu (w_node wn) port (f_src f) (f_dst f) (f_npdu f) = (n', acts) ->
  emit (mkW n' (w_ports wn)) who acts = (fs, os) ->
  step w = Some (mkWorld (set_nth (nodes w) who (mkW n' (w_ports wn))) (lans w) fs
                         (rev_append os [OFrame f] ++ trace w)).
Proof.
  intros w f who port wn m n' acts fs os Hq (Hd & Hnd & Hin & Hw & lan & Hp) Hpr He.
  rewrite (step_cons w f [] Hq).
  rewrite (deliver_exact _ _ f [] [OFrame f] m who port wn lan n' acts fs os Hd Hnd Hin Hw Hp Hpr He).
  reflexivity.
Qed.

Definition oups (os : list obs) : list obs := filter is_oup os.

Lemma ups_oups : forall os, ups os = length (oups os).
Proof. reflexivity. Qed.

Lemma step_single_fwd : forall w f who port wn m nn j dst q lan' mj,
  queue w = [f] -> acceptor (lans w) (nodes w) f who port wn m ->
  process_npdu (w_node wn) port (f_src f) (f_dst f) (f_npdu f) = (nn, [Fwd j dst q]) ->
  nth_error (w_ports wn) j = Some (lan', mj) ->
  step w = Some (mkWorld (set_nth (nodes w) who (mkW nn (w_ports wn))) (lans w) [mkFrame lan' mj dst q]
                         (OFrame f :: trace w)).
Proof.
  intros w f who port wn m nn j dst q lan' mj Hq Hacc Hpr Hj.
  rewrite (step_exact w f who port wn m nn _ [mkFrame lan' mj dst q] [] Hq Hacc Hpr); [reflexivity|].
  cbn [emit w_ports]. rewrite Hj. reflexivity.
Qed.

(* what the rest of the run yields (about the observations and the final state) carries over to the run from w,
   the frame being one more observation *)
Lemma run_after_step : forall (P : list obs -> world -> Prop) w w1 f,
  step w = Some w1 -> trace w1 = OFrame f :: trace w ->
  (forall osn wf, P osn wf -> P (osn ++ [OFrame f]) wf) ->
  (exists k osn, queue (run k w1) = [] /\ trace (run k w1) = osn ++ trace w1 /\ P osn (run k w1)) ->
  exists k osn, queue (run k w) = [] /\ trace (run k w) = osn ++ trace w /\ P osn (run k w).
Proof.
  intros P w w1 f Hs Ht HP (k & osn & A1 & A2 & A3). exists (S k), (osn ++ [OFrame f]). cbn [run]. rewrite Hs.
  split; [exact A1|]. split; [rewrite A2, Ht, <- app_assoc; reflexivity|apply HP; exact A3].
Qed.

Lemma oups_frame : forall osn g, oups (osn ++ [OFrame g]) = oups osn.
Proof. intros. unfold oups. rewrite filter_app. apply app_nil_r. Qed.

(* feeds a lemma its hypotheses from the context *)
Ltac feed H := repeat match type of H with ?A -> _ => specialize (H ltac:(assumption)) end.
