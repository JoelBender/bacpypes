From Bac Require Import Base Prio.
Open Scope Z_scope.

Lemma winner_set_nth_winner : forall sl k w d,
  winner sl d = w -> winner (set_nth k (Some w) sl) d = w.
Proof.
  unfold winner. induction sl as [|x r IH]; intros k w d H; cbn [set_nth first_some] in *.
  - destruct k; exact H.
  - destruct k as [|k]; cbn [first_some].
    + reflexivity.
    + destruct x as [y|]; cbn [first_some] in *.
      * exact H.
      * apply IH. exact H.
Qed.

Lemma set_nth_length : forall sl k x, length (set_nth k x sl) = length sl.
Proof. induction sl as [|y r IH]; intros [|k] x; cbn [set_nth length]; auto. Qed.

Lemma set_nth_same : forall sl k x, (k < length sl)%nat -> nth_error (set_nth k x sl) k = Some x.
Proof.
  induction sl as [|y r IH]; intros [|k] x H; cbn [set_nth nth_error length] in *; try lia.
  - reflexivity.
  - apply IH. lia.
Qed.

Lemma set_nth_other : forall sl k j x, j <> k -> nth_error (set_nth k x sl) j = nth_error sl j.
Proof.
  induction sl as [|y r IH]; intros [|k] [|j] x H; cbn [set_nth nth_error]; try reflexivity; try congruence.
  apply IH. congruence.
Qed.

Lemma first_some_spec : forall sl,
  match first_some sl with
  | Some v => exists k, nth_error sl k = Some (Some v) /\ forall j, (j < k)%nat -> nth_error sl j = Some None
  | None => forall j, (j < length sl)%nat -> nth_error sl j = Some None
  end.
Proof.
  induction sl as [|[y|] r IH]; cbn [first_some length].
  - intros j Hj. lia.
  - exists 0%nat. split; [reflexivity|]. intros j Hj. lia.
  - destruct (first_some r) as [v|].
    + destruct IH as [k [Hk Hlt]]. exists (S k). split; [exact Hk|].
      intros [|j] Hj; [reflexivity|]. apply Hlt. lia.
    + intros [|j] Hj; [reflexivity|]. apply IH. lia.
Qed.

(* the re-entrant write unrolled: what WriteProperty does, without recursion *)
Definition write_spec (o : obj) (i : Z) (v : slot) : obj * wres :=
  if i =? 0 then (o, WDenied)
  else if (i <? 1) || (i >? 16) then (o, WBadIndex)
  else
    let sl1 := set_nth (Z.to_nat (i - 1)) v (slots o) in
    let w := winner sl1 (dflt o) in
    let o1 := with_slots o sl1 in
    if w =? pv o then (o1, WOk)
    else
      let o2 := with_pv o1 w in
      if negb (monitored o) then (o2, WOk)
      else match hold_time o w with
           | None => (o2, WExc ValueErr)
           | Some d =>
               if d =? 0 then (o2, WOk)
               else (with_timer (with_slots o2 (set_nth 5 (Some w) sl1)) (Some (now o + d)), WOk)
           end.

Lemma write_slot_same_pv : forall f o i v,
  1 <= i <= 16 -> winner (set_nth (Z.to_nat (i - 1)) v (slots o)) (dflt o) = pv o ->
  write_slot (S f) o i v = (with_slots o (set_nth (Z.to_nat (i - 1)) v (slots o)), WOk).
Proof.
  intros f o i v Hi Hw. cbn [write_slot].
  replace (i =? 0) with false by lia. replace ((i <? 1) || (i >? 16)) with false by lia.
  destruct o as [sl d p m on off tm nw]; cbn [with_slots slots dflt pv] in *. rewrite Hw, Z.eqb_refl. reflexivity.
Qed.

(* two levels of fuel are enough: the nested call (priority 6, the new present value) finds the
   winner unchanged.  `remember` keeps the inner level folded for write_slot_same_pv: unfolded,
   the case tree over the record is many times larger. *)
Lemma write_slot_unroll : forall f o i v, write_slot (S (S f)) o i v = write_spec o i v.
Proof.
  intros f o i v. unfold write_spec. remember (S f) as g eqn:Eg. cbn [write_slot]. subst g.
  destruct (i =? 0); [reflexivity|]. destruct (_ || _); [reflexivity|].
  destruct o as [sl d p m on off tm nw]; cbn [with_slots with_pv slots dflt pv monitored].
  set (sl1 := set_nth _ v sl). set (w := winner sl1 d).
  destruct (w =? p) eqn:Ew; [reflexivity|]. destruct m; cbn [negb]; [|reflexivity].
  replace (p =? w) with false by lia.
  (* hold_time reads min_on / min_off only *)
  change (hold_time (mkObj sl1 d w true on off tm nw) w) with (hold_time (mkObj sl d p true on off tm nw) w).
  destruct (hold_time _ w) as [t|]; [|reflexivity]. destruct (t =? 0); [reflexivity|].
  rewrite write_slot_same_pv; [reflexivity | lia | apply winner_set_nth_winner; reflexivity].
Qed.

Lemma command_spec : forall o p v, command o p v = write_spec o (prio_index p) v.
Proof. intros. unfold command. apply write_slot_unroll. Qed.

Lemma tick_spec : forall o dt,
  tick o dt =
  let o1 := with_now o (now o + dt) in
  match timer o with
  | Some d => if d <=? now o + dt then write_spec (with_timer o1 None) 6 None else (o1, WOk)
  | None => (o1, WOk)
  end.
Proof.
  intros o dt. unfold tick. cbn [with_now timer now].
  destruct (timer o) as [d|]; [|reflexivity].
  destruct (d <=? now o + dt); [|reflexivity]. apply write_slot_unroll.
Qed.

Lemma prio_dec : forall i, {1 <= i <= 16} + {~ (1 <= i <= 16)}.
Proof. intro i. destruct (Z_le_dec 1 i); [destruct (Z_le_dec i 16)|]; [left | right | right]; lia. Qed.

Lemma write_spec_invalid : forall o i v,
  ~ (1 <= i <= 16) -> write_spec o i v = (o, if i =? 0 then WDenied else WBadIndex).
Proof.
  intros o i v H. unfold write_spec. destruct (i =? 0); [reflexivity|].
  replace ((i <? 1) || (i >? 16)) with true by lia. reflexivity.
Qed.

Definition held (o : obj) (w : val) : bool :=
  monitored o && negb (w =? pv o) && negb (min_time (min_on o) (min_off o) w =? 0).

Lemma write_spec_valid : forall o i v,
  1 <= i <= 16 ->
  let sl1 := set_nth (Z.to_nat (i - 1)) v (slots o) in
  let w := winner sl1 (dflt o) in
  write_spec o i v =
  (mkObj (if held o w then set_nth 5 (Some w) sl1 else sl1) (dflt o) w (monitored o) (min_on o) (min_off o)
         (if held o w then Some (now o + min_time (min_on o) (min_off o) w) else timer o) (now o),
   if monitored o && negb (w =? pv o) && negb ((w =? ACTIVE) || (w =? INACTIVE)) then WExc ValueErr else WOk).
Proof.
  intros o i v Hi. cbv zeta. unfold write_spec, held, hold_time, min_time.
  replace (i =? 0) with false by lia. replace ((i <? 1) || (i >? 16)) with false by lia.
  set (sl1 := set_nth _ v _). set (w := winner sl1 _).
  destruct o as [sl d p m on off tm nw].
  cbn [slots dflt pv monitored min_on min_off timer now with_slots with_pv with_timer].
  destruct (w =? p) eqn:Ew; cbn [negb].
  - apply Z.eqb_eq in Ew. rewrite !andb_false_r, Ew. reflexivity.
  - destruct m; cbn [negb andb]; [|reflexivity].
    destruct (w =? ACTIVE); [destruct (on =? 0); reflexivity|].
    destruct (w =? INACTIVE); [destruct (off =? 0); reflexivity | reflexivity].
Qed.

Lemma held_true : forall o w,
  monitored o = true -> w <> pv o -> min_time (min_on o) (min_off o) w <> 0 -> held o w = true.
Proof. intros o w Hm Hw Ht. unfold held. rewrite Hm. lia. Qed.

Lemma write_spec_no_fuel : forall o i v, snd (write_spec o i v) <> WExc OutOfFuel.
Proof.
  intros o i v. destruct (prio_dec i) as [Hi|Hi].
  - rewrite write_spec_valid by exact Hi. cbn [snd]. destruct (_ && _); discriminate.
  - rewrite write_spec_invalid by exact Hi. cbn [snd]. destruct (i =? 0); discriminate.
Qed.

Lemma step_preserves : forall P : obj -> Prop,
  (forall o i v, P o -> P (fst (write_spec o i v))) ->
  (forall o t, P o -> P (with_now o t)) -> (forall o, P o -> P (with_timer o None)) ->
  forall o e, P o -> P (fst (step o e)).
Proof.
  intros P Hw Hn Ht o [p v|dt] H; cbn [step].
  - rewrite command_spec. apply Hw. exact H.
  - rewrite tick_spec. cbv zeta. destruct (timer o) as [d|]; [|apply Hn; exact H].
    destruct (d <=? now o + dt); [|apply Hn; exact H]. apply Hw, Ht, Hn. exact H.
Qed.

Lemma write_spec_frame : forall o i v,
  let o' := fst (write_spec o i v) in
  dflt o' = dflt o /\ monitored o' = monitored o /\ min_on o' = min_on o /\ min_off o' = min_off o
  /\ now o' = now o /\ length (slots o') = length (slots o).
Proof.
  intros o i v. cbv zeta. destruct (prio_dec i) as [Hi|Hi].
  - rewrite write_spec_valid by exact Hi. cbn [fst dflt monitored min_on min_off now slots].
    destruct (held o _); rewrite ?set_nth_length; auto 6.
  - rewrite write_spec_invalid by exact Hi. auto 6.
Qed.

Lemma step_frame : forall o e,
  let o' := fst (step o e) in
  monitored o' = monitored o /\ min_on o' = min_on o /\ min_off o' = min_off o
  /\ length (slots o') = length (slots o).
Proof.
  intros o e. cbv zeta.
  apply (step_preserves (fun o' => monitored o' = monitored o /\ min_on o' = min_on o /\ min_off o' = min_off o
                                   /\ length (slots o') = length (slots o))); [| | |auto].
  - intros o1 i v (Hm & Hon & Hoff & Hl). destruct (write_spec_frame o1 i v) as (_ & Fm & Fon & Foff & _ & Fl).
    rewrite Fm, Fon, Foff, Fl. auto.
  - intros o1 t H. exact H.
  - intros o1 H. exact H.
Qed.

Definition consistent (o : obj) : Prop := pv o = winner (slots o) (dflt o).

Lemma write_spec_valid_consistent : forall o i v,
  1 <= i <= 16 -> consistent (fst (write_spec o i v)).
Proof.
  intros o i v Hi. rewrite write_spec_valid by exact Hi. unfold consistent. cbn [fst pv slots dflt].
  destruct (held o _); [symmetry; apply winner_set_nth_winner|]; reflexivity.
Qed.

Lemma write_spec_consistent : forall o i v, consistent o -> consistent (fst (write_spec o i v)).
Proof.
  intros o i v Hc. destruct (prio_dec i) as [Hi|Hi].
  - apply write_spec_valid_consistent. exact Hi.
  - rewrite write_spec_invalid by exact Hi. exact Hc.
Qed.

Lemma step_consistent : forall o e, consistent o -> consistent (fst (step o e)).
Proof.
  apply (step_preserves consistent); [exact write_spec_consistent | intros o t H; exact H | intros o H; exact H].
Qed.

Lemma run_consistent : forall es o, consistent o -> consistent (run o es).
Proof.
  induction es as [|e r IH]; intros o Hc; cbn [run]; [exact Hc|].
  apply IH. apply step_consistent. exact Hc.
Qed.

Lemma run_consistent_after_command : forall o p v es,
  1 <= prio_index p <= 16 -> consistent (run o (Cmd p v :: es)).
Proof.
  intros o p v es H. cbn [run step]. apply run_consistent.
  rewrite command_spec. apply write_spec_valid_consistent. exact H.
Qed.

Fixpoint last_cmd (k : Z) (es : list op) (init : slot) : slot :=
  match es with
  | [] => init
  | Cmd p v :: r => if prio_index p =? k then last_cmd k r v else last_cmd k r init
  | Tick _ :: r => last_cmd k r init
  end.

(* no hold mechanism at work: not a MinOnOff class, or both times zero / absent; nothing pending *)
Definition quiet (o : obj) : Prop :=
  (monitored o = false \/ (min_on o = 0 /\ min_off o = 0)) /\ timer o = None.

Lemma held_quiet : forall o w, quiet o -> held o w = false.
Proof.
  intros o w [[Hm|[Hon Hoff]] _]; unfold held.
  - rewrite Hm. reflexivity.
  - unfold min_time. rewrite Hon, Hoff. destruct (w =? ACTIVE); [|destruct (w =? INACTIVE)]; apply andb_false_r.
Qed.

Lemma write_spec_quiet : forall o i v, quiet o -> quiet (fst (write_spec o i v)).
Proof.
  intros o i v Hq. destruct (prio_dec i) as [Hi|Hi].
  - rewrite write_spec_valid by exact Hi. rewrite held_quiet by exact Hq. exact Hq.
  - rewrite write_spec_invalid by exact Hi. exact Hq.
Qed.

Lemma step_quiet : forall o e, quiet o -> quiet (fst (step o e)).
Proof.
  apply (step_preserves quiet); [exact write_spec_quiet | intros o t H; exact H|].
  intros o [H _]. split; [exact H | reflexivity].
Qed.

Lemma write_spec_slot : forall o i v j,
  1 <= i <= 16 -> length (slots o) = 16%nat -> (j < 16)%nat ->
  (j <> 5%nat \/ quiet o) ->
  nth_error (slots (fst (write_spec o i v))) j =
  if Z.of_nat j =? i - 1 then Some v else nth_error (slots o) j.
Proof.
  intros o i v j Hi Hlen Hj Hq. rewrite write_spec_valid by exact Hi. cbn [fst slots].
  set (sl1 := set_nth (Z.to_nat (i - 1)) v (slots o)).
  assert (Hsl1 : nth_error sl1 j = if Z.of_nat j =? i - 1 then Some v else nth_error (slots o) j).
  { unfold sl1. destruct (Z.of_nat j =? i - 1) eqn:Ej.
    - replace (Z.to_nat (i - 1)) with j by lia. apply set_nth_same. lia.
    - apply set_nth_other. lia. }
  destruct (held o _) eqn:Eh; [|exact Hsl1].
  destruct Hq as [Hq|Hq].
  - rewrite set_nth_other by exact Hq. exact Hsl1.
  - rewrite held_quiet in Eh by exact Hq. discriminate.
Qed.

Lemma step_slot : forall o e j,
  length (slots o) = 16%nat -> (j < 16)%nat -> (j <> 5%nat \/ quiet o) ->
  nth_error (slots (fst (step o e))) j =
  match e with
  | Cmd p v => if prio_index p =? Z.of_nat j + 1 then Some v else nth_error (slots o) j
  | Tick _ => nth_error (slots o) j
  end.
Proof.
  intros o [p v|dt] j Hlen Hj Hq; cbn [step].
  - rewrite command_spec. replace (prio_index p =? Z.of_nat j + 1) with (Z.of_nat j =? prio_index p - 1) by lia.
    destruct (prio_dec (prio_index p)) as [Hi|Hi].
    + apply write_spec_slot; assumption.
    + rewrite write_spec_invalid by exact Hi. replace (Z.of_nat j =? prio_index p - 1) with false by lia. reflexivity.
  - rewrite tick_spec. cbv zeta. destruct (timer o) as [d|] eqn:Et; [|reflexivity].
    destruct (d <=? now o + dt); [|reflexivity].
    (* a release: the timer was pending, so the object is not quiet and j is not slot 6 *)
    destruct Hq as [Hq|[_ Hq]]; [|congruence].
    rewrite write_spec_slot by (try assumption; try lia; left; exact Hq).
    replace (Z.of_nat j =? 6 - 1) with false by lia. reflexivity.
Qed.

Lemma slot_last_commanded : forall es o j,
  length (slots o) = 16%nat -> (j < 16)%nat -> (j <> 5%nat \/ quiet o) ->
  nth_error (slots (run o es)) j =
  Some (last_cmd (Z.of_nat j + 1) es (nth j (slots o) None)).
Proof.
  induction es as [|e r IH]; intros o j Hlen Hj Hq; cbn [run last_cmd].
  - apply nth_error_nth'. lia.
  - assert (Hq' : j <> 5%nat \/ quiet (fst (step o e))).
    { destruct Hq as [Hq|Hq]; [left; exact Hq | right; apply step_quiet; exact Hq]. }
    rewrite IH; [|rewrite (proj2 (proj2 (proj2 (step_frame o e)))); exact Hlen | exact Hj | exact Hq'].
    f_equal.
    pose proof (step_slot o e j Hlen Hj Hq) as Hs.
    destruct e as [p v|dt]; cbn [last_cmd].
    + destruct (prio_index p =? Z.of_nat j + 1).
      * rewrite (nth_error_nth _ _ _ Hs). reflexivity.
      * f_equal. apply nth_error_nth. rewrite Hs. apply nth_error_nth'. lia.
    + f_equal. apply nth_error_nth. rewrite Hs. apply nth_error_nth'. lia.
Qed.

Definition slot6 (o : obj) : option slot := nth_error (slots o) 5.

Lemma min_on_off_hold : forall o p v o' r,
  monitored o = true -> length (slots o) = 16%nat ->
  command o p v = (o', r) -> pv o' <> pv o ->
  (pv o' = ACTIVE -> min_on o > 0 ->
     r = WOk /\ slot6 o' = Some (Some ACTIVE) /\ timer o' = Some (now o + min_on o)) /\
  (pv o' = INACTIVE -> min_off o > 0 ->
     r = WOk /\ slot6 o' = Some (Some INACTIVE) /\ timer o' = Some (now o + min_off o)).
Proof.
  intros o p v o' r Hm Hlen Hc Hne. rewrite command_spec in Hc.
  destruct (prio_dec (prio_index p)) as [Hi|Hi];
    [|rewrite write_spec_invalid in Hc by exact Hi; inversion Hc; subst o'; congruence].
  rewrite write_spec_valid in Hc by exact Hi. cbv zeta in Hc. apply pair_equal_spec in Hc. destruct Hc as [<- <-].
  unfold slot6. cbn [pv slots timer] in *.
  assert (Hl : (5 < length (set_nth (Z.to_nat (prio_index p - 1)) v (slots o)))%nat) by (rewrite set_nth_length; lia).
  (* the new state has a minimum time, so the hold starts; the result is WOk because the new state is one of the
     two binary ones: the test for ValueErr ends in negb (true || _) resp. negb (_ || true) *)
  split; intros Hw Hpos; rewrite Hw in *; rewrite held_true by (cbn; try assumption; lia);
    cbn [min_time ACTIVE INACTIVE Z.eqb Pos.eqb orb negb]; rewrite andb_false_r, set_nth_same by exact Hl; auto.
Qed.

Lemma min_on_off_release : forall o d dt o' r,
  timer o = Some d -> d <= now o + dt -> length (slots o) = 16%nat ->
  tick o dt = (o', r) ->
  let rel := set_nth 5 None (slots o) in
  pv o' = winner rel (dflt o) /\
  (pv o' = pv o -> slots o' = rel /\ timer o' = None /\ r = WOk).
Proof.
  intros o d dt o' r Ht Hle Hlen Hk. rewrite tick_spec in Hk. cbv zeta in Hk. rewrite Ht in Hk.
  replace (d <=? now o + dt) with true in Hk by lia.
  rewrite write_spec_valid in Hk by lia. cbv zeta in Hk. unfold held in Hk.
  cbn [slots dflt pv timer with_timer with_now] in Hk. change (Z.to_nat (6 - 1)) with 5%nat in Hk.
  inversion Hk. cbv zeta. cbn [pv slots timer]. split; [reflexivity|].
  intro Hw. rewrite Hw, Z.eqb_refl, andb_false_r. cbn [negb andb]. auto.
Qed.
