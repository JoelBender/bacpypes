(* BipDelivFacts.v — exactly-once / no-echo / true-source for configurations of ARBITRARY size,
   over the delivery-tree semantics of BipDeliv.v (node behaviour = Bip.v's step functions). *)
From Coq Require Import Permutation.
From Bac Require Import Base ListFacts Bip BipFacts BipDeliv.
Open Scope N_scope.

Lemma filter_ext_in {A} (p q : A -> bool) l : (forall x, In x l -> p x = q x) -> filter p l = filter q l.
Proof. apply List.filter_ext_in. Qed.

Definition twohop (s : sub) : bool := addr_eqb (fwd_addr s) (sb_bbmd s).

Record wf (c : acfg) : Prop := mkWf {
  wf_addrs : NoDup (all_addrs c);
  wf_bcasts : NoDup (map sb_bcast (a_subs c));
  wf_not_bcast : forall a s, In a (all_addrs c) -> In s (a_subs c) -> a <> sb_bcast s;
  wf_home : forall x, In x (a_fds c) -> exists s, In s (a_subs c) /\ snd x = sb_bbmd s;
  wf_entry : forall s, In s (a_subs c) ->                           (* /32 "two-hop" or subnet-mask "one-hop" entries *)
     fwd_addr s = sb_bbmd s \/ fwd_addr s = sb_bcast s
}.
Definition full (c : acfg) : Prop := forall b p, a_keep c b p = true.

Section Cfg.
Context (c : acfg) (W : wf c).

Lemma in_all_RB : forall s, In s (a_subs c) -> In (RB s) (all_rcvs c).
Proof. intros s I. apply in_or_app. left. apply in_flat_map. exists s. split; [exact I | left; reflexivity]. Qed.
Lemma in_all_RS : forall s y, In s (a_subs c) -> In y (sb_simple s) -> In (RS s y) (all_rcvs c).
Proof.
  intros s y I Iy. apply in_or_app. left. apply in_flat_map. exists s. split; [exact I|]. right. apply in_map. exact Iy.
Qed.
Lemma in_all_RF : forall x, In x (a_fds c) -> In (RF x) (all_rcvs c).
Proof. intros x I. apply in_or_app. right. apply in_map. exact I. Qed.
Lemma in_all_members : forall s r, In s (a_subs c) -> In r (members s) -> In r (all_rcvs c).
Proof. intros s r I Ir. apply in_or_app. left. apply in_flat_map. exists s. auto. Qed.

Lemma in_all_inv : forall r, In r (all_rcvs c) ->
  match r with RS s y => In s (a_subs c) /\ In y (sb_simple s) | RB s => In s (a_subs c) | RF x => In x (a_fds c) end.
Proof.
  intros r I. apply in_app_or in I. destruct I as [I|I].
  - apply in_flat_map in I. destruct I as [s [Is [<-|I]]]; [exact Is|].
    apply in_map_iff in I. destruct I as [y [<- Iy]]. auto.
  - apply in_map_iff in I. destruct I as [x [<- Ix]]. exact Ix.
Qed.

Lemma rcv_inj : forall r1 r2, In r1 (all_rcvs c) -> In r2 (all_rcvs c) -> rcv_addr r1 = rcv_addr r2 -> r1 = r2.
Proof. intros r1 r2. apply nodup_map_inj. exact (wf_addrs c W). Qed.
Lemma all_rcvs_nodup : NoDup (all_rcvs c).
Proof. apply (NoDup_map_inv rcv_addr). exact (wf_addrs c W). Qed.
Lemma subs_nodup : NoDup (a_subs c).
Proof.
  pose proof all_rcvs_nodup as N. unfold all_rcvs in N. apply nodup_app_inv in N. destruct N as [N _].
  induction (a_subs c) as [|s l IH]; [constructor|]. cbn [flat_map] in N. apply nodup_app_inv in N.
  destruct N as [N1 [N2 D]]. constructor; [|apply IH; exact N2].
  intros I. apply (D (RB s)); [left; reflexivity|]. apply in_flat_map. exists s. split; [exact I | left; reflexivity].
Qed.
Lemma fds_nodup : NoDup (a_fds c).
Proof.
  pose proof all_rcvs_nodup as N. unfold all_rcvs in N. apply nodup_app_inv in N. destruct N as [_ [N _]].
  apply (NoDup_map_inv RF). exact N.
Qed.
Lemma simple_nodup : forall s, In s (a_subs c) -> NoDup (sb_simple s).
Proof.
  intros s I.
  assert (NoDup (map (RS s) (sb_simple s))) as N.
  { pose proof all_rcvs_nodup as N. unfold all_rcvs in N. apply nodup_app_inv in N. destruct N as [N _].
    revert I N. induction (a_subs c) as [|s' l IH]; intros I N; [contradiction|]. cbn [flat_map] in N.
    apply nodup_app_inv in N. destruct N as [N1 [N2 _]]. destruct I as [->|I]; [|apply IH; assumption].
    cbn [members] in N1. inversion N1; assumption. }
  apply (NoDup_map_inv (RS s)). exact N.
Qed.
Lemma bbmd_inj : forall s s', In s (a_subs c) -> In s' (a_subs c) -> sb_bbmd s = sb_bbmd s' -> s = s'.
Proof.
  intros s s' I I' E. assert (RB s = RB s') as H by (apply rcv_inj; [apply in_all_RB; exact I | apply in_all_RB; exact I' | exact E]).
  inversion H. reflexivity.
Qed.
Lemma addr_not_bcast : forall r s, In r (all_rcvs c) -> In s (a_subs c) -> addr_eqb (rcv_addr r) (sb_bcast s) = false.
Proof. intros r s Ir Is. apply addr_eqb_neq. apply (wf_not_bcast c W); [apply in_map; exact Ir | exact Is]. Qed.

Lemma unicast_rcv : forall r0 src, In r0 (all_rcvs c) -> rcv_addr r0 <> src ->
  receivers c src (rcv_addr r0) = [(r0, DStation (rcv_addr r0))].
Proof.
  intros r0 src I Ns. unfold receivers.
  rewrite flat_map_nil.
  2:{ intros s Is. rewrite (addr_not_bcast r0 s I Is). reflexivity. }
  cbn [app].
  assert (filter (fun r => addr_eqb (rcv_addr r) (rcv_addr r0) && negb (addr_eqb (rcv_addr r) src)) (all_rcvs c) = [r0]) as ->; [|reflexivity].
  pose proof all_rcvs_nodup as N. revert I N. generalize rcv_inj. induction (all_rcvs c) as [|r l IH]; intros Inj I N; [contradiction|].
  inversion N as [|? ? Hn Hd]; subst. cbn [filter]. destruct I as [->|I].
  - rewrite addr_eqb_refl. apply addr_eqb_neq in Ns. rewrite Ns. cbn [andb negb]. f_equal.
    apply filter_none. intros y Iy. apply andb_false_iff. left. apply addr_eqb_neq. intros E.
    apply Hn. assert (y = r0) as <- by (apply Inj; [right; exact Iy | left; reflexivity | exact E]). exact Iy.
  - assert (addr_eqb (rcv_addr r) (rcv_addr r0) = false) as ->.
    { apply addr_eqb_neq. intros E. apply Hn. assert (r = r0) as -> by (apply Inj; [left; reflexivity | right; exact I | exact E]). exact I. }
    cbn [andb]. apply IH; [|exact I | exact Hd]. intros x y Ix Iy. apply Inj; right; assumption.
Qed.

Lemma bcast_rcv : forall s0 src, In s0 (a_subs c) ->
  receivers c src (sb_bcast s0) =
  map (fun r => (r, DBcast)) (filter (fun r => negb (addr_eqb (rcv_addr r) src)) (members s0)).
Proof.
  intros s0 src I. unfold receivers.
  rewrite (filter_none _ (all_rcvs c)).
  2:{ intros r Ir. rewrite (addr_not_bcast r s0 Ir I). reflexivity. }
  cbn [map]. rewrite app_nil_r, (flat_map_pick _ (a_subs c) s0 subs_nodup I); [rewrite addr_eqb_refl; reflexivity|].
  intros s Is N. destruct (addr_eqb (sb_bcast s0) (sb_bcast s)) eqn:E; [|reflexivity]. exfalso. apply N.
  apply addr_eqb_eq in E. apply (nodup_map_inj sb_bcast (a_subs c)); [exact (wf_bcasts c W) | exact Is | exact I | symmetry; exact E].
Qed.

Lemma receivers_in : forall src dst rd, In rd (receivers c src dst) -> In (fst rd) (all_rcvs c).
Proof.
  intros src dst rd I. unfold receivers in I. apply in_app_or in I. destruct I as [I|I].
  - apply in_flat_map in I. destruct I as [s [Is I]]. destruct (addr_eqb dst (sb_bcast s)); [|contradiction].
    apply in_map_iff in I. destruct I as [r [<- Ir]]. apply filter_In in Ir. apply (in_all_members s); tauto.
  - apply in_map_iff in I. destruct I as [r [<- Ir]]. apply filter_In in Ir. apply Ir.
Qed.

Definition bcast_delivery (a : addr) (p : npdu) (r : rcv) : delivery := (r, a, DBcast, p).
Definition fdsR (s : sub) : list rcv := map RF (fds_of c (sb_bbmd s)).
Definition simR (s : sub) : list rcv := map (RS s) (sb_simple s).
(* who receives a Forwarded-NPDU that another BBMD sends through its entry for subnet s.  A /32 ("two-hop")
   entry reaches the BBMD of s alone, which re-broadcasts on its own wire only if it lists itself
   (bbmd_confirmation's in_bdt test): hence a_keep c s s.  A subnet-mask ("one-hop") entry is a directed
   broadcast that the ordinary nodes of s hear themselves: no condition. *)
Definition entry_reach (s : sub) : list rcv :=
  if twohop s then RB s :: (if a_keep c (sb_bbmd s) (sb_bbmd s) then simR s else []) ++ fdsR s
  else (RB s :: fdsR s) ++ simR s.
Definition keptR (s0 : sub) : list sub := filter (fun s => a_keep c (sb_bbmd s0) (sb_bbmd s)) (a_subs c).
Definition peersR (s0 : sub) : list sub :=
  filter (fun s => a_keep c (sb_bbmd s0) (sb_bbmd s) && negb (addr_eqb (sb_bbmd s) (sb_bbmd s0))) (a_subs c).
Definition stations (L : list (addr * addr)) (m : msg) : list action := map (fun x => Down (DStation (fst x)) m) L.
Definition to_subs (L : list sub) (m : msg) : list action := map (fun s => Down (fwd_dest (entry s)) m) L.

Lemma fds_of_spec : forall b x, In x (fds_of c b) -> In x (a_fds c) /\ snd x = b.
Proof. intros b x I. apply filter_In in I. destruct I as [I E]. apply addr_eqb_eq in E. auto. Qed.

Lemma fwd_dest_entry : forall s, fwd_dest (entry s) = DStation (fwd_addr s).
Proof. reflexivity. Qed.

Lemma to_fdt_stations : forall L ttl rem m, to_fdt (map (fun x => mkFdte (fst x) ttl rem) L) m = stations L m.
Proof. intros. unfold to_fdt, stations. rewrite map_map. reflexivity. Qed.

Lemma to_peers_eq : forall s0 m, to_peers (bbmd_of c s0) m = to_subs (peersR s0) m.
Proof.
  intros. unfold to_peers, bbmd_of, bdt_of, peersR, to_subs. cbn [b_bdt b_addr].
  rewrite filter_map_comm, filter_filter, map_map. reflexivity.
Qed.

Lemma react_RB_fwd : forall s src d a p,
  react c (RB s) src d (Forwarded a p) =
  Up a DBcast p
  :: match d with
     | DStation _ => if in_bdt (sb_bbmd s) (bdt_of c (sb_bbmd s)) then [Down DBcast (Forwarded a p)] else []
     | DBcast => []
     end ++ stations (fds_of c (sb_bbmd s)) (Forwarded a p).
Proof.
  intros. unfold react, bbmd_of. cbn [bbmd_confirmation snd b_upper b_addr b_bdt b_fdt up_if app].
  unfold fdt_of. rewrite to_fdt_stations. reflexivity.
Qed.
Lemma react_RB_orig : forall s src d p,
  react c (RB s) src d (OrigBroadcast p) =
  Up src DBcast p :: to_subs (peersR s) (Forwarded src p) ++ stations (fds_of c (sb_bbmd s)) (Forwarded src p).
Proof.
  intros. unfold react. cbn [bbmd_confirmation snd]. rewrite to_peers_eq.
  unfold bbmd_of, fdt_of. cbn [b_upper b_fdt up_if app]. rewrite to_fdt_stations. reflexivity.
Qed.
Lemma react_RB_dist : forall s src d p,
  react c (RB s) src d (Distribute p) =
  Up src DBcast p
  :: map (fun s' => if addr_eqb (sb_bbmd s') (sb_bbmd s) then Down DBcast (Forwarded src p)
                    else Down (fwd_dest (entry s')) (Forwarded src p)) (keptR s)
  ++ stations (filter (fun x => negb (addr_eqb (fst x) src)) (fds_of c (sb_bbmd s))) (Forwarded src p).
Proof.
  intros. unfold react, bbmd_of. cbn [bbmd_confirmation snd b_upper b_addr b_bdt b_fdt up_if app].
  unfold bdt_of, fdt_of, keptR. rewrite map_map, filter_map_comm, to_fdt_stations. reflexivity.
Qed.
Lemma originate_RB : forall s p,
  originate c (RB s) p =
  Down DBcast (OrigBroadcast p)
  :: to_subs (peersR s) (Forwarded (sb_bbmd s) p) ++ stations (fds_of c (sb_bbmd s)) (Forwarded (sb_bbmd s) p).
Proof.
  intros. unfold originate, bbmd_indication. rewrite to_peers_eq.
  unfold bbmd_of, fdt_of. cbn [b_addr b_fdt]. rewrite to_fdt_stations. reflexivity.
Qed.
Lemma react_RF_fwd : forall x src d a p,
  react c (RF x) src d (Forwarded a p) = if addr_eqb src (snd x) then [Up a DBcast p] else [].
Proof.
  intros. unfold react, foreign_confirmation, foreign_of. cbn [f_status f_bbmd Z.eqb negb].
  destruct (addr_eqb src (snd x)); reflexivity.
Qed.
Lemma originate_RF : forall x p, originate c (RF x) p = [Down (DStation (snd x)) (Distribute p)].
Proof. reflexivity. Qed.

Lemma RF_not_RB : forall x s, In x (a_fds c) -> In s (a_subs c) -> fst x <> sb_bbmd s.
Proof.
  intros x s Ix Is E. assert (RF x = RB s) as H; [|discriminate].
  apply rcv_inj; [apply in_all_RF; exact Ix | apply in_all_RB; exact Is | exact E].
Qed.

Lemma members_not_bbmd : forall s0, In s0 (a_subs c) ->
  filter (fun r => negb (addr_eqb (rcv_addr r) (sb_bbmd s0))) (members s0) = simR s0.
Proof.
  intros s0 I. unfold members. cbn [filter rcv_addr]. rewrite addr_eqb_refl. cbn [negb].
  apply filter_all. intros r Ir. apply in_map_iff in Ir. destruct Ir as [y [<- Iy]].
  apply negb_true_iff. apply addr_eqb_neq. intros E.
  assert (RS s0 y = RB s0) as H; [|discriminate].
  apply rcv_inj; [apply in_all_RS; assumption | apply in_all_RB; exact I | exact E].
Qed.

Lemma in_bdt_keep : forall s, In s (a_subs c) ->
  in_bdt (sb_bbmd s) (bdt_of c (sb_bbmd s)) = a_keep c (sb_bbmd s) (sb_bbmd s).
Proof.
  intros s I. unfold in_bdt, bdt_of. destruct (a_keep c (sb_bbmd s) (sb_bbmd s)) eqn:K.
  - apply existsb_exists. exists (entry s). split; [|apply addr_eqb_refl].
    apply in_map. apply filter_In. auto.
  - destruct (existsb _ _) eqn:E; [|reflexivity]. apply existsb_exists in E. destruct E as [e [Ie Ee]].
    apply in_map_iff in Ie. destruct Ie as [s' [<- Is']]. apply filter_In in Is'. destruct Is' as [Is' K'].
    cbn [entry bd_addr] in Ee. apply addr_eqb_eq in Ee.
    assert (s = s') as <- by (apply bbmd_inj; assumption). congruence.
Qed.

Lemma peersR_spec : forall s0 s, In s (peersR s0) -> In s (a_subs c) /\ s <> s0.
Proof.
  intros s0 s I. apply filter_In in I. destruct I as [I H]. split; [exact I|]. intros ->.
  rewrite addr_eqb_refl, andb_false_r in H. discriminate.
Qed.
Lemma in_peersR : forall s0 s, In s (a_subs c) -> In s0 (a_subs c) -> s <> s0 ->
  a_keep c (sb_bbmd s0) (sb_bbmd s) = true -> In s (peersR s0).
Proof.
  intros s0 s I I0 N K. apply filter_In. split; [exact I|]. rewrite K. cbn [andb]. apply negb_true_iff.
  apply addr_eqb_neq. intros E. apply N. apply bbmd_inj; assumption.
Qed.

Definition own (r : rcv) : addr := match r with RS s _ | RB s => sb_bbmd s | RF x => snd x end.
Definition block (s : sub) : list rcv := RB s :: simR s ++ fdsR s.

Lemma in_block : forall s r, In r (block s) <-> RB s = r \/ In r (simR s) \/ In r (fdsR s).
Proof. intros. unfold block. cbn [In]. rewrite in_app_iff. reflexivity. Qed.

Lemma block_own : forall s r, In r (block s) -> own r = sb_bbmd s.
Proof.
  intros s r I. apply in_block in I. destruct I as [<-|[I|I]]; [reflexivity | |]; apply in_map_iff in I.
  - destruct I as [y [<- _]]. reflexivity.
  - destruct I as [x [<- Ix]]. apply (fds_of_spec _ x Ix).
Qed.
Lemma block_all : forall s r, In s (a_subs c) -> In r (block s) -> In r (all_rcvs c).
Proof.
  intros s r Is I. apply in_block in I. destruct I as [<-|[I|I]]; [apply in_all_RB; exact Is | |]; apply in_map_iff in I.
  - destruct I as [y [<- Iy]]. apply in_all_RS; assumption.
  - destruct I as [x [<- Ix]]. apply in_all_RF. apply (fds_of_spec _ x Ix).
Qed.
Lemma all_block : forall r, In r (all_rcvs c) -> exists s, In s (a_subs c) /\ In r (block s).
Proof.
  intros r I. apply in_all_inv in I. destruct r as [s y|s|x].
  - exists s. split; [apply I|]. apply in_block. right. left. apply in_map. apply I.
  - exists s. split; [exact I | left; reflexivity].
  - destruct (wf_home c W x I) as [s [Is Hs]]. exists s. split; [exact Is|]. apply in_block. right. right.
    apply in_map. apply filter_In. split; [exact I | apply addr_eqb_eq; exact Hs].
Qed.
Lemma block_inj : forall s s' r, In s (a_subs c) -> In s' (a_subs c) ->
  In r (block s) -> In r (block s') -> s = s'.
Proof.
  intros s s' r I I' H H'. apply bbmd_inj; [exact I | exact I' |].
  rewrite <- (block_own s r H). exact (block_own s' r H').
Qed.
Lemma sub_eq_or_neq : forall s s0, In s (a_subs c) -> In s0 (a_subs c) -> s = s0 \/ s <> s0.
Proof.
  intros s s0 I I0. destruct (addr_eqb (sb_bbmd s) (sb_bbmd s0)) eqn:E.
  - left. apply bbmd_inj; [exact I | exact I0 | apply addr_eqb_eq; exact E].
  - right. intros ->. rewrite addr_eqb_refl in E. discriminate.
Qed.

Lemma entry_reach_block : forall s r, In r (entry_reach s) -> In r (block s).
Proof.
  intros s r I. apply in_block. unfold entry_reach in I. destruct (twohop s), (a_keep c (sb_bbmd s) (sb_bbmd s));
    cbn [In app] in I; rewrite ?in_app_iff in I; cbn [In] in I; tauto.
Qed.
Lemma block_entry_reach : forall s r, a_keep c (sb_bbmd s) (sb_bbmd s) = true -> In r (block s) -> In r (entry_reach s).
Proof.
  intros s r K I. apply in_block in I. unfold entry_reach. rewrite K. destruct (twohop s);
    cbn [In app]; rewrite ?in_app_iff; cbn [In]; tauto.
Qed.

Lemma nodup_simR : forall s, In s (a_subs c) -> NoDup (simR s).
Proof.
  intros s I. apply nodup_map_on; [apply simple_nodup; exact I|]. intros x y _ _ H. inversion H. reflexivity.
Qed.
Lemma nodup_fdsR : forall s, NoDup (fdsR s).
Proof.
  intros s. apply nodup_map_on; [apply NoDup_filter; apply fds_nodup|]. intros x y _ _ H. inversion H. reflexivity.
Qed.
Lemma nodup_parts : forall s S F, NoDup S -> NoDup F -> incl S (simR s) -> incl F (fdsR s) ->
  NoDup (RB s :: S ++ F).
Proof.
  intros s S F NS NF HS HF. constructor.
  - intros H. apply in_app_or in H. destruct H as [H|H]; [apply HS in H | apply HF in H]; revert H; apply not_in_map; discriminate.
  - apply nodup_app_intro; [exact NS | exact NF |]. intros r H1 H2. apply HS, in_map_iff in H1. destruct H1 as [y [<- _]].
    apply HF in H2. revert H2. apply not_in_map. discriminate.
Qed.
Lemma nodup_entry_reach : forall s, In s (a_subs c) -> NoDup (entry_reach s).
Proof.
  intros s I. pose proof (nodup_simR s I) as NS. pose proof (nodup_fdsR s) as NF. unfold entry_reach. destruct (twohop s).
  - apply nodup_parts; [destruct (a_keep c _ _); [exact NS | constructor] | exact NF | | apply incl_refl].
    destruct (a_keep c _ _); [apply incl_refl | apply incl_nil_l].
  - apply (Permutation_NoDup (l := RB s :: simR s ++ fdsR s)); [apply perm_skip, Permutation_app_comm|].
    apply nodup_parts; [exact NS | exact NF | apply incl_refl | apply incl_refl].
Qed.

Lemma peers_reach_block : forall s0 r, In r (flat_map entry_reach (peersR s0)) ->
  exists s, In s (a_subs c) /\ s <> s0 /\ In r (block s).
Proof.
  intros s0 r I. apply in_flat_map in I. destruct I as [s [Is Ir]]. destruct (peersR_spec s0 s Is) as [I N].
  exists s. repeat split; [exact I | exact N | apply entry_reach_block; exact Ir].
Qed.
Lemma nodup_peers_reach : forall s0, NoDup (flat_map entry_reach (peersR s0)).
Proof.
  intros s0. apply nodup_flat_map; [apply NoDup_filter; apply subs_nodup | |].
  - intros s I. apply nodup_entry_reach. apply (peersR_spec s0 s I).
  - intros s s' r I I' D H H'. apply D.
    apply (block_inj s s' r); [apply (peersR_spec s0 s I) | apply (peersR_spec s0 s' I') | |];
      apply entry_reach_block; assumption.
Qed.

(* sh_cover: `full c` says that every BBMD lists every BBMD *)
Record shape (o : rcv) (E : list rcv) : Prop := mkShape {
  sh_nodup : NoDup E;
  sh_incl : forall r, In r E -> In r (all_rcvs c);
  sh_noecho : ~ In o E;
  sh_cover : full c -> forall r, In r (all_rcvs c) -> r <> o -> In r E
}.

Lemma shape_perm : forall o E E', Permutation E' E -> shape o E' -> shape o E.
Proof.
  intros o E E' P [N Inc Ne Cov]. split.
  - apply (Permutation_NoDup P). exact N.
  - intros r I. apply Inc. apply (Permutation_in _ (Permutation_sym P)). exact I.
  - intros I. apply Ne. apply (Permutation_in _ (Permutation_sym P)). exact I.
  - intros F r I Nr. apply (Permutation_in _ P). apply Cov; assumption.
Qed.

(* A: what is reached of o's own block; the rest goes through the entries its BBMD lists, into other blocks *)
Lemma shape_own : forall o s0 A, In s0 (a_subs c) -> In o (block s0) -> NoDup A ->
  (forall r, In r A -> In r (block s0) /\ r <> o) ->
  (full c -> forall r, In r (block s0) -> r <> o -> In r A) ->
  shape o (A ++ flat_map entry_reach (peersR s0)).
Proof.
  intros o s0 A I0 Io NA HA Cov.
  assert (forall r, In r (flat_map entry_reach (peersR s0)) -> In r (block s0) -> False) as D.
  { intros r H H0. destruct (peers_reach_block s0 r H) as [s [Is [N Hs]]]. apply N. apply (block_inj s s0 r); assumption. }
  split.
  - apply nodup_app_intro; [exact NA | apply nodup_peers_reach |]. intros r H1 H2. apply (D r H2). apply (HA r H1).
  - intros r H. apply in_app_or in H. destruct H as [H|H].
    + apply (block_all s0); [exact I0 | apply (HA r H)].
    + destruct (peers_reach_block s0 r H) as [s [Is [_ Hs]]]. apply (block_all s); assumption.
  - intros H. apply in_app_or in H. destruct H as [H|H]; [apply (HA o H); reflexivity | exact (D o H Io)].
  - intros F r Ir Nr. destruct (all_block r Ir) as [s [Is Hs]]. apply in_or_app.
    destruct (sub_eq_or_neq s s0 Is I0) as [->|N]; [left; apply Cov; assumption | right].
    apply in_flat_map. exists s. split; [apply in_peersR; auto | apply block_entry_reach; [apply F | exact Hs]].
Qed.

Definition reach_simple (s0 : sub) (x : addr) : list rcv :=
  (RB s0 :: flat_map entry_reach (peersR s0) ++ fdsR s0)
  ++ map (RS s0) (filter (fun y => negb (addr_eqb y x)) (sb_simple s0)).

Lemma shape_simple : forall s0 x, In s0 (a_subs c) -> In x (sb_simple s0) ->
  shape (RS s0 x) (reach_simple s0 x).
Proof.
  intros s0 x I Ix. set (S := map (RS s0) (filter (fun y => negb (addr_eqb y x)) (sb_simple s0))).
  apply (shape_perm _ _ ((RB s0 :: S ++ fdsR s0) ++ flat_map entry_reach (peersR s0))).
  { unfold reach_simple. fold S. cbn [app]. apply perm_skip. rewrite <- (app_assoc S).
    eapply Permutation_trans; [apply Permutation_app_comm | apply Permutation_app_tail, Permutation_app_comm]. }
  assert (incl S (simR s0)) as HS by (apply incl_map, incl_filter).
  apply shape_own; [exact I | apply in_block; right; left; apply in_map; exact Ix | | |].
  - apply nodup_parts; [|apply nodup_fdsR | exact HS | apply incl_refl].
    apply nodup_map_on; [apply NoDup_filter, simple_nodup, I|]. intros a b _ _ H. inversion H. reflexivity.
  - intros r [<-|H]; [split; [left; reflexivity | discriminate]|]. apply in_app_or in H. destruct H as [H|H].
    + split; [apply in_block; auto|]. intros ->. apply in_map_iff in H. destruct H as [y [E Iy]]. inversion E; subst.
      apply filter_In in Iy. rewrite addr_eqb_refl in Iy. destruct Iy; discriminate.
    + split; [apply in_block; auto|]. intros ->. revert H. apply not_in_map. discriminate.
  - intros _ r H Nr. apply in_block in H. destruct H as [<-|[H|H]]; [left; reflexivity | |]; right; apply in_or_app; [left | right; exact H].
    apply in_map_iff in H. destruct H as [y [<- Iy]]. apply in_map, filter_In. split; [exact Iy|].
    apply negb_true_iff, addr_eqb_neq. intros ->. apply Nr. reflexivity.
Qed.

Definition reach_bbmd (s0 : sub) : list rcv :=
  simR s0 ++ flat_map entry_reach (peersR s0) ++ fdsR s0.

Lemma shape_bbmd : forall s0, In s0 (a_subs c) -> shape (RB s0) (reach_bbmd s0).
Proof.
  intros s0 I.
  apply (shape_perm _ _ ((simR s0 ++ fdsR s0) ++ flat_map entry_reach (peersR s0))).
  { unfold reach_bbmd. rewrite <- app_assoc. apply Permutation_app_head, Permutation_app_comm. }
  pose proof (nodup_parts s0 _ _ (nodup_simR s0 I) (nodup_fdsR s0) (incl_refl _) (incl_refl _)) as N.
  apply shape_own; [exact I | left; reflexivity | inversion N; assumption | |].
  - intros r H. split; [right; exact H|]. intros ->. inversion N; contradiction.
  - intros _ r [<-|H] Nr; [contradiction | exact H].
Qed.

Definition dist_reach (s0 s : sub) : list rcv :=
  if addr_eqb (sb_bbmd s) (sb_bbmd s0) then simR s0 else entry_reach s.
Definition reach_foreign (s0 : sub) (x0 : addr * addr) : list rcv :=
  RB s0 :: flat_map (dist_reach s0) (keptR s0)
  ++ map RF (filter (fun x => negb (addr_eqb (fst x) (fst x0))) (fds_of c (sb_bbmd s0))).

(* the BBMD's own entry, if it has one, serves its ordinary nodes; the other entries are its peers' *)
Lemma dist_reach_split : forall s0, In s0 (a_subs c) ->
  Permutation ((if a_keep c (sb_bbmd s0) (sb_bbmd s0) then simR s0 else []) ++ flat_map entry_reach (peersR s0))
              (flat_map (dist_reach s0) (keptR s0)).
Proof.
  intros s0 I. unfold keptR, peersR. rewrite <- !flat_map_if.
  set (K := if a_keep c (sb_bbmd s0) (sb_bbmd s0) then simR s0 else []).
  assert (flat_map (fun s => if addr_eqb (sb_bbmd s) (sb_bbmd s0) then K else []) (a_subs c) = K) as EK.
  { rewrite (flat_map_pick _ _ s0 subs_nodup I); [rewrite addr_eqb_refl; reflexivity|].
    intros s Is N. assert (addr_eqb (sb_bbmd s) (sb_bbmd s0) = false) as ->; [|reflexivity].
    apply addr_eqb_neq. intros E. apply N. apply bbmd_inj; assumption. }
  rewrite <- EK at 1. eapply Permutation_trans; [apply Permutation_sym, perm_flat_map_app|].
  apply perm_flat_map_ext. intros s _. unfold dist_reach, K. destruct (addr_eqb (sb_bbmd s) (sb_bbmd s0)) eqn:E.
  - apply addr_eqb_eq in E. rewrite E. destruct (a_keep c _ _); cbn [andb negb app]; rewrite ?app_nil_r; apply Permutation_refl.
  - cbn [negb app]. rewrite andb_true_r. apply Permutation_refl.
Qed.

Lemma shape_foreign : forall s0 x0, In s0 (a_subs c) -> In x0 (a_fds c) ->
  snd x0 = sb_bbmd s0 -> shape (RF x0) (reach_foreign s0 x0).
Proof.
  intros s0 x0 I Ix Hx. set (K := if a_keep c (sb_bbmd s0) (sb_bbmd s0) then simR s0 else []).
  set (F := map RF (filter (fun x => negb (addr_eqb (fst x) (fst x0))) (fds_of c (sb_bbmd s0)))).
  apply (shape_perm _ _ ((RB s0 :: K ++ F) ++ flat_map entry_reach (peersR s0))).
  { unfold reach_foreign. fold F. cbn [app]. apply perm_skip. rewrite <- app_assoc.
    eapply Permutation_trans; [apply Permutation_app_head, Permutation_app_comm|].
    rewrite app_assoc. apply Permutation_app_tail, dist_reach_split, I. }
  assert (incl K (simR s0)) as HK by (unfold K; destruct (a_keep c _ _); [apply incl_refl | apply incl_nil_l]).
  assert (incl F (fdsR s0)) as HF by (apply incl_map, incl_filter).
  assert (In (RF x0) (fdsR s0)) as Io by (apply in_map, filter_In; split; [exact Ix | apply addr_eqb_eq; exact Hx]).
  apply shape_own; [exact I | apply in_block; auto | | |].
  - apply nodup_parts; [unfold K; destruct (a_keep c _ _); [apply nodup_simR, I | constructor] | | exact HK | exact HF].
    apply nodup_map_on; [apply NoDup_filter, NoDup_filter, fds_nodup|]. intros a b _ _ H. inversion H. reflexivity.
  - intros r [<-|H]; [split; [left; reflexivity | discriminate]|]. apply in_app_or in H. destruct H as [H|H].
    + split; [apply in_block; auto|]. intros ->. apply HK in H. revert H. apply not_in_map. discriminate.
    + split; [apply in_block; auto|]. intros ->. apply in_map_iff in H. destruct H as [z [E Iz]]. inversion E; subst.
      apply filter_In in Iz. rewrite addr_eqb_refl in Iz. destruct Iz; discriminate.
  - intros Fu r H Nr. apply in_block in H. destruct H as [<-|[H|H]]; [left; reflexivity | |]; right; apply in_or_app; [left | right].
    + unfold K. rewrite Fu. exact H.
    + apply in_map_iff in H. destruct H as [z [<- Iz]]. apply in_map, filter_In. split; [exact Iz|].
      apply negb_true_iff, addr_eqb_neq. intros E. apply Nr.
      apply rcv_inj; [apply in_all_RF, (fds_of_spec _ z Iz) | apply in_all_RF; exact Ix | exact E].
Qed.

Definition home (x : addr * addr) : option sub := List.find (fun s => addr_eqb (snd x) (sb_bbmd s)) (a_subs c).
Definition reach (o : rcv) : list rcv :=
  match o with
  | RS s x => reach_simple s x
  | RB s => reach_bbmd s
  | RF x => match home x with Some s => reach_foreign s x | None => [] end
  end.

Lemma home_spec : forall x, In x (a_fds c) ->
  exists s, home x = Some s /\ In s (a_subs c) /\ snd x = sb_bbmd s.
Proof.
  intros x Ix. destruct (wf_home c W x Ix) as [s [Is Hs]]. unfold home.
  destruct (List.find _ (a_subs c)) as [s'|] eqn:F.
  - apply find_some in F. destruct F as [Is' E]. apply addr_eqb_eq in E. exists s'. auto.
  - exfalso. pose proof (find_none _ _ F s Is) as E. cbv beta in E. rewrite Hs, addr_eqb_refl in E. discriminate.
Qed.

Lemma shape_reach : forall o, In o (all_rcvs c) -> shape o (reach o).
Proof.
  intros o Io. pose proof (in_all_inv o Io) as J. destruct o as [s x|s|x]; cbn [reach].
  - apply shape_simple; apply J.
  - apply shape_bbmd. exact J.
  - destruct (home_spec x J) as [s [-> [Is Hs]]]. apply shape_foreign; assumption.
Qed.
End Cfg.

(* The recursion of BipDeliv.spread with its leaves left open: `up` is what an Up at receiver r
   yields, `dn` what a Down yields that is met with no depth left.  spread (S n) is the instance
   that collects the deliveries (spread_walk); the instance that collects the Downs left over is the
   completeness test of CascadeFacts.  Depth n here is depth S n of spread. *)
Section Walk.
Context {B : Type} (up : rcv -> addr -> dest -> npdu -> list B) (dn : dest -> msg -> list B) (c : acfg).

Fixpoint walk (n : nat) (r : rcv) (acts : list action) : list B :=
  flat_map (fun a =>
    match a with
    | Up s d p => up r s d p
    | Down d m =>
        match n with
        | O => dn d m
        | S k => match out_addr r d with
                 | None => []
                 | Some dst => flat_map (fun rd => walk k (fst rd) (react c (fst rd) (rcv_addr r) (snd rd) m))
                                        (receivers c (rcv_addr r) dst)
                 end
        end
    | Sap _ _ => []
    end) acts.

Lemma walk_app : forall n r l1 l2, walk n r (l1 ++ l2) = walk n r l1 ++ walk n r l2.
Proof. intros [|n] r l1 l2; apply flat_map_app. Qed.
Lemma walk_cons : forall n r a l, walk n r (a :: l) = walk n r [a] ++ walk n r l.
Proof. intros. change (a :: l) with ([a] ++ l). apply walk_app. Qed.
Lemma walk_map {A} : forall n r (f : A -> action) L, walk n r (map f L) = flat_map (fun x => walk n r [f x]) L.
Proof. intros n r f L. induction L as [|x L IH]; [destruct n; reflexivity|]. cbn [map flat_map]. rewrite walk_cons, IH. reflexivity. Qed.
Lemma walk_up : forall n r s d p, walk n r [Up s d p] = up r s d p.
Proof. intros [|n] r s d p; apply app_nil_r. Qed.
Lemma walk_down : forall n r d m dst, out_addr r d = Some dst ->
  walk (S n) r [Down d m] =
  flat_map (fun rd => walk n (fst rd) (react c (fst rd) (rcv_addr r) (snd rd) m)) (receivers c (rcv_addr r) dst).
Proof. intros n r d m dst H. cbn [walk flat_map]. rewrite H. apply app_nil_r. Qed.

Context (W : wf c).
Let copies (a : addr) (p : npdu) (E : list rcv) : list B := flat_map (fun r => up r a DBcast p) E.

Lemma walk_stations : forall s0 k a p L, In s0 (a_subs c) -> incl L (fds_of c (sb_bbmd s0)) ->
  walk (S k) (RB s0) (stations L (Forwarded a p)) = copies a p (map RF L).
Proof.
  intros s0 k a p L I0 H. unfold stations, copies. rewrite walk_map, flat_map_map. apply flat_map_ext_in. intros x Ix.
  destruct (fds_of_spec c _ x (H x Ix)) as [Ia Hx].
  rewrite (walk_down _ _ _ _ (fst x)) by reflexivity. change (fst x) with (rcv_addr (RF x)) at 1.
  rewrite (unicast_rcv c W (RF x)); [| apply in_all_RF; exact Ia | apply (RF_not_RB c W); assumption].
  cbn [flat_map fst snd]. rewrite app_nil_r, react_RF_fwd. cbn [rcv_addr]. rewrite Hx, addr_eqb_refl. apply walk_up.
Qed.
Lemma walk_fds : forall s0 k a p, In s0 (a_subs c) ->
  walk (S k) (RB s0) (stations (fds_of c (sb_bbmd s0)) (Forwarded a p)) = copies a p (fdsR c s0).
Proof. intros s0 k a p I. apply walk_stations; [exact I | apply incl_refl]. Qed.

Lemma walk_local : forall s0 k m a p, In s0 (a_subs c) -> simple_confirmation (sb_bbmd s0) DBcast m = [Up a DBcast p] ->
  walk (S k) (RB s0) [Down DBcast m] = copies a p (simR s0).
Proof.
  intros s0 k m a p I Hm. rewrite (walk_down _ _ _ _ (sb_bcast s0)) by reflexivity.
  cbn [rcv_addr]. rewrite (bcast_rcv c W s0 _ I), (members_not_bbmd c W s0 I).
  unfold simR, copies. rewrite !flat_map_map. apply flat_map_ext. intros y. cbn [fst snd react]. rewrite Hm. apply walk_up.
Qed.

Lemma walk_entry : forall s1 s k a p, In s1 (a_subs c) -> In s (a_subs c) -> s <> s1 ->
  walk (S (S k)) (RB s1) [Down (fwd_dest (entry s)) (Forwarded a p)] = copies a p (entry_reach c s).
Proof.
  intros s1 s k a p I1 I N. rewrite fwd_dest_entry, (walk_down _ _ _ _ (fwd_addr s)) by reflexivity.
  cbn [rcv_addr]. unfold entry_reach, copies. destruct (twohop s) eqn:T.
  - apply addr_eqb_eq in T. rewrite T. change (sb_bbmd s) with (rcv_addr (RB s)) at 1.
    rewrite (unicast_rcv c W (RB s)); [| apply in_all_RB; exact I |].
    2:{ cbn [rcv_addr]. intros E. apply N. apply (bbmd_inj c W); assumption. }
    cbn [flat_map fst snd rcv_addr]. rewrite app_nil_r, react_RB_fwd, (in_bdt_keep c W s I).
    rewrite walk_cons, walk_up, walk_app, flat_map_app. f_equal. f_equal; [|apply walk_fds; exact I].
    destruct (a_keep c (sb_bbmd s) (sb_bbmd s)); [apply walk_local; [exact I | reflexivity] | reflexivity].
  - destruct (wf_entry c W s I) as [E|E]; [unfold twohop in T; rewrite E, addr_eqb_refl in T; discriminate|].
    rewrite E, (bcast_rcv c W s _ I).
    rewrite (filter_all _ (members s)).
    2:{ intros r Ir. apply negb_true_iff. apply addr_eqb_neq. intros Er. apply N.
        assert (r = RB s1) as -> by (apply (rcv_inj c W); [apply (in_all_members c s); assumption | apply in_all_RB; exact I1 | exact Er]).
        destruct Ir as [Ir|Ir]; [inversion Ir; reflexivity|]. apply in_map_iff in Ir. destruct Ir as [y [Hy _]]. discriminate. }
    unfold members. cbn [map flat_map fst snd]. rewrite react_RB_fwd. cbn [app].
    rewrite walk_cons, walk_up, (walk_fds s k a p I). unfold copies. cbn [flat_map].
    rewrite flat_map_app, <- app_assoc. do 2 f_equal.
    unfold simR. rewrite !flat_map_map. apply flat_map_ext. intros y. apply walk_up.
Qed.

Lemma walk_entries : forall s1 k a p L, In s1 (a_subs c) -> (forall s, In s L -> In s (a_subs c) /\ s <> s1) ->
  walk (S (S k)) (RB s1) (to_subs L (Forwarded a p)) = copies a p (flat_map (entry_reach c) L).
Proof.
  intros s1 k a p L I1 H. unfold to_subs, copies. rewrite walk_map, flat_map_flat_map. apply flat_map_ext_in. intros s Is.
  destruct (H s Is) as [I N]. apply walk_entry; assumption.
Qed.

Lemma walk_dist : forall s0 k a p K, In s0 (a_subs c) -> (forall s, In s K -> In s (a_subs c)) ->
  walk (S (S k)) (RB s0) (map (fun s => if addr_eqb (sb_bbmd s) (sb_bbmd s0) then Down DBcast (Forwarded a p)
                                        else Down (fwd_dest (entry s)) (Forwarded a p)) K)
  = copies a p (flat_map (dist_reach c s0) K).
Proof.
  intros s0 k a p K I0 H. unfold copies. rewrite walk_map, flat_map_flat_map. apply flat_map_ext_in. intros s Is.
  unfold dist_reach. destruct (addr_eqb (sb_bbmd s) (sb_bbmd s0)) eqn:E.
  - apply walk_local; [exact I0 | reflexivity].
  - apply walk_entry; [exact I0 | apply H; exact Is |]. intros ->. rewrite addr_eqb_refl in E. discriminate.
Qed.

(* the three kinds of origin: the tree of a broadcast is complete within depth 3 of walk, i.e. 4 of spread *)
Lemma walk_simple : forall s0 x n p, In s0 (a_subs c) -> In x (sb_simple s0) ->
  walk (3 + n) (RS s0 x) (originate c (RS s0 x) p) = copies x p (reach_simple c s0 x).
Proof.
  intros s0 x n p I Ix. change (3 + n)%nat with (S (S (S n))). cbn [originate simple_indication].
  rewrite (walk_down _ _ _ _ (sb_bcast s0)) by reflexivity. cbn [rcv_addr].
  rewrite (bcast_rcv c W s0 _ I). unfold members. cbn [filter rcv_addr].
  assert (addr_eqb (sb_bbmd s0) x = false) as ->.
  { apply addr_eqb_neq. intros E. assert (RB s0 = RS s0 x) as H; [|discriminate].
    apply (rcv_inj c W); [apply in_all_RB; exact I | apply in_all_RS; assumption | exact E]. }
  cbn [negb map flat_map fst snd]. unfold reach_simple, copies. rewrite flat_map_app. f_equal.
  - rewrite react_RB_orig, walk_cons, walk_up, walk_app. cbn [flat_map]. f_equal. rewrite flat_map_app. f_equal.
    + apply walk_entries; [exact I | apply peersR_spec].
    + apply walk_fds. exact I.
  - rewrite filter_map_comm. cbn [rcv_addr]. rewrite !flat_map_map. apply flat_map_ext. intros y. apply walk_up.
Qed.

Lemma walk_bbmd : forall s0 n p, In s0 (a_subs c) ->
  walk (3 + n) (RB s0) (originate c (RB s0) p) = copies (sb_bbmd s0) p (reach_bbmd c s0).
Proof.
  intros s0 n p I. change (3 + n)%nat with (S (S (S n))). rewrite originate_RB, walk_cons, walk_app.
  unfold reach_bbmd, copies. rewrite !flat_map_app. f_equal; [|f_equal].
  - apply walk_local; [exact I | reflexivity].
  - apply walk_entries; [exact I | apply peersR_spec].
  - apply walk_fds. exact I.
Qed.

Lemma walk_foreign : forall s0 x0 n p, In s0 (a_subs c) -> In x0 (a_fds c) -> snd x0 = sb_bbmd s0 ->
  walk (3 + n) (RF x0) (originate c (RF x0) p) = copies (fst x0) p (reach_foreign c s0 x0).
Proof.
  intros s0 x0 n p I Ix Hx. change (3 + n)%nat with (S (S (S n))). rewrite originate_RF.
  rewrite (walk_down _ _ _ _ (snd x0)) by reflexivity. cbn [rcv_addr]. rewrite Hx.
  change (sb_bbmd s0) with (rcv_addr (RB s0)) at 1.
  rewrite (unicast_rcv c W (RB s0)); [| apply in_all_RB; exact I |].
  2:{ cbn [rcv_addr]. intros E. apply (RF_not_RB c W x0 s0 Ix I). symmetry. exact E. }
  cbn [flat_map fst snd rcv_addr]. rewrite app_nil_r, react_RB_dist, walk_cons, walk_up, walk_app.
  unfold reach_foreign, copies. cbn [flat_map]. f_equal. rewrite flat_map_app. f_equal.
  - apply walk_dist; [exact I|]. intros s Is. apply filter_In in Is. apply Is.
  - apply walk_stations; [exact I | apply incl_filter].
Qed.

Lemma walk_origin : forall o n p, In o (all_rcvs c) ->
  walk (3 + n) o (originate c o p) = copies (rcv_addr o) p (reach c o).
Proof.
  intros o n p Io. pose proof (in_all_inv c o Io) as J. destruct o as [s x|s|x]; cbn [reach].
  - apply walk_simple; apply J.
  - apply walk_bbmd. exact J.
  - destruct (home_spec c W x J) as [s [-> [Is Hs]]]. apply walk_foreign; assumption.
Qed.
End Walk.

Lemma spread_walk : forall n c r acts,
  spread (S n) c r acts = walk (fun r s d p => [(r, s, d, p)]) (fun _ _ => []) c n r acts.
Proof.
  induction n as [|k IH]; intros c r acts; apply flat_map_ext; intros [s d p|d m|s m]; try reflexivity.
  - destruct (out_addr r d); [|reflexivity]. apply flat_map_nil. intros rd _. reflexivity.
  - destruct (out_addr r d); [|reflexivity]. apply flat_map_ext. intros rd. apply IH.
Qed.

Lemma broadcast_closed : forall c o n p, wf c -> In o (all_rcvs c) ->
  broadcast n c o p = map (bcast_delivery (rcv_addr o) p) (reach c o).
Proof.
  intros c o n p W Io. unfold broadcast. change (4 + n)%nat with (S (3 + n)).
  rewrite spread_walk, (walk_origin _ _ c W o n p Io). apply flat_map_single.
Qed.

Lemma shape_addr (c : acfg) (W : wf c) : forall o E, In o (all_rcvs c) -> shape c o E ->
  NoDup (map rcv_addr E) /\ ~ In (rcv_addr o) (map rcv_addr E) /\
  (full c -> forall a', In a' (all_addrs c) -> a' <> rcv_addr o -> In a' (map rcv_addr E)).
Proof.
  intros o E Io [N Inc Ne Cov]. repeat split.
  - apply nodup_map_on; [exact N|]. intros x y Hx Hy. apply (rcv_inj c W); apply Inc; assumption.
  - intros H. apply in_map_iff in H. destruct H as [r [Hr Ir]]. apply Ne.
    assert (r = o) as <- by (apply (rcv_inj c W); [apply Inc; exact Ir | exact Io | exact Hr]). exact Ir.
  - intros F a' Ia Na. apply in_map_iff in Ia. destruct Ia as [r [<- Ir]]. apply in_map.
    apply Cov; [exact F | exact Ir |]. intros ->. apply Na. reflexivity.
Qed.

Theorem broadcast_once_any_size : forall c o n p, wf c -> In o (all_rcvs c) ->
  let D := broadcast n c o p in
  (forall d, In d D -> d = (d_who d, rcv_addr o, DBcast, p)) /\
  NoDup (map d_addr D) /\
  ~ In (rcv_addr o) (map d_addr D) /\
  (full c -> forall a, In a (all_addrs c) -> a <> rcv_addr o -> In a (map d_addr D)).
Proof.
  intros c o n p W Io. pose proof (broadcast_closed c o n p W Io) as HD. pose proof (shape_reach c W o Io) as HS.
  cbv zeta. rewrite HD, map_map.
  change (map (fun r => d_addr (bcast_delivery (rcv_addr o) p r)) (reach c o)) with (map rcv_addr (reach c o)).
  split; [|exact (shape_addr c W o _ Io HS)]. intros d Hd. apply in_map_iff in Hd. destruct Hd as [r [<- _]]. reflexivity.
Qed.

Definition addr_eq_dec : forall a b : addr, {a = b} + {a <> b}.
Proof. decide equality; apply N.eq_dec. Defined.

Corollary broadcast_count_any_size : forall c o n p a, wf c -> full c -> In o (all_rcvs c) -> In a (all_addrs c) ->
  count_occ addr_eq_dec (map d_addr (broadcast n c o p)) a = if addr_eq_dec a (rcv_addr o) then 0%nat else 1%nat.
Proof.
  intros c o n p a W F Io Ia. destruct (broadcast_once_any_size c o n p W Io) as [_ [N [Ne Cov]]].
  destruct (addr_eq_dec a (rcv_addr o)) as [->|Na].
  - apply count_occ_not_In. exact Ne.
  - apply (proj1 (NoDup_count_occ' addr_eq_dec _) N). apply Cov; assumption.
Qed.

Lemma nodupb_sound : forall l, nodupb l = true -> NoDup l.
Proof.
  induction l as [|x l IH]; intros H; [constructor|]. cbn [nodupb] in H. apply andb_true_iff in H. destruct H as [H1 H2].
  constructor; [|apply IH; exact H2]. intros I. apply negb_true_iff in H1.
  assert (existsb (addr_eqb x) l = true) as E; [|congruence].
  apply existsb_exists. exists x. split; [exact I | apply addr_eqb_refl].
Qed.
Theorem wf_b_sound : forall c, wf_b c = true -> wf c.
Proof.
  intros c H. unfold wf_b in H. rewrite !andb_true_iff in H. destruct H as [[[[H1 H2] H3] H4] H5]. split.
  - apply nodupb_sound. exact H1.
  - apply nodupb_sound. exact H2.
  - intros a s Ia Is E. pose proof (proj1 (forallb_forall _ _) H3 a Ia) as X.
    pose proof (proj1 (forallb_forall _ _) X s Is) as Y. apply negb_true_iff in Y. apply addr_eqb_neq in Y. contradiction.
  - intros x Ix. pose proof (proj1 (forallb_forall _ _) H4 x Ix) as X. apply existsb_exists in X.
    destruct X as [s [Is E]]. exists s. split; [exact Is | apply addr_eqb_eq; exact E].
  - intros s Is. pose proof (proj1 (forallb_forall _ _) H5 s Is) as X. apply orb_true_iff in X.
    destruct X as [X|X]; apply addr_eqb_eq in X; auto.
Qed.
