(* CovFacts.v — lemmas about the COV model (Cov.v) behind the C16 theorems.  The notions the theorems of props/C16.v are
   stated with are defined below; `idinv`, `is_cancel_of`, `not_due_before` are in CovRun.v, `obj_q`, `qinv` in
   CovQueue.v, `reference`, `pending` in CovRound.v. *)
From Bac Require Import Base ListFacts Cov.
Open Scope Z_scope.

Definition key (x : sub) : Z * Z * Z := (s_cli x, s_proc x, s_oid x).
Definition keys (sb : list sub) : list (Z * Z * Z) := map key sb.
Definition nkey (n : ntf) : Z * Z * Z := (n_cli n, n_proc n, n_oid n).
Definition akey (a : act) : Z * Z * Z := (a_cli a, a_proc a, a_oid a).
Definition oids (os : list obj) : list Z := map oid os.

(* requests as they arrive on the wire: lifetimes are Unsigned, time does not run backwards *)
Definition wf_ev (e : ev) : Prop :=
  match e with
  | Subscribe _ _ _ _ (Some l) => 0 <= l
  | SubscribeNow _ _ _ _ (Some l) => 0 <= l
  | Advance t => 0 <= t
  | _ => True
  end.

Definition all_ntfs (os : list out) : list ntf := flat_map o_ntfs os.

(* timeRemaining as reported at nw *)
Definition remaining (life : Z) (expiry nw : Z) : Z :=
  if life =? 0 then 0 else Z.max 1 (Z.quot (expiry - nw) TICKS).

Definition sub_live (nw : Z) (x : sub) : Prop :=
  match s_task x with None => s_life x = 0 | Some (t, _) => 0 < s_life x /\ nw < t end.
(* inside a tick the clock has moved and the entries whose expiry is now are still in the table, each until its own
   timer fires: liveness with `<=` is what holds there, and what a notification sent by a timer can rely on *)
Definition sub_live_le (nw : Z) (x : sub) : Prop :=
  match s_task x with None => s_life x = 0 | Some (t, _) => 0 < s_life x /\ nw <= t end.

Definition inv (s : st) : Prop :=
  NoDup (keys (subs s)) /\ NoDup (oids (objs s)) /\ Forall (sub_live (now s)) (subs s).

Definition life_of (life : option Z) : Z := match life with None => 0 | Some l => l end.

Definition is_subscribe_of (k : Z * Z * Z) (e : ev) : Prop :=
  match e with Subscribe c p o _ _ => k = (c, p, o) | SubscribeNow c p o _ _ => k = (c, p, o) | _ => False end.

Definition drops (e : ev) (nw : Z) (x : sub) : Prop :=
  match e with
  | Subscribe c p o _ _ | SubscribeNow c p o _ _ | Cancel c p o | CancelNow c p o => key x = (c, p, o)
  | Advance t => exists tx k, s_task x = Some (tx, k) /\ tx <= nw + t
  | _ => False
  end.

Definition ntf_of (nw : Z) (x : sub) (n : ntf) : Prop :=
  nkey n = key x /\ n_conf n = s_conf x /\ n_trem n = trem nw x /\ n_at n = nw.

Definition sent_to (S : sub -> Prop) (lo hi : Z) (n : ntf) : Prop :=
  exists x tau, S x /\ lo <= tau <= hi /\ ntf_of tau x n /\ sub_live_le tau x.

Definition task_for (nw lf : Z) (t : option (Z * Z)) : Prop :=
  (lf = 0 -> t = None) /\ (0 < lf -> exists k, t = Some (nw + lf * TICKS, k)).

Lemma inc_filter_abs : forall pr v i, inc_filter pr v i = (i <=? Z.abs (v - pr)).
Proof. intros. unfold inc_filter. lia. Qed.

Lemma write_generic_trig : forall o p v,
  bound o = true -> trig o = false -> tracked (okind o) p = true ->
  (p = PPv -> reports_prev (okind o) = false) ->
  trig (write_obj o p v) = negb (get_val o p =? v).
Proof.
  intros o p v Hb Ht Htr Hk. unfold write_obj. rewrite Hb, Htr, Ht. cbn.
  destruct p; cbn; try reflexivity. rewrite (Hk eq_refl). reflexivity.
Qed.

Lemma write_obj_triggered_eq : forall o p v, trig o = true -> write_obj o p v = set_val o p v.
Proof. intros o p v Ht. unfold write_obj. destruct (negb (bound o && tracked (okind o) p)); [reflexivity|]. rewrite Ht. reflexivity. Qed.

Lemma write_triggered : forall o p v, trig o = true ->
  trig (write_obj o p v) = true /\ prev (write_obj o p v) = prev o /\ get_val (write_obj o p v) p = v.
Proof. intros o p v Ht. rewrite (write_obj_triggered_eq o p v Ht). destruct p; cbn; auto. Qed.

Lemma write_unbound : forall o p v, bound o = false -> trig (write_obj o p v) = trig o.
Proof. intros o p v Hb. unfold write_obj. rewrite Hb. destruct p; reflexivity. Qed.

Lemma write_obj_shape : forall o p v, exists t pr, write_obj o p v = set_det (set_val o p v) (bound o) t pr (psched o).
Proof.
  intros o p v. unfold write_obj, set_trig.
  destruct (negb (bound o && tracked (okind o) p)); [|destruct (trig o); [|destruct (reports_prev (okind o))]];
    destruct p; eexists; eexists; reflexivity.
Qed.

Lemma report_shape : forall o, exists pr, report o = set_prev o pr.
Proof.
  intro o. unfold report. destruct (reports_prev (okind o)); [eexists; reflexivity|]. exists (prev o). destruct o; reflexivity.
Qed.

Lemma write_obj_det : forall o p v,
  oid (write_obj o p v) = oid o /\ gen (write_obj o p v) = gen o /\ bound (write_obj o p v) = bound o /\
  okind (write_obj o p v) = okind o.
Proof. intros o p v. destruct (write_obj_shape o p v) as [t [pr ->]]. destruct p; cbn; auto. Qed.

Lemma report_det : forall o, oid (report o) = oid o /\ gen (report o) = gen o /\ bound (report o) = bound o /\ trig (report o) = trig o.
Proof. intro o. destruct (report_shape o) as [pr ->]. cbn. auto. Qed.

Lemma oid_bind : forall o, oid (bind_obj o) = oid o.
Proof. intro o. unfold bind_obj. destruct (bound o); reflexivity. Qed.

(* ------------------------------------------------------------------ lists *)
(* a list without duplicate keys: `find` by key returns the element, equal keys mean equal elements *)
Lemma find_unique : forall {A K} (g : A -> K) (t : A -> bool) l x,
  (forall a, t a = true <-> g a = g x) -> NoDup (map g l) -> In x l -> find t l = Some x.
Proof.
  intros A K g t l x Ht. induction l as [|y r IH]; intros Hnd Hin; [destruct Hin|].
  cbn in *. inversion Hnd as [|? ? Hnotin Hnd']; subst. destruct (t y) eqn:E.
  - destruct Hin as [->|Hin]; [reflexivity|]. exfalso. apply Hnotin. apply Ht in E. rewrite E. apply in_map. exact Hin.
  - destruct Hin as [->|Hin]; [|auto]. assert (t x = true) by (apply Ht; reflexivity). congruence.
Qed.

Lemma NoDup_map_filter : forall {A B} (f : A -> B) (g : A -> bool) l, NoDup (map f l) -> NoDup (map f (filter g l)).
Proof.
  intros A B f g l. induction l as [|x r IH]; cbn; intro H; [constructor|].
  inversion H as [|? ? Hn Hr]; subst. destruct (g x); cbn; [constructor|]; auto.
  intro Hin. apply Hn. apply in_map_iff in Hin as [y [Hy Hin]]. apply filter_In in Hin as [Hin _].
  apply in_map_iff. exists y. auto.
Qed.

Lemma map_replace : forall {A B} (f : A -> B) (g : A -> bool) n l, (forall x, In x l -> g x = true -> f n = f x) ->
  map f (map (fun x => if g x then n else x) l) = map f l.
Proof. intros A B f g n l H. rewrite map_map. apply map_ext_in. intros x Hx. destruct (g x) eqn:E; auto. Qed.

Lemma nth_error_upd_nth : forall {A} (f : A -> A) l i, nth_error (upd_nth i f l) i = option_map f (nth_error l i).
Proof. induction l as [|a r IH]; intros [|i]; cbn; auto. Qed.

Lemma last_cons : forall {A} (r : list A) v d, last (v :: r) d = last r v.
Proof.
  induction r as [|a r IH]; intros v d; [reflexivity|].
  change (last (v :: a :: r) d) with (last (a :: r) d). rewrite IH. symmetry. apply IH.
Qed.

Lemma In_insert_by : forall {A} (le : A -> A -> bool) x y l, In y (insert_by le x l) <-> y = x \/ In y l.
Proof.
  intros A le x y l. induction l as [|z r IH]; cbn; [intuition|].
  destruct (le x z); cbn; [intuition|]. rewrite IH. intuition.
Qed.

Lemma In_sort_by : forall {A} (le : A -> A -> bool) y l, In y (sort_by le l) <-> In y l.
Proof.
  intros A le y l. induction l as [|z r IH]; cbn; [reflexivity|].
  rewrite In_insert_by, IH. intuition.
Qed.

(* ------------------------------------------------------------------ the subscription table *)
Lemma key_eqb_iff : forall c p o x, key_eqb c p o x = true <-> key x = (c, p, o).
Proof.
  intros. unfold key_eqb, key. split.
  - intro H. apply andb_prop in H as [H H3]. apply andb_prop in H as [H1 H2].
    apply Z.eqb_eq in H1, H2, H3. congruence.
  - intro H. inversion H. rewrite !Z.eqb_refl. reflexivity.
Qed.

Lemma key_eqb_false : forall c p o x, key_eqb c p o x = false <-> key x <> (c, p, o).
Proof.
  intros. split; intro H.
  - intro E. apply key_eqb_iff in E. congruence.
  - destruct (key_eqb c p o x) eqn:E; [|reflexivity]. apply key_eqb_iff in E. contradiction.
Qed.

Lemma find_sub_some : forall c p o sb x, find_sub c p o sb = Some x -> In x sb /\ key x = (c, p, o).
Proof.
  intros c p o sb x H. unfold find_sub in H. apply find_some in H as [H1 H2].
  split; [assumption|]. apply key_eqb_iff. assumption.
Qed.

Lemma find_sub_none : forall c p o sb, find_sub c p o sb = None -> ~ In (c, p, o) (keys sb).
Proof.
  intros c p o sb H Hin. unfold keys in Hin. apply in_map_iff in Hin as [x [Hk Hx]].
  unfold find_sub in H. eapply find_none in H; [|exact Hx]. apply key_eqb_iff in Hk. congruence.
Qed.

Lemma find_sub_in : forall sb x, NoDup (keys sb) -> In x sb ->
  find_sub (s_cli x) (s_proc x) (s_oid x) sb = Some x.
Proof. intros sb x. apply (find_unique key). intro a. apply key_eqb_iff. Qed.

Lemma remove_sub_in : forall c p o sb x, In x (remove_sub c p o sb) <-> In x sb /\ key x <> (c, p, o).
Proof.
  intros. unfold remove_sub. rewrite filter_In. rewrite negb_true_iff, key_eqb_false. reflexivity.
Qed.

Lemma keys_remove : forall c p o sb k, In k (keys (remove_sub c p o sb)) <-> In k (keys sb) /\ k <> (c, p, o).
Proof.
  intros c p o sb k. unfold keys. rewrite !in_map_iff. split.
  - intros [x [Hk Hx]]. apply remove_sub_in in Hx as [Hx Hne]. split; [exists x; auto|congruence].
  - intros [[x [Hk Hx]] Hne]. exists x. split; [assumption|]. apply remove_sub_in. split; [assumption|congruence].
Qed.

Lemma subs_of_In : forall o sb x, In x (subs_of o sb) <-> In x sb /\ s_oid x = o.
Proof. intros. unfold subs_of. rewrite filter_In, Z.eqb_eq. reflexivity. Qed.

Lemma mk_ntf_of : forall nw o x, ntf_of nw x (mk_ntf nw o x).
Proof. intros. unfold ntf_of. cbn. auto. Qed.

Lemma sent_to_weaken : forall (S S' : sub -> Prop) lo hi lo' hi' n, (forall x, S x -> S' x) -> lo' <= lo -> hi <= hi' ->
  sent_to S lo hi n -> sent_to S' lo' hi' n.
Proof. intros S S' lo hi lo' hi' n HS Hlo Hhi [x [tau [Hx [Ht H]]]]. exists x, tau. split; [auto|]. split; [lia|exact H]. Qed.

Lemma sub_live_weaken : forall nw x, sub_live nw x -> sub_live_le (nw + 1) x.
Proof. intros nw x. unfold sub_live, sub_live_le. destruct (s_task x) as [[t k]|]; [lia|auto]. Qed.

Lemma live_le : forall nw x, sub_live nw x -> sub_live_le nw x.
Proof. intros nw x. unfold sub_live, sub_live_le. destruct (s_task x) as [[t k]|]; [lia|auto]. Qed.

Lemma task_for_live : forall nw x, 0 <= s_life x -> task_for nw (s_life x) (s_task x) -> sub_live nw x.
Proof.
  intros nw x Hlf [H0 H1]. unfold sub_live. destruct (Z.eq_dec (s_life x) 0) as [E|E]; [rewrite (H0 E); exact E|].
  destruct H1 as [k ->]; [lia|]. unfold TICKS. lia.
Qed.

Lemma trem_remaining : forall nw x, sub_live_le nw x ->
  trem nw x = match s_task x with Some (t, _) => remaining (s_life x) t nw | None => 0 end.
Proof.
  intros nw x H. unfold sub_live_le in H. unfold trem, remaining.
  destruct (s_task x) as [[t k]|]; [|rewrite H; reflexivity].
  destruct H as [H1 H2]. destruct (s_life x =? 0) eqn:E; [lia|]. unfold TICKS.
  pose proof (Z.quot_pos (t - nw) 8 ltac:(lia) ltac:(lia)). destruct (Z.quot (t - nw) 8 =? 0) eqn:E2; lia.
Qed.

Lemma wf_life : forall life, match life with Some l => 0 <= l | None => True end -> 0 <= life_of life.
Proof. intros [l|] H; cbn in *; lia. Qed.

Lemma oids_upd_obj : forall i f os, (forall ob, oid ob = i -> oid (f ob) = i) -> oids (upd_obj i f os) = oids os.
Proof.
  intros i f os H. unfold oids, upd_obj. rewrite map_map. apply map_ext. intro ob.
  destruct (oid ob =? i) eqn:E; [|reflexivity]. apply Z.eqb_eq in E. rewrite (H ob E). congruence.
Qed.

Lemma oids_upd_nth : forall n f os, (forall ob, oid (f ob) = oid ob) -> oids (upd_nth n f os) = oids os.
Proof.
  intros n f os H. revert n. induction os as [|o r IH]; intro n; destruct n; cbn; try reflexivity.
  - rewrite H. reflexivity.
  - unfold oids in IH. rewrite IH. reflexivity.
Qed.

Lemma find_obj_some : forall i os ob, find_obj i os = Some ob -> In ob os /\ oid ob = i.
Proof.
  intros i os ob H. unfold find_obj in H. apply find_some in H as [H1 H2]. apply Z.eqb_eq in H2. auto.
Qed.

Lemma find_obj_in : forall os ob, NoDup (oids os) -> In ob os -> find_obj (oid ob) os = Some ob.
Proof. intros os ob. apply (find_unique oid). intro a. apply Z.eqb_eq. Qed.

Lemma find_obj_nth : forall os i o, NoDup (oids os) -> nth_error os i = Some o -> find_obj (oid o) os = Some o.
Proof. intros os i o Hnd N. apply find_obj_in; [exact Hnd|]. eapply nth_error_In; eauto. Qed.

Lemma find_obj_upd : forall o ob2 os ob, find_obj o os = Some ob -> oid ob2 = o ->
  find_obj o (upd_obj o (fun _ => ob2) os) = Some ob2.
Proof.
  intros o ob2. induction os as [|a r IH]; intros ob F Ho; [discriminate|]. unfold find_obj in *. cbn in *.
  destruct (oid a =? o) eqn:E; cbn.
  - rewrite Ho, Z.eqb_refl. reflexivity.
  - rewrite E. eapply IH; eauto.
Qed.

Lemma find_obj_upd_other : forall i o f os, i <> o -> (forall a, oid a = o -> oid (f a) = o) ->
  find_obj i (upd_obj o f os) = find_obj i os.
Proof.
  intros i o f os Hne Hf. induction os as [|a r IH]; [reflexivity|]. unfold find_obj in *. cbn.
  destruct (oid a =? o) eqn:E.
  - apply Z.eqb_eq in E. rewrite (Hf a E). rewrite E. assert (Hoi : o =? i = false) by lia. rewrite Hoi. exact IH.
  - destruct (oid a =? i); [reflexivity|exact IH].
Qed.

Lemma upd_obj_notin : forall o f os, ~ In o (oids os) -> upd_obj o f os = os.
Proof.
  intros o f os H. unfold upd_obj. rewrite <- (map_id os) at 2. apply map_ext_in. intros a Ha.
  destruct (oid a =? o) eqn:E; [|reflexivity]. exfalso. apply H. apply Z.eqb_eq in E. rewrite <- E. apply in_map. exact Ha.
Qed.

Lemma upd_nth_obj : forall os i o f, NoDup (oids os) -> nth_error os i = Some o -> upd_nth i f os = upd_obj (oid o) f os.
Proof.
  induction os as [|a r IH]; intros i o f Hnd N; [destruct i; discriminate|]. cbn in Hnd. inversion Hnd as [|? ? Hn Hr]; subst.
  destruct i as [|i]; cbn in N.
  - inversion N; subst. cbn. rewrite Z.eqb_refl. f_equal. symmetry. apply upd_obj_notin. exact Hn.
  - cbn. assert (Hne : oid a =? oid o = false).
    { apply Z.eqb_neq. intro E. apply Hn. rewrite E. apply in_map. eapply nth_error_In; eauto. }
    rewrite Hne. f_equal. apply IH; auto.
Qed.

Lemma Forall_upd_fun : forall (P P' : obj -> Prop) o f os, Forall P os ->
  (forall a, In a os -> oid a <> o -> P a -> P' a) -> (forall a, In a os -> oid a = o -> P a -> P' (f a)) ->
  Forall P' (upd_obj o f os).
Proof.
  intros P P' o f os H H1 H2. unfold upd_obj. apply Forall_forall. intros x Hx. apply in_map_iff in Hx as [a [<- Ha]].
  rewrite Forall_forall in H. destruct (oid a =? o) eqn:E; [apply (H2 a); auto; lia|apply H1; auto; lia].
Qed.

Lemma Forall_upd_found : forall (P P' : obj -> Prop) o f os ob, NoDup (oids os) -> find_obj o os = Some ob -> Forall P os ->
  (forall a, In a os -> oid a <> o -> P a -> P' a) -> (P ob -> P' (f ob)) -> Forall P' (upd_obj o f os).
Proof.
  intros P P' o f os ob Hnd F H H1 H2. apply find_obj_some in F as [Fin Fo]. apply (Forall_upd_fun P); [exact H|exact H1|].
  intros a Ha Ho Pa. assert (a = ob) by (apply (nodup_map_inj oid os); auto; congruence). subst a. auto.
Qed.

Lemma set_queue_nil : forall s, queue s = [] -> set_queue s [] = s.
Proof. intros [n c os sb q] H. cbn in H. subst q. reflexivity. Qed.

(* d is not the _execute of a bound detection instance that is still the current one of its object *)
Definition stale (s : st) (d : dfn) : Prop :=
  forall a, d = DExec (oid a) (gen a) -> find_obj (oid a) (objs s) = Some a -> bound a = false.

Lemma run_dfn_cases : forall s d s1 ns, run_dfn s d = (s1, ns) ->
  (s1 = s /\ ns = [] /\ stale s d) \/
  exists ob ob' xs, find_obj (oid ob) (objs s) = Some ob /\
    s1 = set_objs s (upd_obj (oid ob) (fun _ => ob') (objs s)) /\ ns = map (mk_ntf (now s) ob) xs /\
    (forall x, In x xs -> In x (subs s) /\ s_oid x = oid ob) /\
    ((d = DExec (oid ob) (gen ob) /\ bound ob = true /\ ob' = set_trig (report ob) false) \/
     (exists i, d = DInit i /\ ob' = report ob)).
Proof.
  intros s d s1 ns H.
  (* L: the shape in which every do-nothing branch leaves the goal *)
  assert (L : stale s d -> (s1, ns) = (s, []) -> s1 = s /\ ns = [] /\ stale s d) by (intros Hs E; inversion E; auto).
  destruct d as [o g|i]; cbn in H.
  - destruct (find_obj o (objs s)) as [ob|] eqn:F; [|left; apply L; [intros a E Fa; inversion E; congruence|auto]].
    destruct (bound ob) eqn:Hb; cbn in H; [destruct (gen ob =? g) eqn:Hg|].
    + inversion H; subst s1 ns. apply Z.eqb_eq in Hg. pose proof (find_obj_some _ _ _ F) as [_ <-]. subst g.
      right. exists ob, (set_trig (report ob) false), (subs_of (oid ob) (subs s)). repeat (split; [reflexivity || exact F|]).
      split; [|auto]. intros x Hx. apply subs_of_In. exact Hx.
    + left. apply L; [|auto]. intros a E Fa. inversion E; subst. rewrite F in Fa. inversion Fa; subst. lia.
    + left. apply L; [|auto]. intros a E Fa. inversion E; subst. rewrite F in Fa. inversion Fa; subst. exact Hb.
  - destruct (find_id i (subs s)) as [x|] eqn:FI; [|left; apply L; [discriminate|auto]].
    unfold find_id in FI. apply find_some in FI as [Hx _].
    destruct (find_obj (s_oid x) (objs s)) as [ob|] eqn:F; [|left; apply L; [discriminate|auto]]. inversion H; subst s1 ns.
    pose proof (find_obj_some _ _ _ F) as [_ E]. rewrite <- E in *.
    right. exists ob, (report ob), [x]. repeat (split; [reflexivity || exact F|]). split; [|eauto]. intros y [<-|[]]. auto.
Qed.

Record dfn_frame (s s1 : st) : Prop := {
  df_now : now s1 = now s;
  df_subs : subs s1 = subs s;
  df_ctr : ctr s1 = ctr s;
  df_queue : queue s1 = queue s;
  df_oids : oids (objs s1) = oids (objs s) }.

Lemma run_dfn_facts : forall s d s1 ns, run_dfn s d = (s1, ns) ->
  dfn_frame s s1 /\ forall n, In n ns -> exists x ob, In x (subs s) /\ n = mk_ntf (now s) ob x.
Proof.
  intros s d s1 ns H.
  destruct (run_dfn_cases _ _ _ _ H) as [[-> [-> _]]|(ob & ob' & xs & F & -> & -> & Hxs & Hob)];
    [split; [split; reflexivity|intros n []]|].
  split; [split; try reflexivity|].
  - cbn. apply oids_upd_obj. intros _ _. destruct Hob as [[_ [_ ->]]|[i [_ ->]]]; cbn; apply report_det.
  - intros n Hn. apply in_map_iff in Hn as [x [<- Hx]]. apply Hxs in Hx as [Hx _]. eauto.
Qed.

Lemma run_queue_facts : forall q s s1 ns, run_queue q s = (s1, ns) ->
  dfn_frame s s1 /\ forall n, In n ns -> exists x ob, In x (subs s) /\ n = mk_ntf (now s) ob x.
Proof.
  induction q as [|d r IH]; intros s s1 ns H; cbn in H.
  - inversion H; subst. split; [split; reflexivity|intros n []].
  - destruct (run_dfn s d) as [sa na] eqn:E1. destruct (run_queue r sa) as [sb nb] eqn:E2. inversion H; subst s1 ns.
    apply run_dfn_facts in E1 as [[A1 A2 A3 A4 A5] A6]. apply IH in E2 as [[B1 B2 B3 B4 B5] B6].
    split; [split; congruence|]. intros n Hn. apply in_app_or in Hn as [Hn|Hn]; [auto|].
    rewrite <- A2, <- A1. auto.
Qed.

Lemma dfn_frame_post : forall s s1 ns, inv s -> dfn_frame s s1 ->
  (forall n, In n ns -> exists x ob, In x (subs s) /\ n = mk_ntf (now s) ob x) ->
  inv s1 /\ now s1 = now s /\ subs s1 = subs s /\
  (forall n, In n ns -> sent_to (fun x => In x (subs s)) (now s) (now s) n).
Proof.
  intros s s1 ns [Hnd [Hod Hlive]] [A B _ _ E] F. unfold inv. rewrite A, B, E. repeat split; auto.
  intros n Hn. destruct (F n Hn) as [x [ob [Hx ->]]]. exists x, (now s). split; [exact Hx|]. split; [lia|].
  split; [apply mk_ntf_of|]. rewrite Forall_forall in Hlive. apply live_le. auto.
Qed.

Lemma run_dfn_step_facts : forall s d s1 ns, inv s -> run_dfn s d = (s1, ns) ->
  inv s1 /\ now s1 = now s /\ subs s1 = subs s /\
  (forall n, In n ns -> sent_to (fun x => In x (subs s)) (now s) (now s) n).
Proof. intros s d s1 ns Hi H. apply run_dfn_facts in H as [Fr F]. exact (dfn_frame_post _ _ _ Hi Fr F). Qed.

Lemma drain_facts : forall s s1 ns, inv s -> drain s = (s1, ns) ->
  inv s1 /\ now s1 = now s /\ subs s1 = subs s /\ queue s1 = [] /\
  (forall n, In n ns -> sent_to (fun x => In x (subs s)) (now s) (now s) n).
Proof.
  intros s s1 ns Hi H. unfold drain in H. apply run_queue_facts in H as [Fr F].
  destruct (dfn_frame_post (set_queue s []) _ _ Hi Fr F) as [A [B [C D]]]. pose proof (df_queue _ _ Fr) as Q. auto.
Qed.

Lemma drop_sub_subs : forall s c p o, subs (drop_sub s c p o) = remove_sub c p o (subs s).
Proof. intros. unfold drop_sub. reflexivity. Qed.
Lemma drop_sub_now : forall s c p o, now (drop_sub s c p o) = now s.
Proof. reflexivity. Qed.
Lemma drop_sub_oids : forall s c p o, oids (objs (drop_sub s c p o)) = oids (objs s).
Proof.
  intros. unfold drop_sub. cbn. destruct (subs_of o (remove_sub c p o (subs s))); [|reflexivity].
  apply oids_upd_obj. intros ob H. exact H.
Qed.

Lemma drop_sub_inv : forall s c p o, inv s -> inv (drop_sub s c p o).
Proof.
  intros s c p o [Hnd [Hod Hlive]]. unfold inv. rewrite drop_sub_oids, drop_sub_subs, drop_sub_now.
  split; [apply NoDup_map_filter; exact Hnd|]. split; [exact Hod|].
  apply Forall_forall. intros x Hx. apply remove_sub_in in Hx as [Hx _]. rewrite Forall_forall in Hlive. auto.
Qed.

Lemma fire_item_now : forall s it, now (fst (fire_item s it)) = now s.
Proof.
  intros s [k [c p o|o]]; cbn.
  - destruct (find_sub c p o (subs s)); [|reflexivity]. destruct (task_eqb _ _ _); reflexivity.
  - destruct (find_obj o (objs s)); [|reflexivity]. destruct (task_eqb _ _ _); reflexivity.
Qed.

Lemma fire_item_oids : forall s it, oids (objs (fst (fire_item s it))) = oids (objs s).
Proof.
  intros s [k [c p o|o]]; cbn.
  - destruct (find_sub c p o (subs s)); [|reflexivity]. destruct (task_eqb _ _ _); [|reflexivity]. apply drop_sub_oids.
  - destruct (find_obj o (objs s)) as [ob|] eqn:F; [|reflexivity]. destruct (task_eqb _ _ _); [|reflexivity]. cbn.
    apply oids_upd_obj. intros _ _. cbn. rewrite (proj1 (report_det ob)). apply find_obj_some in F. tauto.
Qed.

Lemma fire_item_subs : forall s it,
  subs (fst (fire_item s it)) = subs s \/
  exists c p o x, find_sub c p o (subs s) = Some x /\ (exists k, s_task x = Some (now s, k)) /\
     subs (fst (fire_item s it)) = remove_sub c p o (subs s).
Proof.
  intros s [k [c p o|o]]; cbn.
  - destruct (find_sub c p o (subs s)) as [x|] eqn:F; [|left; reflexivity].
    destruct (task_eqb (s_task x) (now s) k) eqn:T; [|left; reflexivity].
    right. exists c, p, o, x. unfold task_eqb in T. destruct (s_task x) as [[t' k']|]; [|discriminate].
    apply andb_prop in T as [T1 T2]. apply Z.eqb_eq in T1, T2. subst.
    split; [exact F|]. split; [eauto|]. reflexivity.
  - destruct (find_obj o (objs s)); [|left; reflexivity]. destruct (task_eqb _ _ _); left; reflexivity.
Qed.

Lemma fire_item_ntfs : forall s it n, In n (snd (fire_item s it)) -> exists x, In x (subs s) /\ ntf_of (now s) x n.
Proof.
  intros s [k [c p o|o]] n; cbn.
  - destruct (find_sub c p o (subs s)); [|intros []]. destruct (task_eqb _ _ _); intros [].
  - destruct (find_obj o (objs s)) as [ob|]; [|intros []]. destruct (task_eqb _ _ _); [|intros []]. cbn.
    intro H. apply in_map_iff in H as [x [<- Hx]]. apply subs_of_In in Hx as [Hx _].
    exists x. split; [exact Hx | apply mk_ntf_of].
Qed.

Lemma fire_item_shrink : forall s it x, In x (subs (fst (fire_item s it))) -> In x (subs s).
Proof.
  intros s it x H. destruct (fire_item_subs s it) as [E|[c [p [o [y [_ [_ E]]]]]]]; rewrite E in H; [assumption|].
  apply remove_sub_in in H. tauto.
Qed.

Lemma fire_item_keeps : forall s it x, NoDup (keys (subs s)) -> In x (subs s) ->
  (forall k, s_task x <> Some (now s, k)) -> In x (subs (fst (fire_item s it))).
Proof.
  intros s it x Hnd Hx Hnot. destruct (fire_item_subs s it) as [E|[c [p [o [y [F [[k Hy] E]]]]]]]; rewrite E; [exact Hx|].
  apply remove_sub_in. split; [exact Hx|]. intro Hk. apply find_sub_some in F as [Hiny Hky].
  assert (y = x) by (apply (nodup_map_inj key (subs s)); auto; congruence). subst y. apply (Hnot k). exact Hy.
Qed.

(* its = the timers still to fire at this instant: every entry whose expiry is now still has its timer in its *)
Definition due_inv (its : list (Z * item)) (s : st) : Prop :=
  NoDup (keys (subs s)) /\ Forall (sub_live_le (now s)) (subs s) /\
  forall x k, In x (subs s) -> s_task x = Some (now s, k) -> In (k, ISub (s_cli x) (s_proc x) (s_oid x)) its.

(* the head may go: if an entry's timer (expiry now, counter k) was the head, the head found that entry under its key,
   saw the same (time, counter) and removed it; every other entry finds its timer in the rest *)
Lemma fire_item_due : forall it r s, due_inv (it :: r) s -> due_inv r (fst (fire_item s it)).
Proof.
  intros [k [c p o|o]] r s [Hnd [Hlive Hpend]]; cbn.
  - destruct (find_sub c p o (subs s)) as [x0|] eqn:F.
    + destruct (task_eqb (s_task x0) (now s) k) eqn:T; cbn.
      * split; [apply NoDup_map_filter; exact Hnd|]. split.
        -- apply Forall_forall. intros x Hx. apply remove_sub_in in Hx as [Hx _].
           rewrite Forall_forall in Hlive. apply Hlive. exact Hx.
        -- intros x k' Hx Ht. apply remove_sub_in in Hx as [Hx Hne].
           destruct (Hpend x k' Hx Ht) as [E|Hin]; [|exact Hin]. inversion E; subst. exfalso. apply Hne. reflexivity.
      * split; [exact Hnd|]. split; [exact Hlive|]. intros x k' Hx Ht.
        destruct (Hpend x k' Hx Ht) as [E|Hin]; [|exact Hin]. inversion E; subst. exfalso.
        rewrite (find_sub_in _ _ Hnd Hx) in F. inversion F; subst. rewrite Ht in T. cbn in T.
        rewrite !Z.eqb_refl in T. discriminate.
    + cbn. split; [exact Hnd|]. split; [exact Hlive|]. intros x k' Hx Ht.
      destruct (Hpend x k' Hx Ht) as [E|Hin]; [|exact Hin]. inversion E; subst. exfalso.
      apply find_sub_none in F. apply F. change (In (key x) (keys (subs s))). apply in_map. exact Hx.
  - assert (G : forall s1, subs s1 = subs s -> now s1 = now s -> due_inv r s1).
    { intros s1 E1 E2. unfold due_inv. rewrite E1, E2. split; [exact Hnd|]. split; [exact Hlive|].
      intros x k' Hx Ht. destruct (Hpend x k' Hx Ht) as [E|Hin]; [discriminate|exact Hin]. }
    destruct (find_obj o (objs s)); [|apply G; reflexivity].
    destruct (task_eqb _ _ _); apply G; reflexivity.
Qed.

Lemma due_items_due : forall s le, NoDup (keys (subs s)) -> Forall (sub_live_le (now s)) (subs s) ->
  due_inv (sort_by le (due_items s)) s.
Proof.
  intros s le Hnd Hlive. split; [exact Hnd|]. split; [exact Hlive|]. intros x k Hx Ht. apply In_sort_by. unfold due_items.
  apply in_or_app. left. apply in_flat_map. exists x. split; [exact Hx|]. rewrite Ht, Z.eqb_refl. left. reflexivity.
Qed.

Lemma fire_items_pres : forall P : st -> Prop, (forall s it, P s -> P (fst (fire_item s it))) ->
  forall its s, P s -> P (fst (fire_items its s)).
Proof.
  intros P H. induction its as [|it r IH]; intros s Hs; [exact Hs|]. cbn. specialize (H s it Hs).
  destruct (fire_item s it) as [s1 n1]. specialize (IH s1 H). destruct (fire_items r s1). exact IH.
Qed.

Lemma ticks_pres : forall P : st -> Prop, (forall s, P s -> P (mkSt (now s + 1) (ctr s) (objs s) (subs s) (queue s))) ->
  (forall s it, P s -> P (fst (fire_item s it))) -> forall n s, P s -> P (fst (ticks n s)).
Proof.
  intros P Hc Hf. induction n as [|n IH]; intros s Hs; [exact Hs|]. cbn [ticks]. unfold tick.
  set (s0 := mkSt (now s + 1) (ctr s) (objs s) (subs s) (queue s)).
  pose proof (fire_items_pres P Hf (sort_by (fun a b => fst a <=? fst b) (due_items s0)) s0 (Hc s Hs)) as H.
  destruct (fire_items _ s0) as [s1 n1]. specialize (IH s1 H). destruct (ticks n s1). exact IH.
Qed.

(* once every timer due at an instant has fired no entry with that expiry is left: liveness is strict (`sub_live`) again *)
Lemma fire_items_facts : forall its s, due_inv its s ->
  let (s', ns) := fire_items its s in
  NoDup (keys (subs s')) /\ Forall (sub_live (now s')) (subs s') /\ now s' = now s /\ oids (objs s') = oids (objs s) /\
  (forall x, In x (subs s') -> In x (subs s)) /\
  (forall x, In x (subs s) -> (forall k, s_task x <> Some (now s, k)) -> In x (subs s')) /\
  (forall n, In n ns -> exists x, In x (subs s) /\ ntf_of (now s) x n).
Proof.
  induction its as [|it r IH]; intros s Hd.
  - cbn. destruct Hd as [Hnd [Hlive Hpend]]. repeat split; auto; [|intros n []].
    apply Forall_forall. intros x Hx. rewrite Forall_forall in Hlive. specialize (Hlive x Hx).
    unfold sub_live, sub_live_le in *. destruct (s_task x) as [[t k]|] eqn:Ht; [|exact Hlive].
    split; [tauto|]. assert (t <> now s); [|lia]. intro E. subst t. apply (Hpend x k Hx Ht).
  - cbn. pose proof (fire_item_due it r s Hd) as Hd1. pose proof (fire_item_now s it) as Hn1.
    pose proof (fire_item_oids s it) as Ho1. pose proof (fire_item_shrink s it) as Hs1.
    pose proof (fun x => fire_item_keeps s it x (proj1 Hd)) as Hk1. pose proof (fire_item_ntfs s it) as Hf.
    destruct (fire_item s it) as [s1 n1]. cbn in *. specialize (IH s1 Hd1).
    destruct (fire_items r s1) as [s2 n2]. destruct IH as [A [B [C [D [E [K N]]]]]]. rewrite Hn1 in *.
    split; [exact A|]. split; [exact B|]. split; [exact C|]. split; [congruence|]. split; [auto|]. split; [auto|].
    intros n Hn. apply in_app_or in Hn as [Hn|Hn]; [auto|]. destruct (N n Hn) as [x [Hx Hof]]. eauto.
Qed.

Lemma ticks_facts : forall m s, inv s ->
  let (s', ns) := ticks m s in
  inv s' /\ now s' = now s + Z.of_nat m /\ (forall x, In x (subs s') -> In x (subs s)) /\
  (forall x, In x (subs s) -> (forall t k, s_task x = Some (t, k) -> now s + Z.of_nat m < t) -> In x (subs s')) /\
  (forall n, In n ns -> sent_to (fun x => In x (subs s)) (now s + 1) (now s + Z.of_nat m) n).
Proof.
  induction m as [|m IH]; intros s Hi.
  - cbn. split; [exact Hi|]. split; [lia|]. split; [auto|]. split; [auto | intros n []].
  - destruct Hi as [Hnd [Hod Hlive]]. rewrite Forall_forall in Hlive. cbn [ticks]. unfold tick.
    assert (Hle : Forall (sub_live_le (now s + 1)) (subs s)) by (apply Forall_forall; intros x Hx; apply sub_live_weaken, Hlive, Hx).
    pose proof (fire_items_facts _ _ (due_items_due (mkSt (now s + 1) (ctr s) (objs s) (subs s) (queue s))
                                           (fun a b => fst a <=? fst b) Hnd Hle)) as T.
    destruct (fire_items _ _) as [s1 n1]. cbn [now subs objs] in T. destruct T as [A [B [C [D [E [K N]]]]]].
    assert (Hi1 : inv s1) by (split; [exact A|]; split; [rewrite D; exact Hod | exact B]).
    specialize (IH s1 Hi1). destruct (ticks m s1) as [s2 n2]. destruct IH as [A' [C' [E' [K' N']]]]. rewrite C in *.
    split; [exact A'|]. split; [lia|]. split; [auto|]. split.
    + intros x Hx Hdue. apply K'; [apply K; [exact Hx|]; intros k Ek; specialize (Hdue _ _ Ek); lia|].
      intros t k Ek. specialize (Hdue _ _ Ek). lia.
    + intros n Hn. apply in_app_or in Hn as [Hn|Hn].
      * destruct (N n Hn) as [x [Hx Hof]]. exists x, (now s + 1). split; [exact Hx|]. split; [lia|]. split; [exact Hof|].
        apply sub_live_weaken, Hlive, Hx.
      * apply N' in Hn. revert Hn. apply sent_to_weaken; [exact E|lia|lia].
Qed.

(* both requests match `KNoCov | _` on the object's kind *)
Lemma cov_kind_dec : forall k, k = KNoCov \/ k <> KNoCov.
Proof. intros []; auto; right; discriminate. Qed.
Lemma cov_kind_match : forall k A (a b : A), k <> KNoCov -> match k with KNoCov => a | _ => b end = b.
Proof. intros [] A a b H; congruence. Qed.

(* an accepted subscribe_now: a renewal takes the place of the entry with its key and keeps its identity, a new entry
   goes to the end with the identity the counter hands out *)
Set Implicit Arguments.
Record subscribed (s : st) (c p o : Z) (cf : bool) (life : option Z) (s' : st) (ob ob2 : obj) (nsub : sub) : Prop := {
  sn_find : find_obj o (objs s) = Some ob;
  sn_now : now s' = now s;
  sn_objs : objs s' = upd_obj o (fun _ => ob2) (objs s);
  sn_queue : queue s' = queue s ++ [DInit (s_id nsub)];
  sn_ctr : ctr s <= ctr s';
  sn_bind : ob2 = bind_obj ob \/ exists ps, ob2 = set_psched (bind_obj ob) ps;
  sn_key : key nsub = (c, p, o);
  sn_conf : s_conf nsub = cf;
  sn_life : s_life nsub = life_of life;
  sn_task : task_for (now s) (life_of life) (s_task nsub);
  sn_subs : (exists y, find_sub c p o (subs s) = Some y /\ s_id nsub = s_id y /\
                       subs s' = map (fun x => if key_eqb c p o x then nsub else x) (subs s)) \/
            (find_sub c p o (subs s) = None /\ s_id nsub = ctr s /\ ctr s < ctr s' /\ subs s' = subs s ++ [nsub]) }.
Unset Implicit Arguments.

Lemma subscribe_now_cases : forall s c p o cf life s' ok code, subscribe_now s c p o cf life = (s', ok, code) ->
  (s' = s /\ ok = false /\ forall ob, find_obj o (objs s) = Some ob -> okind ob = KNoCov) \/
  (ok = true /\ exists ob ob2 nsub, subscribed s c p o cf life s' ob ob2 nsub).
Proof.
  intros s c p o cf life s' ok code H. unfold subscribe_now in H. fold (life_of life) in H.
  destruct (find_obj o (objs s)) as [ob|] eqn:F; [|inversion H; left; repeat split; discriminate].
  destruct (cov_kind_dec (okind ob)) as [K|K]; [rewrite K in H; inversion H; left; repeat split; congruence|].
  rewrite (cov_kind_match _ _ _ _ K) in H. right.
  destruct (find_sub c p o (subs s)) as [y|] eqn:Fy; inversion H; subst s' ok code; clear H; (split; [reflexivity|]); exists ob.
  - exists (bind_obj ob), (mkSub c p o cf (life_of life)
                              (if life_of life =? 0 then None else Some (now s + life_of life * TICKS, ctr s)) (s_id y)).
    split; try reflexivity; try exact F; cbn.
    + destruct (life_of life =? 0); lia.
    + left; reflexivity.
    + split; intro E; destruct (life_of life =? 0) eqn:E0; try lia; eauto.
    + left. exists y. auto.
  - set (per := match okind ob with KPulse => negb (period ob =? 0) | _ => false end).
    assert (Hc : ctr s < (if per then (if 0 <? life_of life then ctr s + 1 + 1 else ctr s + 1) + 1
                          else if 0 <? life_of life then ctr s + 1 + 1 else ctr s + 1))
      by (destruct per, (0 <? life_of life); lia).
    eexists. exists (mkSub c p o cf (life_of life)
                           (if 0 <? life_of life then Some (now s + life_of life * TICKS, ctr s + 1) else None) (ctr s)).
    split; try reflexivity; try exact F; cbn.
    + lia.
    + destruct per; [right; eexists|left]; reflexivity.
    + split; intro E; destruct (0 <? life_of life) eqn:E0; try lia; eauto.
    + right. auto.
Qed.

Section Subscribed.
Context {s : st} {c p o : Z} {cf : bool} {life : option Z} {s' : st} {ob ob2 : obj} {nsub : sub}.
Context (P : subscribed s c p o cf life s' ob ob2 nsub).

Lemma sn_bound : oid ob2 = o /\ pv ob2 = pv ob /\ fl ob2 = fl ob.
Proof.
  destruct (find_obj_some _ _ _ (sn_find P)) as [_ Fo].
  assert (B : oid (bind_obj ob) = o /\ pv (bind_obj ob) = pv ob /\ fl (bind_obj ob) = fl ob)
    by (unfold bind_obj; destruct (bound ob); cbn; auto).
  destruct (sn_bind P) as [->|[ps ->]]; exact B.
Qed.

Lemma sn_found : find_obj o (objs s') = Some ob2.
Proof. rewrite (sn_objs P). apply (find_obj_upd o _ _ ob (sn_find P)). apply sn_bound. Qed.

Lemma sn_in : In nsub (subs s').
Proof.
  destruct (sn_subs P) as [[y [Fy [_ ->]]]|[_ [_ [_ ->]]]]; [|apply in_or_app; right; left; reflexivity].
  apply find_sub_some in Fy as [Hy Hky]. apply in_map_iff. exists y. apply key_eqb_iff in Hky. rewrite Hky. auto.
Qed.
End Subscribed.

Lemma subscribe_now_facts : forall s c p o cf life s' ok code,
  inv s -> 0 <= life_of life -> subscribe_now s c p o cf life = (s', ok, code) ->
  inv s' /\ now s' = now s /\
  (forall x', In x' (subs s') -> In x' (subs s) \/ key x' = (c, p, o)) /\
  (forall x, In x (subs s) -> key x <> (c, p, o) -> In x (subs s')).
Proof.
  intros s c p o cf life s' ok code [Hnd [Hod Hlive]] Hlf H.
  destruct (subscribe_now_cases _ _ _ _ _ _ _ _ _ H) as [[-> _]|[_ (ob & ob2 & nsub & P)]]; [repeat split; auto|].
  assert (Hlv : sub_live (now s) nsub) by (apply task_for_live; rewrite (sn_life P); [assumption|exact (sn_task P)]).
  unfold inv. rewrite (sn_now P), (sn_objs P), oids_upd_obj by (intros; exact (proj1 (sn_bound P))).
  destruct (sn_subs P) as [[y [Fy [_ ->]]]|[Fn [_ [_ ->]]]]; (split; [split; [|split; [exact Hod|]]|split; [reflexivity|split]]).
  - unfold keys. rewrite map_replace; [exact Hnd|]. intros x _ E. apply key_eqb_iff in E. rewrite (sn_key P). congruence.
  - apply Forall_forall. intros x Hx. apply in_map_iff in Hx as [x0 [<- Hx0]].
    destruct (key_eqb c p o x0); [exact Hlv|]. rewrite Forall_forall in Hlive. auto.
  - intros x' Hx. apply in_map_iff in Hx as [x0 [<- Hx0]]. destruct (key_eqb c p o x0); [right; exact (sn_key P)|auto].
  - intros x Hx Hne. apply in_map_iff. exists x. split; [|exact Hx]. apply key_eqb_false in Hne. rewrite Hne. reflexivity.
  - unfold keys. rewrite map_app. apply nodup_snoc; [exact Hnd|]. cbn. rewrite (sn_key P). exact (find_sub_none _ _ _ _ Fn).
  - apply Forall_app. split; [exact Hlive|]. constructor; [exact Hlv|constructor].
  - intros x' Hx. apply in_app_or in Hx as [Hx|[<-|[]]]; [auto|right; exact (sn_key P)].
  - intros x Hx _. apply in_or_app. left. exact Hx.
Qed.

(* an accepted cancel binds the object too: do_SubscribeCOVRequest creates the detection before it looks at the request *)
Lemma cancel_now_cases : forall s c p o s' ok code, cancel_now s c p o = (s', ok, code) ->
  (s' = s /\ ok = false) \/
  (ok = true /\
   ((exists y, find_sub c p o (subs s) = Some y /\ s' = drop_sub (set_objs s (upd_obj o bind_obj (objs s))) c p o) \/
    (find_sub c p o (subs s) = None /\ s' = set_objs s (upd_obj o bind_obj (objs s))))).
Proof.
  intros s c p o s' ok code H. unfold cancel_now in H.
  destruct (find_obj o (objs s)) as [ob|]; [|inversion H; auto].
  destruct (cov_kind_dec (okind ob)) as [K|K]; [rewrite K in H; inversion H; auto|].
  rewrite (cov_kind_match _ _ _ _ K) in H. right.
  destruct (find_sub c p o (subs s)) as [y|]; inversion H; subst; eauto 7.
Qed.

Lemma cancel_now_facts : forall s c p o s' ok code,
  inv s -> cancel_now s c p o = (s', ok, code) ->
  inv s' /\ now s' = now s /\ (forall x', In x' (subs s') -> In x' (subs s)) /\
  (ok = true -> ~ In (c, p, o) (keys (subs s'))) /\
  (forall x, In x (subs s) -> key x <> (c, p, o) -> In x (subs s')).
Proof.
  intros s c p o s' ok code Hi H.
  assert (Hb : inv (set_objs s (upd_obj o bind_obj (objs s)))).
  { destruct Hi as [Hnd [Hod Hlive]]. unfold inv. cbn. rewrite oids_upd_obj by (intros ob E; rewrite oid_bind; exact E). auto. }
  destruct (cancel_now_cases _ _ _ _ _ _ _ H) as [[-> ->]|[-> [[y [F ->]]|[F ->]]]].
  - split; [exact Hi|]. split; [reflexivity|]. split; [auto|]. split; [discriminate|auto].
  - split; [apply drop_sub_inv; exact Hb|]. split; [reflexivity|]. rewrite drop_sub_subs. cbn [subs set_objs].
    split; [intros x' Hx; apply remove_sub_in in Hx; tauto|]. split; [intros _ Hin; apply keys_remove in Hin; tauto|].
    intros x Hx Hk. apply remove_sub_in. auto.
  - split; [exact Hb|]. split; [reflexivity|]. split; [auto|]. split; [intros _; exact (find_sub_none _ _ _ _ F)|auto].
Qed.

Lemma write_ev_facts : forall s i p v s' out, inv s -> write_ev s i p v = (s', out) ->
  inv s' /\ now s' = now s /\ ctr s' = ctr s /\ subs s' = subs s /\ o_ntfs out = [].
Proof.
  intros s i p v s' out Hi H. unfold write_ev in H.
  destruct (nth_error (objs s) i) as [ob|]; [destruct (has_prop (okind ob) p)|]; inversion H; subst s' out; cbn; auto.
  split; [|repeat split]. unfold inv. cbn. rewrite oids_upd_nth by (intro; apply write_obj_det). exact Hi.
Qed.

Record step_post (s : st) (e : ev) (s' : st) (out : out) : Prop := {
  sp_inv : inv s';
  sp_now : now s <= now s';
  sp_new : forall x', In x' (subs s') -> In x' (subs s) \/ is_subscribe_of (key x') e;
  sp_keep : forall x, In x (subs s) -> ~ drops e (now s) x -> In x (subs s');
  sp_gone : match e with Cancel c p o | CancelNow c p o => o_ack out = 1 -> ~ In (c, p, o) (keys (subs s')) | _ => True end;
  sp_ntfs : forall n, In n (o_ntfs out) ->
     sent_to (fun x => In x (subs s) \/ (In x (subs s') /\ is_subscribe_of (key x) e)) (now s) (now s') n }.

Lemma quiet_post : forall s e s' out, inv s' -> now s' = now s -> subs s' = subs s ->
  match e with Cancel _ _ _ | CancelNow _ _ _ => False | _ => True end ->
  (forall n, In n (o_ntfs out) -> sent_to (fun x => In x (subs s)) (now s) (now s) n) -> step_post s e s' out.
Proof.
  intros s e s' out A B C G Hn. split; rewrite ?B, ?C; auto; try lia.
  - destruct e; try exact I; destruct G.
  - intros n Hin. apply Hn in Hin. revert Hin. apply sent_to_weaken; auto; lia.
Qed.

Lemma req_out_ntfs : forall tag ok code ns, o_ntfs (req_out tag ok code ns) = ns.
Proof. intros. unfold req_out. destruct ok; reflexivity. Qed.

Lemma req_out_ack : forall tag ok code ns, o_ack (req_out tag ok code ns) = 1 -> ok = true.
Proof. intros tag [|] code ns H; [reflexivity | discriminate H]. Qed.

(* An event is a fixed sequence of primitives (Drain; request; Drain for the composites), so a further invariant J that
   every primitive keeps at states satisfying inv is kept by every event: give the six J_ facts, get `run_inv_with`. *)
Section StepInv.
Context (J : st -> Prop).
Context (J_write : forall s i p v s' out, inv s -> J s -> write_ev s i p v = (s', out) -> J s').
Context (J_drain : forall s s' ns, inv s -> J s -> drain s = (s', ns) -> J s').
Context (J_head : forall s d r s' ns, inv s -> J s -> queue s = d :: r -> run_dfn (set_queue s r) d = (s', ns) -> J s').
Context (J_sub : forall s c p o cf life s' ok code, inv s -> J s -> subscribe_now s c p o cf life = (s', ok, code) -> J s').
Context (J_cancel : forall s c p o s' ok code, inv s -> J s -> cancel_now s c p o = (s', ok, code) -> J s').
Context (J_ticks : forall n s, inv s -> J s -> J (fst (ticks n s))).

Lemma step_facts_with : forall s e s' out, inv s -> J s -> wf_ev e -> step s e = (s', out) -> step_post s e s' out /\ J s'.
Proof.
  intros s e s' out Hinv HJ Hwf H.
  destruct e as [i p v| |c p o cf life|c p o|t|c| |c p o cf life|c p o|c]; cbn [step] in H.
  - (* Write *)
    destruct (write_ev_facts _ _ _ _ _ _ Hinv H) as [A [B [_ [C D]]]]. split; [|exact (J_write _ _ _ _ _ _ Hinv HJ H)].
    apply quiet_post; auto. rewrite D. intros n [].
  - (* Drain *)
    destruct (drain s) as [s1 ns] eqn:D. inversion H; subst s' out; clear H. split; [|exact (J_drain _ _ _ Hinv HJ D)].
    destruct (drain_facts _ _ _ Hinv D) as [A [B [C [_ Hn]]]]. apply quiet_post; auto.
  - (* Subscribe = Drain; SubscribeNow; Drain *)
    destruct (drain s) as [s1 n1] eqn:D1. destruct (drain_facts _ _ _ Hinv D1) as [A1 [B1 [C1 [_ Hn1]]]].
    destruct (subscribe_now s1 c p o cf life) as [[s2 ok] code] eqn:SN.
    destruct (subscribe_now_facts _ _ _ _ _ _ _ _ _ A1 (wf_life life Hwf) SN) as [A2 [B2 [C2 K2]]].
    destruct (drain s2) as [s3 n3] eqn:D3. destruct (drain_facts _ _ _ A2 D3) as [A3 [B3 [C3 [_ Hn3]]]].
    inversion H; subst s' out; clear H.
    split; [|exact (J_drain _ _ _ A2 (J_sub _ _ _ _ _ _ _ _ _ A1 (J_drain _ _ _ Hinv HJ D1) SN) D3)].
    rewrite C1 in C2, K2. split; rewrite ?req_out_ntfs, ?B3, ?C3, ?B2, ?B1; auto; try lia. intros n Hin.
    apply in_app_or in Hin as [Hin|Hin]; [apply Hn1 in Hin|apply Hn3 in Hin]; revert Hin; apply sent_to_weaken; auto; try lia.
    intros x Hx. destruct (C2 x Hx); auto.
  - (* Cancel = Drain; CancelNow; Drain *)
    destruct (drain s) as [s1 n1] eqn:D1. destruct (drain_facts _ _ _ Hinv D1) as [A1 [B1 [C1 [_ Hn1]]]].
    destruct (cancel_now s1 c p o) as [[s2 ok] code] eqn:CN.
    destruct (cancel_now_facts _ _ _ _ _ _ _ A1 CN) as [A2 [B2 [C2 [G2 K2]]]].
    destruct (drain s2) as [s3 n3] eqn:D3. destruct (drain_facts _ _ _ A2 D3) as [A3 [B3 [C3 [_ Hn3]]]].
    inversion H; subst s' out; clear H.
    split; [|exact (J_drain _ _ _ A2 (J_cancel _ _ _ _ _ _ _ A1 (J_drain _ _ _ Hinv HJ D1) CN) D3)].
    rewrite C1 in C2, K2. split; rewrite ?req_out_ntfs, ?B3, ?C3, ?B2, ?B1; auto; try lia.
    + intro Hack. apply G2. exact (req_out_ack _ _ _ _ Hack).
    + intros n Hin.
      apply in_app_or in Hin as [Hin|Hin]; [apply Hn1 in Hin|apply Hn3 in Hin]; revert Hin; apply sent_to_weaken; auto; lia.
  - (* Advance = Drain; ticks *)
    destruct (drain s) as [s1 n1] eqn:D. destruct (drain_facts _ _ _ Hinv D) as [A1 [B [C [_ Hn]]]].
    pose proof (J_ticks (Z.to_nat t) s1 A1 (J_drain _ _ _ Hinv HJ D)) as JT. pose proof (ticks_facts (Z.to_nat t) s1 A1) as T.
    destruct (ticks (Z.to_nat t) s1) as [s2 n2]. inversion H; subst s' out; clear H. split; [|exact JT].
    destruct T as [T1 [T2 [T3 [T4 T5]]]]. cbn in Hwf. rewrite B, C, Z2Nat.id in * by exact Hwf.
    split; auto; try lia.
    + intros x Hx Hd. apply T4; [exact Hx|]. intros tx k E. destruct (Z_lt_le_dec (now s + t) tx); [assumption|].
      elim Hd. cbn. eauto.
    + intros n Hin. cbn [o_ntfs] in Hin.
      apply in_app_or in Hin as [Hin|Hin]; [apply Hn in Hin|apply T5 in Hin]; revert Hin; apply sent_to_weaken; auto; lia.
  - (* ReadActive *)
    destruct (drain s) as [s1 ns] eqn:D. inversion H; subst s' out; clear H. split; [|exact (J_drain _ _ _ Hinv HJ D)].
    destruct (drain_facts _ _ _ Hinv D) as [A [B [C [_ Hn]]]]. apply quiet_post; auto.
  - (* StepQ *)
    destruct (queue s) as [|d r] eqn:Q.
    + inversion H; subst s' out. split; [|exact HJ]. apply quiet_post; auto. intros n [].
    + destruct (run_dfn (set_queue s r) d) as [s1 ns] eqn:R. inversion H; subst s' out; clear H.
      split; [|exact (J_head _ _ _ _ _ Hinv HJ Q R)].
      destruct (run_dfn_step_facts (set_queue s r) _ _ _ Hinv R) as [A [B [C Hn]]]. apply quiet_post; auto.
  - (* SubscribeNow *)
    destruct (subscribe_now s c p o cf life) as [[s2 ok] code] eqn:SN.
    destruct (subscribe_now_facts _ _ _ _ _ _ _ _ _ Hinv (wf_life life Hwf) SN) as [A2 [B2 [C2 K2]]].
    inversion H; subst s' out; clear H. split; [|exact (J_sub _ _ _ _ _ _ _ _ _ Hinv HJ SN)].
    split; rewrite ?req_out_ntfs; auto; try lia. intros n [].
  - (* CancelNow *)
    destruct (cancel_now s c p o) as [[s2 ok] code] eqn:CN.
    destruct (cancel_now_facts _ _ _ _ _ _ _ Hinv CN) as [A2 [B2 [C2 [G2 K2]]]].
    inversion H; subst s' out; clear H. split; [|exact (J_cancel _ _ _ _ _ _ _ Hinv HJ CN)].
    split; rewrite ?req_out_ntfs; auto; try lia; [|intros n []]. intro Hack. apply G2. exact (req_out_ack _ _ _ _ Hack).
  - (* ReadNow *)
    inversion H; subst s' out. split; [|exact HJ]. apply quiet_post; auto. intros n [].
Qed.

Lemma run_inv_with : forall es s, inv s -> J s -> Forall wf_ev es -> inv (fst (run s es)) /\ J (fst (run s es)).
Proof.
  induction es as [|e r IH]; intros s Hi HJ Hw; [auto|]. cbn. inversion Hw as [|? ? Hwe Hwr]; subst.
  destruct (step s e) as [s1 o] eqn:S. destruct (step_facts_with _ _ _ _ Hi HJ Hwe S) as [[Hi1] HJ1].
  specialize (IH s1 Hi1 HJ1 Hwr). destruct (run s1 r) as [s2 os]. exact IH.
Qed.
End StepInv.

Lemma step_facts : forall s e s' out, inv s -> wf_ev e -> step s e = (s', out) -> step_post s e s' out.
Proof. intros s e s' out Hi Hw S. apply (step_facts_with (fun _ => True)) with (s := s); auto. Qed.

Lemma run_inv : forall es s, inv s -> Forall wf_ev es -> inv (fst (run s es)).
Proof. intros es s Hi Hw. apply (run_inv_with (fun _ => True)); auto. Qed.
