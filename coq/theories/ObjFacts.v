From Bac Require Import Base PyRt Obj.
Open Scope Z_scope.

Lemma xbind_ok_inv : forall {A B} (r : xres A) (f : A -> xres B) b,
  xbind r f = XOk b -> exists a, r = XOk a /\ f a = XOk b.
Proof. intros A B [a | x] f b H; [exists a; split; [reflexivity | exact H] | discriminate]. Qed.

Lemma index_out_of_range : forall n l i, i < 0 \/ n < i -> index (VArr n l) i = Err IndexErr.
Proof.
  intros n l i H. cbn [index]. replace ((i <? 0) || (n <? i)) with true; [reflexivity |].
  symmetry. apply orb_true_iff. rewrite !Z.ltb_lt. exact H.
Qed.

Lemma find_obj_set_same : forall l oid o o', find_obj l oid = Some o -> find_obj (set_obj l oid o') oid = Some o'.
Proof.
  induction l as [| [k ob] r IH]; intros oid o o' H; cbn [find_obj set_obj] in *; [discriminate |].
  destruct (k =? oid) eqn:E; cbn [find_obj]; rewrite E; [reflexivity | eauto].
Qed.
Lemma find_obj_set_other : forall l oid o' oid2, oid2 <> oid -> find_obj (set_obj l oid o') oid2 = find_obj l oid2.
Proof.
  induction l as [| [k ob] r IH]; intros oid o' oid2 H; cbn [find_obj set_obj]; [reflexivity |].
  destruct (k =? oid) eqn:E; cbn [find_obj].
  - apply Z.eqb_eq in E. rewrite E, (proj2 (Z.eqb_neq oid oid2)) by congruence. reflexivity.
  - destruct (k =? oid2); [reflexivity | apply IH; exact H].
Qed.
Lemma find_prop_set_same : forall o pid p v nv, find_prop o pid = Some (p, v) -> find_prop (set_prop o pid nv) pid = Some (p, nv).
Proof.
  induction o as [| [q u] r IH]; intros pid p v nv H; cbn [find_prop set_prop] in *; [discriminate |].
  destruct (p_id q =? pid) eqn:E; cbn [find_prop]; rewrite E; [inversion H; reflexivity | eauto].
Qed.
Lemma find_prop_set_other : forall o pid nv pid2, pid2 <> pid -> find_prop (set_prop o pid nv) pid2 = find_prop o pid2.
Proof.
  induction o as [| [q u] r IH]; intros pid nv pid2 H; cbn [find_prop set_prop]; [reflexivity |].
  destruct (p_id q =? pid) eqn:E; cbn [find_prop].
  - apply Z.eqb_eq in E. rewrite E, (proj2 (Z.eqb_neq pid pid2)) by congruence. reflexivity.
  - destruct (p_id q =? pid2); [reflexivity | apply IH; exact H].
Qed.

Lemma map_exn_not_ack : forall x, map_exn x <> RAck.
Proof. intros [c k | | e]; [discriminate | discriminate | destruct e; discriminate]. Qed.

Lemma step_ack_is_write : forall d o d', step d o = (RAck, d') ->
  exists oid pid idx prio w, o = OWrite oid pid idx prio w /\ do_write d oid pid idx w = XOk d'.
Proof.
  intros d o d' H. destruct o as [oid pid idx | oid pid idx prio w | specs]; cbn [step] in H.
  - destruct (do_read d oid pid idx) as [[oid' its] | x]; [inversion H |].
    destruct (map_exn_not_ack x). congruence.
  - destruct (do_write d oid pid idx w) as [d2 | x] eqn:E.
    + inversion H; subst. exists oid, pid, idx, prio, w. split; [reflexivity | exact E].
    + destruct (map_exn_not_ack x). congruence.
  - destruct (do_rpm d specs) as [l | x]; [inversion H |].
    destruct (map_exn_not_ack x). congruence.
Qed.

(* ReadProperty and WriteProperty on one object with the property looked up once; is_none stands for the
   `match r with VNone` both do on what was read *)
Definition is_none (v : val) : bool := match v with VNone => true | _ => false end.
Lemma is_none_false : forall v, v <> VNone -> is_none v = false.
Proof. intros v H. destruct v; [congruence | reflexivity ..]. Qed.

Lemma read_any_eq : forall o pid idx, read_any o pid idx =
  match find_prop o pid with
  | None => XErr PropErr
  | Some (p, cur) => xdo r <- prop_read p cur idx; if is_none r then XErr PropErr else lift (to_any (p_dt p) idx r)
  end.
Proof.
  intros o pid idx. unfold read_any, obj_read. destruct (find_prop o pid) as [[p cur] |]; [| reflexivity].
  destruct (prop_read p cur idx) as [r | x]; [destruct r |]; reflexivity.
Qed.

Lemma write_obj_eq : forall o pid idx w, write_obj o pid idx w =
  match find_prop o pid with
  | None => XErr PropErr
  | Some (p, cur) =>
      xdo r <- prop_read p cur idx;
      if is_none r then XErr PropErr
      else xdo cv <- lift (cast_for (p_dt p) idx w); xdo nv <- prop_write p cur idx cv; XOk (set_prop o pid nv)
  end.
Proof.
  intros o pid idx w. unfold write_obj, obj_read. destruct (find_prop o pid) as [[p cur] |]; [| reflexivity].
  destruct (prop_read p cur idx) as [r | x]; [destruct r |]; reflexivity.
Qed.

Lemma write_obj_inv : forall o pid idx w o', write_obj o pid idx w = XOk o' ->
  exists p cur r cv nv, find_prop o pid = Some (p, cur) /\ prop_read p cur idx = XOk r /\ r <> VNone /\
    cast_for (p_dt p) idx w = Ok cv /\ prop_write p cur idx cv = XOk nv /\ o' = set_prop o pid nv.
Proof.
  intros o pid idx w o' H. rewrite write_obj_eq in H.
  destruct (find_prop o pid) as [[p cur] |]; [| discriminate].
  apply xbind_ok_inv in H as (r & Er & H). destruct (is_none r) eqn:En; [discriminate |].
  destruct (cast_for (p_dt p) idx w) as [cv | e] eqn:Ec; cbn [lift xbind] in H; [| discriminate].
  apply xbind_ok_inv in H as (nv & Ew & H).
  assert (Hn : r <> VNone) by (intros ->; discriminate En).
  inversion H. exists p, cur, r, cv, nv. repeat split; assumption.
Qed.

Lemma do_write_inv : forall d oid pid idx w d', do_write d oid pid idx w = XOk d' ->
  exists o o', find_obj (d_objs d) oid = Some o /\ write_obj o pid idx w = XOk o' /\
    d' = mkDev (d_self d) (set_obj (d_objs d) oid o').
Proof.
  intros d oid pid idx w d' H. unfold do_write in H.
  destruct (find_obj (d_objs d) oid) as [o |]; [| discriminate].
  destruct (write_obj o pid idx w) as [o' | x] eqn:Ew; cbn [xbind catch_prop] in H; [| destruct x; discriminate].
  inversion H. exists o, o'. repeat split. exact Ew.
Qed.

Definition lookup (d : device) (oid pid : Z) : option (pdesc * val) :=
  match find_obj (d_objs d) oid with Some o => find_prop o pid | None => None end.

Lemma write_obj_frame : forall o pid idx w o' pid2, write_obj o pid idx w = XOk o' -> pid2 <> pid ->
  find_prop o' pid2 = find_prop o pid2.
Proof.
  intros o pid idx w o' pid2 H Hne. destruct (write_obj_inv _ _ _ _ _ H) as (p & cur & r & cv & nv & _ & _ & _ & _ & _ & ->).
  apply find_prop_set_other; exact Hne.
Qed.

Lemma do_write_frame : forall d oid pid idx w d' oid2 pid2,
  do_write d oid pid idx w = XOk d' -> (oid2, pid2) <> (oid, pid) -> lookup d' oid2 pid2 = lookup d oid2 pid2.
Proof.
  intros d oid pid idx w d' oid2 pid2 H Hne. destruct (do_write_inv _ _ _ _ _ _ H) as (o & o' & Eo & Ew & ->).
  unfold lookup; cbn [d_objs].
  destruct (Z.eq_dec oid2 oid) as [-> | Hoid].
  - rewrite (find_obj_set_same _ _ _ o' Eo), Eo.
    apply (write_obj_frame _ _ _ _ _ pid2 Ew). congruence.
  - rewrite find_obj_set_other by exact Hoid. reflexivity.
Qed.

Lemma read_unknown_object : forall d oid pid idx, find_obj (d_objs d) (map_oid d oid) = None ->
  step d (ORead oid pid idx) = (RError EC_OBJECT E_UNKNOWN_OBJECT, d).
Proof. intros d oid pid idx H. cbn [step]. unfold do_read. rewrite H. reflexivity. Qed.

Lemma write_unknown_object : forall d oid pid idx prio w, find_obj (d_objs d) oid = None ->
  step d (OWrite oid pid idx prio w) = (RError EC_OBJECT E_UNKNOWN_OBJECT, d).
Proof. intros d oid pid idx prio w H. cbn [step]. unfold do_write. rewrite H. reflexivity. Qed.

Lemma read_unknown_property : forall d oid pid idx o, find_obj (d_objs d) (map_oid d oid) = Some o ->
  find_prop o pid = None -> step d (ORead oid pid idx) = (RError EC_PROPERTY E_UNKNOWN_PROPERTY, d).
Proof. intros d oid pid idx o H Hp. cbn [step]. unfold do_read. rewrite H, read_any_eq, Hp. reflexivity. Qed.

Lemma write_unknown_property : forall d oid pid idx prio w o, find_obj (d_objs d) oid = Some o ->
  find_prop o pid = None -> step d (OWrite oid pid idx prio w) = (RError EC_PROPERTY E_UNKNOWN_PROPERTY, d).
Proof. intros d oid pid idx prio w o H Hp. cbn [step]. unfold do_write. rewrite H, write_obj_eq, Hp. reflexivity. Qed.

(* an absent (None) value is answered like an unknown property *)
Lemma read_absent_property : forall d oid pid o p, find_obj (d_objs d) (map_oid d oid) = Some o ->
  find_prop o pid = Some (p, VNone) -> step d (ORead oid pid None) = (RError EC_PROPERTY E_UNKNOWN_PROPERTY, d).
Proof. intros d oid pid o p H Hp. cbn [step]. unfold do_read. rewrite H, read_any_eq, Hp. reflexivity. Qed.

(* read-only: any value that passes the cast is refused with write-access-denied *)
Lemma write_read_only : forall d oid pid idx prio w o p cur r value,
  find_obj (d_objs d) oid = Some o -> find_prop o pid = Some (p, cur) -> p_mut p = false ->
  prop_read p cur idx = XOk r -> r <> VNone -> cast_for (p_dt p) idx w = Ok value ->
  step d (OWrite oid pid idx prio w) = (RError EC_PROPERTY E_WRITE_ACCESS_DENIED, d).
Proof.
  intros d oid pid idx prio w o p cur r value Ho Hp Hm Hr Hn Hc. cbn [step]. unfold do_write.
  rewrite Ho, write_obj_eq, Hp, Hr. cbn [xbind]. rewrite (is_none_false r Hn), Hc. cbn [lift xbind].
  unfold prop_write, validate. rewrite Hm. reflexivity.
Qed.

Lemma wire_is_null_app : forall w k c, w_tags w = [WApp k c] -> wire_is_null w = (k =? 0).
Proof. intros w k c H. unfold wire_is_null. rewrite H. destruct k; reflexivity. Qed.
Lemma cast_atom_app : forall w k k' c, w_tags w = [WApp k' c] ->
  cast_atom k w = if k' =? k then Ok (EAtom k c) else Err InvalidTag.
Proof. intros w k k' c H. unfold cast_atom. rewrite H. reflexivity. Qed.

(* wrong datatype, atomic property: a single application tag of another kind is rejected (invalid-tag);
   several or no tags give Error device/operational-problem *)
Lemma write_wrong_atom : forall d oid pid prio w o p cur k lo hi k' c,
  find_obj (d_objs d) oid = Some o -> find_prop o pid = Some (p, cur) -> cur <> VNone ->
  p_dt p = DS (SAtom k lo hi) -> w_tags w = [WApp k' c] -> k' <> k -> k' <> 0 ->
  step d (OWrite oid pid None prio w) = (RReject 4, d).
Proof.
  intros d oid pid prio w o p cur k lo hi k' c Ho Hp Hn Hd Hw Hk H0.
  assert (Hc : cast_for (p_dt p) None w = Err InvalidTag).
  { unfold cast_for. rewrite (wire_is_null_app w k' c Hw), (proj2 (Z.eqb_neq k' 0) H0), Hd. cbn [cast_out cast_scalar].
    rewrite (cast_atom_app w k k' c Hw), (proj2 (Z.eqb_neq k' k) Hk). reflexivity. }
  cbn [step]. unfold do_write. rewrite Ho, write_obj_eq, Hp. cbn [prop_read xbind].
  rewrite (is_none_false cur Hn), Hc. reflexivity.
Qed.

Lemma is_valid_null : forall k lo hi c, is_valid (SAtom k lo hi) (EAtom 0 c) = false.
Proof. intros. cbn [is_valid]. rewrite (Z.eqb_sym 0 k). destruct (k =? 0); reflexivity. Qed.

(* the Null special case: an application Null is refused by every atomic property (invalid-parameter-datatype)
   or, if the property is read-only, with write-access-denied *)
Lemma write_null_atomic : forall d oid pid prio w o p cur k lo hi c,
  find_obj (d_objs d) oid = Some o -> find_prop o pid = Some (p, cur) -> cur <> VNone ->
  p_dt p = DS (SAtom k lo hi) -> w_tags w = [WApp 0 c] ->
  step d (OWrite oid pid None prio w) = (if p_mut p then RReject 3 else RError EC_PROPERTY E_WRITE_ACCESS_DENIED, d).
Proof.
  intros d oid pid prio w o p cur k lo hi c Ho Hp Hn Hd Hw.
  assert (Hc : cast_for (p_dt p) None w = Ok (VS (EAtom 0 c))).
  { unfold cast_for. rewrite (wire_is_null_app w 0 c Hw). cbn [Z.eqb cast_out cast_scalar].
    rewrite (cast_atom_app w 0 0 c Hw). reflexivity. }
  cbn [step]. unfold do_write. rewrite Ho, write_obj_eq, Hp. cbn [prop_read xbind].
  rewrite (is_none_false cur Hn), Hc. cbn [lift xbind]. unfold prop_write, validate. rewrite Hd.
  destruct (p_mut p); cbn [negb xbind]; rewrite ?is_valid_null; reflexivity.
Qed.
