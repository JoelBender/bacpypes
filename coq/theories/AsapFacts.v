(* AsapFacts.v — C10, the reply decision: asap_confirmed hands down exactly one reply, or none because the service itself
   stayed silent (asap_confirmed_shape); the other lemmas read off which reply in each case. *)
From Bac Require Import Base Asap.
Open Scope N_scope.

Lemma asap_confirmed_shape known h d x :
  (exists r, asap_confirmed known h d x = [r]) \/ (asap_confirmed known h d x = [] /\ x = XSilent).
Proof.
  unfold asap_confirmed, app_indication.
  destruct known; cbn [negb]; [|eauto].
  destruct d; eauto.
  destruct h; cbn [negb]; [|eauto].
  destruct x; eauto.
Qed.

Lemma malformed_rejected known h d x :
  d <> DOk -> exists r, asap_confirmed known h d x = [r] /\ (ptype r = REJECT \/ ptype r = ABORT).
Proof.
  intros Hd. unfold asap_confirmed. destruct known; cbn [negb].
  - destruct d; try congruence; eexists; split; try reflexivity; cbn; auto.
  - eexists; split; [reflexivity|cbn; auto].
Qed.

Lemma exec_error_mapped c k :
  asap_confirmed true true DOk (XExecError c k) = [mkReply ERROR c k].
Proof. reflexivity. Qed.
