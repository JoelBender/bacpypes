(* SsmC04w.v — C04, bounded time composed: over a whole scheduled history of a client transaction the number of
   time-outs and the instant of every event are bounded in terms of the retry count, the two timeouts and the number K of
   received frames. *)
From Bac Require Import Base PyRt Ssm SsmFrame SsmC04a SsmC04 SsmC04t.
Open Scope Z_scope.

Definition Tmax (s : ssm) : Z := Z.max (s_apdu_to s) (s_seg_to s).

Definition frame_w (st0 st : hst) : Prop :=
  h_now st = h_now st0 /\ same_cfg (h_s st0) (h_s st) /\
  (forall w c, s_timer (h_s st) = Some (w, c) -> w <= h_now st0 + Tmax (h_s st0) \/ s_timer (h_s st0) = Some (w, c)).
Definition counters_w (st0 st : hst) : Prop :=
  s_retry (h_s st) = s_retry (h_s st0) /\ (s_segretry (h_s st) = 0 \/ s_segretry (h_s st) = s_segretry (h_s st0)).

Lemma frame_w_refl : forall st, frame_w st st.
Proof. intros st. unfold frame_w, same_cfg. repeat split. auto. Qed.

Lemma frame_w_stop : forall st0, inv (frame_w st0) stop_timer.
Proof. intros st0 st (Hn & Hc & _). split; [exact Hn | split; [exact Hc | intros w c H; discriminate H]]. Qed.

Lemma frame_w_start : forall st0 st1 t, frame_w st0 st1 -> t = s_seg_to (h_s st1) \/ t = s_apdu_to (h_s st1) ->
  inv (frame_w st0) (start_timer t).
Proof.
  intros st0 st1 t (_ & (_ & _ & Ca & Cs & _) & _) Ht st (Hn & Hc & _). split; [exact Hn | split; [exact Hc|]].
  intros w c H. left. injection H as <- _. unfold Tmax. lia.
Qed.

Ltac w_prim :=
  idtac; lazymatch goal with
  | |- inv _ stop_timer => apply frame_w_stop
  | |- inv _ (start_timer (s_seg_to (h_s ?st1))) => apply (frame_w_start _ st1); [assumption | left; reflexivity]
  | |- inv _ (start_timer (s_apdu_to (h_s ?st1))) => apply (frame_w_start _ st1); [assumption | right; reflexivity]
  | |- inv (counters_w _) (upd (set_segretry_f 0)) => intros ? (? & _); split; [assumption | left; reflexivity]
  end.

Lemma c_indication_frame : forall st0 a, inv (frame_w st0) (c_indication a).
Proof. intros st0 a. unfold c_indication, c_abort, send_seg. inv_auto w_prim. Qed.

Lemma c_process_task_frame : forall st0, inv (frame_w st0) c_process_task.
Proof.
  intros st0. unfold c_process_task, c_segmented_request_timeout, c_await_confirmation_timeout, c_segmented_confirmation_timeout,
    c_abort, send_seg, fill_window.
  inv_auto ltac:(first [w_prim | apply c_indication_frame]).
Qed.

Lemma c_confirmation_frame : forall st0 a, inv (frame_w st0) (c_confirmation a).
Proof.
  intros st0 a. unfold c_confirmation, c_segmented_request, c_await_confirmation, c_segmented_confirmation, c_abort, fill_window,
    append_segment.
  inv_auto w_prim.
Qed.

Lemma c_confirmation_counters : forall st0 a, inv (counters_w st0) (c_confirmation a).
Proof.
  intros st0 a. unfold c_confirmation, c_segmented_request, c_await_confirmation, c_segmented_confirmation, c_abort, fill_window,
    append_segment.
  inv_auto w_prim.
Qed.

Lemma c_confirmation_w : forall a st, frame_w st (fst (c_confirmation a st)) /\ counters_w st (fst (c_confirmation a st)).
Proof. intros a st. split; [apply c_confirmation_frame, frame_w_refl | apply c_confirmation_counters; split; auto]. Qed.

Lemma c_process_task_w : forall st, frame_w st (fst (c_process_task st)).
Proof. intros st. apply c_process_task_frame, frame_w_refl. Qed.

Fixpoint n_rx (evs : list (Z * cevent)) : Z :=
  match evs with [] => 0 | (_, Rx _) :: r => 1 + n_rx r | (_, Timeout) :: r => n_rx r end.
Fixpoint n_to (evs : list (Z * cevent)) : Z :=
  match evs with [] => 0 | (_, Rx _) :: r => n_to r | (_, Timeout) :: r => 1 + n_to r end.
Fixpoint last_time (evs : list (Z * cevent)) (t0 : Z) : Z :=
  match evs with [] => t0 | (now, _) :: r => last_time r now end.

(* a history the scheduler can produce: a frame is handled no later than the armed deadline, a time-out exactly at it; no
   handler raises; nothing is handled after the transaction left the table *)
Fixpoint valid_run (evs : list (Z * cevent)) (s : ssm) (ctr tprev : Z) : Prop :=
  match evs with
  | [] => True
  | (now, ev) :: r =>
    tprev <= now /\
    (exists w c, s_timer s = Some (w, c) /\
                 match ev with Timeout => now = w /\ c_state_ok s = true | Rx _ => now <= w end) /\
    snd (c_handle ev s ctr now) = None /\
    (if h_live (fst (c_handle ev s ctr now))
     then valid_run r (h_s (fst (c_handle ev s ctr now))) (h_ctr (fst (c_handle ev s ctr now))) now
     else r = [])
  end.

Lemma set_timer_counters : forall s, cnt_ok (set_timer_f None s) = cnt_ok s /\ budget (set_timer_f None s) = budget s /\
  Tmax (set_timer_f None s) = Tmax s /\ s_retries (set_timer_f None s) = s_retries s /\ terminal (set_timer_f None s) = terminal s.
Proof. intros s. repeat split. Qed.

(* a time-out strictly lowers the budget; a frame may reset segmentRetryCount to 0, which raises it by at most `s_retries s` *)
Lemma c_handle_budget : forall ev s ctr now tprev, c_ready s -> cnt_ok s -> tprev <= now ->
  (forall w c, s_timer s = Some (w, c) -> w <= tprev + Tmax s) ->
  (match ev with Timeout => c_state_ok s = true | Rx _ => True end) ->
  snd (c_handle ev s ctr now) = None ->
  h_live (fst (c_handle ev s ctr now)) = true ->
  let s' := h_s (fst (c_handle ev s ctr now)) in
  c_ready s' /\ cnt_ok s' /\ Tmax s' = Tmax s /\ s_retries s' = s_retries s /\
  (forall w c, s_timer s' = Some (w, c) -> w <= now + Tmax s) /\
  (match ev with Timeout => budget s' < budget s | Rx _ => budget s' <= budget s + s_retries s end).
Proof.
  intros ev s ctr now tprev Hr Hc Ht Hd Hok He Hl.
  destruct (c_handle_step ev s ctr now Hr) as (_ & _ & Hready & _). specialize (Hready Hl).
  destruct Hr as (Hterm & Ha & Hs).
  destruct ev as [a|]; unfold c_handle in *.
  - destruct (c_confirmation_w a (mkH s [] ctr now true)) as ((_ & Hcfg & Hw3) & Hrty & Hw2).
    destruct Hcfg as (_ & Hw1 & Hc1 & Hc2 & _). cbn [h_s h_now] in *.
    set (s' := h_s (fst (c_confirmation a (mkH s [] ctr now true)))) in *.
    cbv zeta. split; [exact Hready|]. split; [|split; [|split; [|split]]].
    + unfold cnt_ok. rewrite Hw1, Hrty. destruct Hc as ((? & ?) & (? & ?)). destruct Hw2 as [->| ->]; lia.
    + unfold Tmax. rewrite Hc1, Hc2. reflexivity.
    + exact Hw1.
    + intros w c Hwc. destruct (Hw3 w c Hwc) as [H|H]; [exact H|]. apply Hd in H. lia.
    + unfold budget. rewrite Hw1, Hrty. destruct Hc as ((? & ?) & (? & ?)). destruct Hw2 as [->| ->]; nia.
  - destruct (set_timer_counters s) as (S1 & S2 & S3 & S4 & S5).
    destruct (c_process_task_w (mkH (set_timer_f None s) [] ctr now true)) as (_ & Hcfg & Hdl).
    destruct Hcfg as (_ & Hc0 & Hc1 & Hc2 & _). cbn [h_s h_now] in *.
    assert (Hb := timeout_budget (mkH (set_timer_f None s) [] ctr now true) eq_refl).
    cbn [h_s] in Hb. rewrite S5, S1, S2 in Hb. specialize (Hb Hterm Hc He Hl). destruct Hb as (Hb1 & Hb2).
    cbv zeta. split; [exact Hready|]. split; [exact Hb2|]. split; [|split; [|split]].
    + unfold Tmax. rewrite Hc1, Hc2. fold (Tmax (set_timer_f None s)). exact S3.
    + rewrite Hc0. exact S4.
    + intros w c Hwc. destruct (Hdl w c Hwc) as [H|H]; [rewrite S3 in H; exact H|].
      discriminate H.
    + exact Hb1.
Qed.

(* the `+ 1` is the last time-out: it takes the transaction off the table, so nothing says it lowered the budget *)
Lemma run_bound : forall evs s ctr tprev, c_ready s -> cnt_ok s ->
  (forall w c, s_timer s = Some (w, c) -> w <= tprev + Tmax s) ->
  valid_run evs s ctr tprev ->
  n_to evs <= budget s + n_rx evs * s_retries s + 1 /\
  last_time evs tprev <= tprev + (n_rx evs + n_to evs) * Tmax s /\ 0 <= n_rx evs.
Proof.
  induction evs as [|[now ev] r IH]; intros s ctr tprev Hr Hc Hd Hv.
  - cbn. pose proof (budget_nonneg s Hc). lia.
  - cbn [valid_run] in Hv. destruct Hv as (Ht & (w & c & Hw & Hev) & He & Hrest).
    assert (HT : 0 < Tmax s) by (destruct Hr as (_ & ? & ?); unfold Tmax; lia).
    assert (Hnow : now <= tprev + Tmax s).
    { apply Hd in Hw. destruct ev; [lia | destruct Hev; lia]. }
    assert (HR : 0 <= s_retries s) by (destruct Hc as ((? & ?) & _); lia).
    destruct (h_live (fst (c_handle ev s ctr now))) eqn:El.
    + assert (Hok : match ev with Timeout => c_state_ok s = true | Rx _ => True end) by (destruct ev; [exact I | tauto]).
      destruct (c_handle_budget ev s ctr now tprev Hr Hc Ht Hd Hok He El) as (Hr' & Hc' & HT' & HR' & Hd' & Hb).
      rewrite <- HT' in Hd'.
      destruct (IH _ _ now Hr' Hc' Hd' Hrest) as (I1 & I2 & I3). rewrite HT', HR' in *.
      destruct ev; cbn [n_to n_rx last_time]; repeat split; try nia.
    + subst r. pose proof (budget_nonneg s Hc). destruct ev; cbn [n_to n_rx last_time]; repeat split; nia.
Qed.

(* every event — in particular the one that delivers the outcome — happens within (budget + K*(retries + 1) + 1) *
   max(apduTimeout, segmentTimeout) of the start, K = number of frames received *)
Lemma outcome_within : forall evs s ctr t0, c_ready s -> cnt_ok s ->
  (forall w c, s_timer s = Some (w, c) -> w <= t0 + Tmax s) ->
  valid_run evs s ctr t0 ->
  last_time evs t0 <= t0 + (budget s + n_rx evs * (s_retries s + 1) + 1) * Tmax s.
Proof.
  intros evs s ctr t0 Hr Hc Hd Hv.
  destruct (run_bound evs s ctr t0 Hr Hc Hd Hv) as (H1 & H2 & H3).
  assert (HT : 0 < Tmax s) by (destruct Hr as (_ & ? & ?); unfold Tmax; lia).
  nia.
Qed.

(* a request just submitted *)
Lemma fresh_budget : forall s, s_retry s = 0 -> s_segretry s = 0 -> budget s = s_retries s * s_retries s + 3 * s_retries s + 1.
Proof. intros s H1 H2. unfold budget. rewrite H1, H2. nia. Qed.
