(* NpciGenEnc.v — the translated NPCI.encode is enc_npci.
   NPCI.encode is a sequence of blocks (version, control octet, DADR, SADR, hop count, message type), each
   appending the octets of one field to the buffer it is handed; enc_npci concatenates the octets of the same
   fields.  The proof walks the two in step, one block at a time (emit_bind), so that the shapes of a field are
   told apart only inside its own block. *)
From Bac Require Import Base Npci NpciRt NpciGenFacts.
From BacGen Require Import NpciFns.
Open Scope N_scope.

(* one block: the code goes on with the longer buffer (K), the model with the octets (f), and what the model
   does with its result in the end (G) is carried along *)
Lemma emit_bind {B} blk r q (K : pyobj -> res B) (f : list N -> res (list N)) G :
  blk = emit r q -> (forall b, K (app_data b q) = bind (f b) G) -> bind blk K = bind (bind r f) G.
Proof. intros -> H. destruct r; cbn [emit bind]; [apply H|reflexivity]. Qed.

(* a block for a field that may be absent; stated apart so that q is read off the goal *)
Lemma opt_block {B} (c : bool) blk r q (K : pyobj -> res B) (f : list N -> res (list N)) G :
  (if c then blk else Ok q) = emit r q -> (forall b, K (app_data b q) = bind (f b) G) ->
  bind (if c then blk else Ok q) K = bind (bind r f) G.
Proof. apply emit_bind. Qed.

(* `flag = 0; if x is not None: flag = k` *)
Lemma bind_if_ok {A B} (c : bool) (a b : A) (k : A -> res B) :
  bind (if c then Ok a else Ok b) k = k (if c then a else b).
Proof. destruct c; reflexivity. Qed.
Lemma if_present {A B} (x : option A) (a b : B) :
  (if negb (py_is_none x) then a else b) = match x with Some _ => a | None => b end.
Proof. destruct x; reflexivity. Qed.

(* inside a block, once the shape of its field is known: both sides are the same buffer or the same error *)
Ltac open_puts := unfold emit, py_put, py_put_short, py_put_data, app_data.
Ltac same_buffer :=
  cbn [bind pduData set_pduData put N.ltb N.compare]; rewrite <- ?app_assoc, ?app_nil_r; reflexivity.

Lemma NPCI_encode_is_model o p :
  NPCI_encode o p =
  do b <- enc_npci (npci_of o);
  Ok (set_npduControl (Some (control_of (npci_of o))) o,
      set_pduNetworkPriority (pduNetworkPriority o) (set_pduExpectingReply (pduExpectingReply o) (app_data b p))).
Proof.
  unfold NPCI_encode, enc_npci, npci_of. cbn [ver er prio dadr sadr hop nmsg vendor].
  eapply emit_bind; [reflexivity|intros v]. cbv beta zeta.
  (* the three presence flags, then the control octet: control_of up to the form of the tests *)
  rewrite !bind_if_ok. cbv beta. rewrite !if_present.
  cbn [set_npduControl npduDADR npduSADR npduHopCount npduNetMessage npduVendorID pduExpectingReply pduNetworkPriority].
  eapply emit_bind; [reflexivity|intros c]. cbv beta.
  apply opt_block; [|intros d].
  { open_puts. destruct (npduDADR o) as [[n m|n|]|];
      cbn [negb N.eqb Pos.eqb req req_attr bind addrType addrNet addrLen addrAddr enc_dadr];
      [destruct (put (lenN m))|..]; same_buffer. }
  apply opt_block; [|intros s].
  { open_puts. destruct (npduSADR o) as [[n m|n|]|];
      cbn [negb N.eqb Pos.eqb req req_attr bind addrType addrNet addrLen addrAddr enc_sadr];
      [destruct (put (lenN m))|..]; same_buffer. }
  apply opt_block; [|intros hp].
  { open_puts. destruct (npduDADR o); cbn [negb N.eqb Pos.eqb]; [|same_buffer].
    destruct (npduHopCount o) as [x|]; cbn [req bind put_opt]; [destruct (put x)|]; same_buffer. }
  apply opt_block; [|intros m].
  { open_puts. destruct (npduNetMessage o) as [t|]; cbn [negb N.eqb Pos.eqb req bind]; [|same_buffer].
    unfold is_vendor_type. destruct (put t); [|same_buffer].
    destruct (128 <=? t); cbn [andb bind req]; [|same_buffer].
    destruct (t <=? 255); cbn [bind]; [|same_buffer].
    destruct (npduVendorID o); cbn [req bind]; same_buffer. }
  cbn [bind]. unfold app_data. cbn [pduData set_pduData set_pduExpectingReply set_pduNetworkPriority].
  rewrite <- !app_assoc. reflexivity.
Qed.
