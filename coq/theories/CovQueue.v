(* CovQueue.v — the deferred queue under arbitrary interleavings: at every reachable state each bound detection
   instance has exactly one _execute pending if it is triggered and none otherwise (coalescing), older instances
   only leave stale entries, and a drain leaves nothing triggered. *)
From Bac Require Import Base Cov CovFacts CovRun.
Open Scope Z_scope.

Definition dfn_eqb (a b : dfn) : bool :=
  match a, b with
  | DExec o g, DExec o' g' => (o =? o') && (g =? g')
  | DInit i, DInit j => i =? j
  | _, _ => false
  end.
Definition cnt (d : dfn) (q : list dfn) : nat := length (filter (dfn_eqb d) q).

Lemma dfn_eqb_eq : forall a b, dfn_eqb a b = true <-> a = b.
Proof.
  intros [o g|i] [o' g'|j]; cbn; split; intro H; try discriminate; try lia.
  - apply andb_prop in H as [H1 H2]. apply Z.eqb_eq in H1, H2. congruence.
  - inversion H. rewrite !Z.eqb_refl. reflexivity.
  - apply Z.eqb_eq in H. congruence.
  - inversion H. apply Z.eqb_refl.
Qed.

Lemma dfn_eqb_neq : forall a b, a <> b -> dfn_eqb a b = false.
Proof. intros a b H. destruct (dfn_eqb a b) eqn:E; [|reflexivity]. apply dfn_eqb_eq in E. contradiction. Qed.

Lemma cnt_app : forall d q e, cnt d (q ++ [e]) = (cnt d q + (if dfn_eqb d e then 1 else 0))%nat.
Proof. intros. unfold cnt. rewrite filter_app, app_length. cbn. destruct (dfn_eqb d e); reflexivity. Qed.
Lemma cnt_cons : forall d q e, cnt d (e :: q) = ((if dfn_eqb d e then 1 else 0) + cnt d q)%nat.
Proof. intros. unfold cnt. cbn. destruct (dfn_eqb d e); reflexivity. Qed.
Lemma cnt_pos : forall d q, In d q <-> (0 < cnt d q)%nat.
Proof.
  intros d q. induction q as [|e r IH]; [cbn; lia|]. rewrite cnt_cons. cbn [In]. rewrite IH.
  destruct (dfn_eqb d e) eqn:E; [apply dfn_eqb_eq in E; subst; split; [lia|auto]|].
  split; [intros [->|H]; [|lia]|intro H; right; lia]. rewrite (proj2 (dfn_eqb_eq d d) eq_refl) in E. discriminate.
Qed.
Lemma cnt_notin : forall d q, ~ In d q -> cnt d q = 0%nat.
Proof.
  intros d q H. destruct (Nat.eq_0_gt_0_cases (cnt d q)) as [E|E]; [exact E|]. apply cnt_pos in E. contradiction.
Qed.

(* the first conjunct is there so that a fresh bind, which takes the next generation, starts with no _execute pending
   (obj_q_bind) *)
Definition obj_q (q : list dfn) (ob : obj) : Prop :=
  (forall g, In (DExec (oid ob) g) q -> g <= gen ob) /\
  (bound ob = true -> cnt (DExec (oid ob) (gen ob)) q = if trig ob then 1%nat else 0%nat) /\
  (bound ob = false -> trig ob = false).
Definition qinv (s : st) : Prop := Forall (obj_q (queue s)) (objs s).

Lemma obj_q_same : forall q a b, obj_q q a -> oid b = oid a -> gen b = gen a -> bound b = bound a -> trig b = trig a -> obj_q q b.
Proof. intros q a b H E1 E2 E3 E4. unfold obj_q. rewrite E1, E2, E3, E4. exact H. Qed.

Lemma obj_q_app_other : forall q ob e, (forall g, e <> DExec (oid ob) g) -> obj_q q ob -> obj_q (q ++ [e]) ob.
Proof.
  intros q ob e He [A [B C]]. split; [|split; [|exact C]].
  - intros g H. apply in_app_or in H as [H|[H|[]]]; [auto|]. elim (He g). exact H.
  - intro Hb. rewrite cnt_app, dfn_eqb_neq by (intro E; apply (He (gen ob)); auto). rewrite Nat.add_0_r. auto.
Qed.

Lemma obj_q_pop : forall q ob e, e <> DExec (oid ob) (gen ob) \/ bound ob = false -> obj_q (e :: q) ob -> obj_q q ob.
Proof.
  intros q ob e He [A [B C]]. split; [|split; [|exact C]].
  - intros g H. apply A. right. exact H.
  - intro Hb. destruct He as [He|He]; [|congruence]. specialize (B Hb). rewrite cnt_cons, dfn_eqb_neq in B by auto. exact B.
Qed.

Lemma obj_q_trigger : forall q a b, obj_q q a -> bound a = true -> trig a = false ->
  oid b = oid a -> gen b = gen a -> bound b = true -> trig b = true -> obj_q (q ++ [DExec (oid a) (gen a)]) b.
Proof.
  intros q a b [A [B C]] Hb Ht E1 E2 E3 E4. unfold obj_q. rewrite E1, E2, E3, E4. split; [|split; [|discriminate]].
  - intros g H. apply in_app_or in H as [H|[H|[]]]; [auto|inversion H; lia].
  - intros _. rewrite cnt_app, (B Hb), Ht. cbn. rewrite !Z.eqb_refl. reflexivity.
Qed.

Lemma obj_q_bind : forall q ob, obj_q q ob -> obj_q q (bind_obj ob).
Proof.
  intros q ob H. pose proof H as [A _]. unfold bind_obj. destruct (bound ob) eqn:Hb; [exact H|].
  unfold obj_q. cbn. split; [|split; [|discriminate]].
  - intros g Hg. specialize (A g Hg). lia.
  - intros _. apply cnt_notin. intro Hg. specialize (A _ Hg). lia.
Qed.

Lemma obj_q_unbind : forall q ob, obj_q q ob -> obj_q q (unbind_obj ob).
Proof. intros q ob [A _]. unfold obj_q, unbind_obj. cbn. split; [exact A|]. split; [discriminate|reflexivity]. Qed.

Lemma obj_q_pop_exec : forall q a b, obj_q (DExec (oid a) (gen a) :: q) a -> bound a = true ->
  oid b = oid a -> gen b = gen a -> bound b = true -> trig b = false -> obj_q q b.
Proof.
  intros q a b [A [B C]] Hb E1 E2 E3 E4. unfold obj_q. rewrite E1, E2, E3, E4. split; [|split; [|discriminate]].
  - intros g H. apply A. right. exact H.
  - intros _. specialize (B Hb). rewrite cnt_cons in B. cbn in B. rewrite !Z.eqb_refl in B. cbn in B.
    destruct (trig a); lia.
Qed.

Lemma Forall_upd_obj : forall (P : obj -> Prop) o f os,
  Forall P os -> (forall a, In a os -> oid a = o -> P a -> P (f a)) -> Forall P (upd_obj o f os).
Proof. intros P o f os H Hf. apply (Forall_upd_fun P); auto. Qed.

Lemma run_dfn_q : forall s d r s1 ns, NoDup (oids (objs s)) -> Forall (obj_q (d :: r)) (objs s) ->
  run_dfn s d = (s1, ns) -> Forall (obj_q r) (objs s1).
Proof.
  intros s d r s1 ns Hnd H R.
  assert (Hpop : forall a, In a (objs s) -> d <> DExec (oid a) (gen a) \/ bound a = false -> obj_q r a).
  { intros a Ha Hd. rewrite Forall_forall in H. exact (obj_q_pop _ _ _ Hd (H a Ha)). }
  destruct (run_dfn_cases _ _ _ _ R) as [[-> [_ Hs]]|(ob & ob' & xs & F & -> & _ & _ & Hob)].
  - apply Forall_forall. intros a Ha. apply (Hpop a Ha). destruct (dfn_eqb d (DExec (oid a) (gen a))) eqn:E.
    + right. apply dfn_eqb_eq in E. exact (Hs a E (find_obj_in _ _ Hnd Ha)).
    + left. intro E'. apply dfn_eqb_eq in E'. congruence.
  - destruct (report_det ob) as [R1 [R2 [R3 R4]]]. cbn [objs set_objs].
    apply (Forall_upd_found (obj_q (d :: r)) _ _ _ _ ob Hnd F H).
    + intros a Ha Hne _. apply (Hpop a Ha). left. destruct Hob as [[-> _]|[i [-> _]]]; congruence.
    + intro Pa. destruct Hob as [[-> [Hb ->]]|[i [-> ->]]].
      * apply (obj_q_pop_exec r ob); cbn; auto; congruence.
      * eapply obj_q_same; [apply (obj_q_pop _ _ (DInit i)); [left; discriminate|exact Pa]|auto..].
Qed.

Lemma run_queue_q : forall q s s1 ns, NoDup (oids (objs s)) -> Forall (obj_q q) (objs s) ->
  run_queue q s = (s1, ns) -> Forall (obj_q []) (objs s1).
Proof.
  induction q as [|d r IH]; intros s s1 ns Hnd H R; cbn in R; [inversion R; subst; exact H|].
  destruct (run_dfn s d) as [sa na] eqn:E1. destruct (run_queue r sa) as [sb nb] eqn:E2. inversion R; subst.
  pose proof (run_dfn_q _ _ _ _ _ Hnd H E1) as Ha. apply run_dfn_facts in E1 as [Fr _].
  eapply IH; [rewrite (df_oids _ _ Fr); exact Hnd|exact Ha|exact E2].
Qed.

Lemma set_psched_det : forall o ps, oid (set_psched o ps) = oid o /\ gen (set_psched o ps) = gen o /\
  bound (set_psched o ps) = bound o /\ trig (set_psched o ps) = trig o.
Proof. intros. cbn. auto. Qed.

Lemma subscribe_now_q : forall s c p o cf life s' ok code, NoDup (oids (objs s)) -> qinv s ->
  subscribe_now s c p o cf life = (s', ok, code) -> qinv s'.
Proof.
  intros s c p o cf life s' ok code Hnd H S.
  destruct (subscribe_now_cases _ _ _ _ _ _ _ _ _ S) as [[-> _]|[_ (ob & ob2 & nsub & P)]]; [exact H|].
  unfold qinv in *. rewrite (sn_objs P), (sn_queue P).
  apply (Forall_upd_found (obj_q (queue s)) _ _ _ _ ob Hnd (sn_find P) H); [intros a _ _ Pa; apply obj_q_app_other; [discriminate|exact Pa]|].
  intro Pa. apply obj_q_app_other; [discriminate|]. apply obj_q_bind in Pa. destruct (sn_bind P) as [->|[ps ->]]; [exact Pa|].
  eapply obj_q_same; [exact Pa|reflexivity..].
Qed.

Lemma drop_sub_q : forall s c p o, qinv s -> qinv (drop_sub s c p o).
Proof.
  intros s c p o H. unfold qinv, drop_sub in *. cbn [objs queue].
  destruct (subs_of o (remove_sub c p o (subs s))); [|exact H].
  apply (Forall_upd_fun (obj_q (queue s))); [exact H|auto|]. intros a _ _ Pa. apply obj_q_unbind. exact Pa.
Qed.

Lemma cancel_now_q : forall s c p o s' ok code, qinv s -> cancel_now s c p o = (s', ok, code) -> qinv s'.
Proof.
  intros s c p o s' ok code H S.
  assert (Hb : qinv (set_objs s (upd_obj o bind_obj (objs s)))).
  { unfold qinv in *. cbn. apply (Forall_upd_fun (obj_q (queue s))); [exact H|auto|]. intros a _ _ Pa. apply obj_q_bind. exact Pa. }
  destruct (cancel_now_cases _ _ _ _ _ _ _ S) as [[-> _]|[_ [[y [_ ->]]|[_ ->]]]]; [exact H|apply drop_sub_q; exact Hb|exact Hb].
Qed.

Lemma fire_item_q : forall s it, NoDup (oids (objs s)) -> qinv s -> qinv (fst (fire_item s it)).
Proof.
  intros s [k [c p o|o]] Hnd H; cbn.
  - destruct (find_sub c p o (subs s)); [|exact H]. destruct (task_eqb _ _ _); [apply drop_sub_q; exact H|exact H].
  - destruct (find_obj o (objs s)) as [ob|] eqn:F; [|exact H]. destruct (task_eqb _ _ _); [|exact H]. cbn.
    destruct (report_det ob) as [R1 [R2 [R3 R4]]].
    unfold qinv in *. cbn. apply (Forall_upd_found (obj_q (queue s)) _ _ _ _ ob Hnd F H); [auto|].
    intro Pa. eapply obj_q_same; [exact Pa|cbn; auto..].
Qed.

Lemma ticks_q : forall n s, NoDup (oids (objs s)) -> qinv s -> qinv (fst (ticks n s)).
Proof.
  intros n s Hnd H. apply (ticks_pres (fun s => NoDup (oids (objs s)) /\ qinv s)); [intros a Ha; exact Ha| |auto].
  intros a it [Hnda Ha]. rewrite fire_item_oids. split; [exact Hnda|apply fire_item_q; assumption].
Qed.

Lemma drain_q : forall s s1 ns, NoDup (oids (objs s)) -> qinv s -> drain s = (s1, ns) -> qinv s1 /\ queue s1 = [].
Proof.
  intros s s1 ns Hnd H D. unfold drain in D. pose proof (run_queue_q (queue s) (set_queue s []) _ _ Hnd H D) as A.
  apply run_queue_facts in D as [Fr _]. pose proof (df_queue _ _ Fr) as Q. cbn in Q. unfold qinv. rewrite Q. auto.
Qed.

Lemma write_q : forall s i p v s' out, NoDup (oids (objs s)) -> qinv s -> step s (Write i p v) = (s', out) -> qinv s'.
Proof.
  intros s i p v s' out Hnd H S. cbn [step] in S. unfold write_ev in S.
  destruct (nth_error (objs s) i) as [o|] eqn:N; [|inversion S; subst; exact H].
  destruct (has_prop (okind o) p); inversion S; subst s' out; [|exact H]. unfold qinv in *. cbn [objs queue]. clear S.
  destruct (write_obj_det o p v) as [W1 [W2 [W3 _]]].
  (* the written slot is the object with that identifier; the case split is the enqueue condition of write_ev *)
  rewrite (upd_nth_obj _ _ _ _ Hnd N). pose proof (find_obj_nth _ _ _ Hnd N) as F.
  destruct (negb (trig o) && trig (write_obj o p v)) eqn:Flip.
  - apply andb_prop in Flip as [F1 F2]. apply negb_true_iff in F1.
    assert (Hb : bound o = true) by (destruct (bound o) eqn:Eb; [reflexivity|rewrite (write_unbound o p v Eb) in F2; congruence]).
    apply (Forall_upd_found (obj_q (queue s)) _ _ _ _ o Hnd F H).
    + intros a _ Hne Pa. apply obj_q_app_other; [intros g E; inversion E; congruence|exact Pa].
    + intro Pa. apply (obj_q_trigger _ o); auto; congruence.
  - apply (Forall_upd_found (obj_q (queue s)) _ _ _ _ o Hnd F H); [auto|].
    intro Pa. eapply obj_q_same; [exact Pa|auto..].
    destruct (trig o) eqn:Et; [apply (write_triggered o p v Et)|]. cbn in Flip. exact Flip.
Qed.

Lemma init_q : forall os, Forall (fun o => bound o = false /\ trig o = false) os -> qinv (init os).
Proof.
  intros os H. unfold qinv, init. cbn. eapply Forall_impl; [|exact H]. intros o [Hb Ht]. unfold obj_q. cbn.
  split; [intros g []|]. split; [rewrite Hb; discriminate|auto].
Qed.

Theorem run_q : forall es s, inv s -> idinv s -> qinv s -> Forall wf_ev es ->
  let s' := fst (run s es) in inv s' /\ idinv s' /\ qinv s'.
Proof.
  intros es s Hi Hid Hq Hw. apply (run_inv_with (fun s => idinv s /\ qinv s)); auto.
  - intros a i p v a' out Ha [I Q] W. split; [|apply (write_q _ _ _ _ _ _ (proj1 (proj2 Ha)) Q W)].
    destruct (write_ev_facts _ _ _ _ _ _ Ha W) as [_ [_ [B [C _]]]]. unfold idinv. rewrite B, C. exact I.
  - intros a a' ns [_ [Hnd _]] [I Q] D. split; [apply (drain_id _ _ _ I D)|apply (drain_q _ _ _ Hnd Q D)].
  - intros a d r a' ns [_ [Hnd _]] [I Q] E R. unfold qinv in *. rewrite E in Q.
    pose proof (run_dfn_q (set_queue a r) d r _ _ Hnd Q R) as Q'.
    apply run_dfn_facts in R as [[_ B C D _] _]. unfold idinv. rewrite B, C, D. auto.
  - intros a c p o cf life a' ok code Ha [I Q] S. split; [apply (subscribe_now_id _ _ _ _ _ _ _ _ _ Ha I S)|].
    apply (subscribe_now_q _ _ _ _ _ _ _ _ _ (proj1 (proj2 Ha)) Q S).
  - intros a c p o a' ok code _ [I Q] S. split; [apply (cancel_now_id _ _ _ _ _ _ _ I S)|apply (cancel_now_q _ _ _ _ _ _ _ Q S)].
  - intros n a [_ [Hnd _]] [I Q]. split; [apply ticks_id; exact I|apply ticks_q; assumption].
Qed.

(* the states reachable from a device on which no detection exists yet *)
Theorem run_q_init : forall os es, NoDup (oids os) -> Forall (fun o => bound o = false /\ trig o = false) os -> Forall wf_ev es ->
  let s := fst (run (init os) es) in inv s /\ idinv s /\ qinv s.
Proof. intros os es Ho Hu Hw. exact (run_q es (init os) (init_inv os Ho) (init_id os) (init_q os Hu) Hw). Qed.

Theorem pending_execute : forall s ob, qinv s -> In ob (objs s) ->
  (bound ob = true -> trig ob = true -> In (DExec (oid ob) (gen ob)) (queue s)) /\
  (bound ob = true -> (cnt (DExec (oid ob) (gen ob)) (queue s) <= 1)%nat) /\
  (bound ob = true -> In (DExec (oid ob) (gen ob)) (queue s) -> trig ob = true) /\
  (queue s = [] -> trig ob = false).
Proof.
  intros s ob H Hin. unfold qinv in H. rewrite Forall_forall in H. destruct (H ob Hin) as [A [B C]].
  split; [|split; [|split]].
  - intros Hb Ht. apply cnt_pos. rewrite (B Hb), Ht. lia.
  - intro Hb. rewrite (B Hb). destruct (trig ob); lia.
  - intros Hb Hd. destruct (trig ob) eqn:Et; [reflexivity|]. specialize (B Hb).
    exfalso. apply cnt_pos in Hd. lia.
  - intro Q. destruct (bound ob) eqn:Hb; [|apply C; reflexivity]. specialize (B eq_refl). rewrite Q in B. cbn in B.
    destruct (trig ob); [discriminate|reflexivity].
Qed.
