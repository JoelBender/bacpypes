(* TagGenFacts.v — the definitions that translator/gen_tagfns.py regenerates from primitivedata.py on
   every run (BacGen.TagFns) are, for all inputs, equal to the hand model of Tag.v; the model's theorems
   then hold of the generated functions (props/C02.v).  The scripts do not mention generated variable names:
   they unfold and case-split on every `if` / input-list shape. *)
From Bac Require Import Base ResFacts BytesFacts Tag TagHdr TagFacts PyLoops.
From BacGen Require Import TagFns.
Open Scope N_scope.

(* Python's bit operators on naturals = the model's div/mod *)
Lemma land_1 a : N.land a 1 = a mod 2.
Proof. exact (N.land_ones a 1). Qed.
Lemma land_7 a : N.land a 7 = a mod 8.
Proof. exact (N.land_ones a 3). Qed.
Lemma shiftr_3 a : N.shiftr a 3 = a / 8.
Proof. rewrite N.shiftr_div_pow2. reflexivity. Qed.
Lemma shiftr_4 a : N.shiftr a 4 = a / 16.
Proof. rewrite N.shiftr_div_pow2. reflexivity. Qed.
Lemma shiftl_4 a : N.shiftl a 4 = a * 16.
Proof. rewrite N.shiftl_mul_pow2. reflexivity. Qed.

Ltac bitops := rewrite ?land_1, ?land_7, ?shiftr_3, ?shiftr_4, ?shiftl_4.

(* One step of a comparison: reduce the monad, then split on the first test or reader/writer call in
   sight (a reader by the shape of its input).  Once the bit operators are rewritten the two sides make
   the same tests, so every leaf is an identity. *)
Ltac step := cbn beta iota zeta delta [bind app fst snd negb get get_short get_long].
Ltac split_next :=
  match goal with
  | |- context [if ?b then _ else _] => destruct b
  | |- context [get ?l] => is_var l; destruct l
  | |- context [get_short ?l] => is_var l; destruct l as [|? [|? ?]]
  | |- context [get_long ?l] => is_var l; destruct l as [|? [|? [|? [|? ?]]]]
  | |- context [get_data ?k ?l] => destruct (get_data k l) as [[? ?]|?]
  | |- context [put ?x] => destruct (put x)
  end.

Lemma gen_Tag_encode_eq t pdu : gen_Tag_encode t pdu = do bs <- enc_tag t; Ok (pdu ++ bs).
Proof.
  unfold gen_Tag_encode, enc_tag, len_escape, class_bits.
  (* the translation tests `15 <= n` where the model tests `n < 15` *)
  rewrite (N.leb_antisym (num t) 15), (N.leb_antisym (lvt t) 5). bitops.
  change (put 254) with (Ok [254]). change (put 255) with (Ok [255]).
  repeat (step; split_next); step; rewrite <- ?app_assoc; reflexivity.
Qed.

Lemma gen_Tag_encode_nil t : gen_Tag_encode t [] = enc_tag t.
Proof. rewrite gen_Tag_encode_eq. apply bind_ret. Qed.

Lemma gen_Tag_decode_eq bs : gen_Tag_decode bs = dec_tag bs.
Proof.
  unfold gen_Tag_decode, dec_tag, dec_tag_raw.
  destruct bs as [|b r0]; [reflexivity|]. step. bitops.
  repeat (step; split_next); step; try reflexivity.
  (* left: the translated `match r with Err DecodingError => Err InvalidTag | r => r end` against the model's, where
     r failed with an error that is still a variable *)
  all: match goal with e : err |- _ => destruct e; reflexivity end.
Qed.

Lemma for_each_enc (F : tag -> list N -> res (list N)) :
  (forall t p, F t p = do bs <- enc_tag t; Ok (p ++ bs)) ->
  forall ts p, for_each F ts p = do bs <- enc_tags ts; Ok (p ++ bs).
Proof.
  intros HF. induction ts as [|t ts IH]; intros p; cbn [for_each enc_tags bind].
  - now rewrite app_nil_r.
  - rewrite HF. destruct (enc_tag t) as [a|]; cbn [bind]; [|reflexivity].
    rewrite IH. destruct (enc_tags ts) as [b|]; cbn [bind]; [|reflexivity].
    now rewrite app_assoc.
Qed.

Lemma gen_TagList_encode_eq ts pdu : gen_TagList_encode ts pdu = do bs <- enc_tags ts; Ok (pdu ++ bs).
Proof.
  unfold gen_TagList_encode. erewrite for_each_enc.
  - apply bind_ret.
  - intros t p. cbn beta. rewrite bind_ret. apply gen_Tag_encode_eq.
Qed.

Lemma gen_TagList_encode_nil ts : gen_TagList_encode ts [] = enc_tags ts.
Proof. rewrite gen_TagList_encode_eq. apply bind_ret. Qed.

(* the while loop of TagList.decode is the fuelled recursion of the model *)
Lemma while_dec (C : list tag * list N -> bool) (B : list tag * list N -> res (list tag * list N)) :
  (forall acc bs, C (acc, bs) = nonempty bs) ->
  (forall acc bs, B (acc, bs) = do (t, r) <- dec_tag bs; Ok (acc ++ [t], r)) ->
  forall f acc bs, while_fuel f C B (acc, bs) = do ts <- dec_tags_fuel f bs; Ok (acc ++ ts, []).
Proof.
  intros HC HB. induction f as [|f IH]; intros acc bs; cbn [while_fuel dec_tags_fuel]; rewrite HC;
    destruct bs as [|b bs]; cbn [nonempty bind]; rewrite ?app_nil_r; try reflexivity.
  rewrite HB. destruct (dec_tag (b :: bs)) as [[t r]|e]; cbn [bind]; [|reflexivity].
  rewrite IH. destruct (dec_tags_fuel f r); cbn [bind]; [|reflexivity].
  now rewrite <- app_assoc.
Qed.

Lemma gen_TagList_decode_eq acc bs :
  gen_TagList_decode acc bs = do ts <- dec_tags bs; Ok (acc ++ ts, []).
Proof.
  unfold gen_TagList_decode, dec_tags. cbn zeta. erewrite while_dec.
  - destruct (dec_tags_fuel (length bs) bs); reflexivity.
  - intros; reflexivity.
  - intros a b. cbn beta iota. rewrite gen_Tag_decode_eq. destruct (dec_tag b) as [[? ?]|?]; reflexivity.
Qed.

Lemma gen_TagList_decode_nil bs : gen_TagList_decode [] bs = do ts <- dec_tags bs; Ok (ts, []).
Proof. apply gen_TagList_decode_eq. Qed.

Lemma gen_TagList_decode_ok bs ts : gen_TagList_decode [] bs = Ok (ts, []) <-> dec_tags bs = Ok ts.
Proof. rewrite gen_TagList_decode_nil. destruct (dec_tags bs); cbn [bind]; split; congruence. Qed.
