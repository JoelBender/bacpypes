(* SchedFacts.v — lemmas about Sched.v: the queue invariant (sorted, fresh counters, one entry per
   task, isScheduled = queued, entry time = taskTime) and its preservation by every operation;
   generic preservation principle for the two event loops. *)
From Bac Require Import Base Deferred DeferredFacts Sched.
From Coq Require Import Permutation Sorted.
Open Scope Z_scope.

(* The order on entries has three spellings: `e_lt` (Sched.v, the boolean `insert` computes with), `elt` (here; every
   lemma of these files is stated with it) and `key_lt` (SchedC14.v, the arithmetic written out, for the theorems).
   e_lt_spec leads from the first two to the arithmetic, SchedC14.elt_key_lt from elt to key_lt. *)
Definition elt (a b : entry) : Prop := e_lt a b = true.

Lemma e_lt_spec : forall a b, e_lt a b = true <->
  (e_when a < e_when b \/ (e_when a = e_when b /\ (e_seq a < e_seq b)%N)).
Proof. intros. unfold e_lt. rewrite orb_true_iff, andb_true_iff, Z.ltb_lt, Z.eqb_eq, N.ltb_lt. reflexivity. Qed.

Lemma elt_trans : forall a b c, elt a b -> elt b c -> elt a c.
Proof. intros *. unfold elt. rewrite !e_lt_spec. lia. Qed.

Lemma elt_trichotomy : forall a b, e_seq a <> e_seq b -> elt a b \/ elt b a.
Proof. intros *. unfold elt. rewrite !e_lt_spec. lia. Qed.

Lemma elt_irrefl : forall a, ~ elt a a.
Proof. unfold elt. intros a. rewrite e_lt_spec. lia. Qed.

Definition sorted (h : list entry) : Prop := StronglySorted elt h.

Lemma insert_perm : forall e h, Permutation (insert e h) (e :: h).
Proof.
  induction h as [|x r IH]; [reflexivity|].
  cbn [insert]. destruct (e_lt e x); [reflexivity|].
  rewrite IH. apply perm_swap.
Qed.

Lemma insert_sorted : forall e h, sorted h -> (forall x, In x h -> e_seq x <> e_seq e) -> sorted (insert e h).
Proof.
  induction h as [|x r IH]; intros Hs Hf.
  - repeat constructor.
  - cbn [insert]. inversion Hs as [|? ? Hr Hx]; subst.
    destruct (e_lt e x) eqn:E.
    + constructor; [exact Hs|]. constructor; [exact E|].
      rewrite Forall_forall in *. intros y Hy. eapply elt_trans; [exact E | apply Hx, Hy].
    + constructor.
      * apply IH; [exact Hr|]. intros y Hy. apply Hf. right. exact Hy.
      * rewrite Forall_forall in *. intros y Hy.
        apply (Permutation_in _ (insert_perm e r)) in Hy. destruct Hy as [<-|Hy].
        -- destruct (elt_trichotomy e x) as [L|L]; [|unfold elt in L; congruence | exact L].
           intros Heq. apply (Hf x); [left; reflexivity | symmetry; exact Heq].
        -- apply Hx, Hy.
Qed.

Lemma sorted_snoc : forall l e, sorted l -> (forall k, In k l -> elt k e) -> sorted (l ++ [e]).
Proof.
  induction l as [|x l IH]; intros e Hs Hk; cbn [app].
  - repeat constructor.
  - inversion Hs as [|? ? Hl Hx]; subst. constructor.
    + apply IH; [exact Hl|]. intros k Hi. apply Hk. right. exact Hi.
    + apply Forall_app. split; [exact Hx|]. constructor; [|constructor]. apply Hk. left. reflexivity.
Qed.

Lemma remove_perm : forall i h h', remove_tid i h = Some h' ->
  exists e, e_tid e = i /\ Permutation h (e :: h').
Proof.
  induction h as [|x r IH]; intros h' H; [discriminate|].
  cbn [remove_tid] in H. destruct (Nat.eqb (e_tid x) i) eqn:E.
  - inversion H; subst. exists x. split; [apply Nat.eqb_eq, E | reflexivity].
  - destruct (remove_tid i r) as [r'|] eqn:R; [|discriminate]. inversion H; subst.
    destruct (IH r' eq_refl) as [e [He Hp]]. exists e. split; [exact He|].
    rewrite Hp. apply perm_swap.
Qed.

Lemma remove_sorted : forall i h h', sorted h -> remove_tid i h = Some h' -> sorted h'.
Proof.
  induction h as [|x r IH]; intros h' Hs H; [discriminate|].
  cbn [remove_tid] in H. inversion Hs as [|? ? Hr Hx]; subst.
  destruct (Nat.eqb (e_tid x) i); [inversion H; subst; exact Hr|].
  destruct (remove_tid i r) as [r'|] eqn:R; [|discriminate]. inversion H; subst.
  constructor; [apply IH; [exact Hr | reflexivity]|].
  destruct (remove_perm _ _ _ R) as [e [_ Hp]].
  rewrite Forall_forall in *. intros y Hy. apply Hx.
  apply (Permutation_in _ (Permutation_sym Hp)). right. exact Hy.
Qed.

Lemma remove_none : forall i h, remove_tid i h = None -> ~ In i (map e_tid h).
Proof.
  induction h as [|x r IH]; intros H; [intros []|].
  cbn [remove_tid] in H. destruct (Nat.eqb (e_tid x) i) eqn:E; [discriminate|].
  destruct (remove_tid i r); [discriminate|].
  cbn [map]. intros [Hx|Hx]; [apply Nat.eqb_neq in E; contradiction | exact (IH eq_refl Hx)].
Qed.

Record InvW (s : st) : Prop := {
  inv_sorted : sorted (heap s);
  inv_seq : forall e, In e (heap s) -> (e_seq e < ctr s)%N;
  inv_nodup : NoDup (map e_tid (heap s));
  inv_sched : forall i, sched s i = true <-> In i (map e_tid (heap s)) }.

Definition time_ok (s : st) (e : entry) : Prop := ttime s (e_tid e) = Some (e_when e).
Definition Inv (s : st) : Prop := InvW s /\ forall e, In e (heap s) -> time_ok s e.
(* everything but the time of task i's own entry (i is about to be re-installed) *)
Definition InvBut (i : nat) (s : st) : Prop :=
  InvW s /\ forall e, In e (heap s) -> e_tid e <> i -> time_ok s e.

Lemma Inv_sorted : forall s, Inv s -> sorted (heap s).
Proof. intros s H. apply inv_sorted, H. Qed.
Lemma Inv_nodup : forall s, Inv s -> NoDup (map e_tid (heap s)).
Proof. intros s H. apply inv_nodup, H. Qed.
Lemma Inv_sched : forall s i, Inv s -> sched s i = true <-> In i (map e_tid (heap s)).
Proof. intros s i H. apply inv_sched, H. Qed.

Lemma Inv_st0 : Inv st0.
Proof.
  split; [split|]; cbn [st0 heap ctr sched map].
  - constructor.
  - intros e [].
  - constructor.
  - intros i. split; [discriminate | intros []].
  - intros e [].
Qed.

Lemma upd_same : forall A (f : nat -> A) i v, upd f i v i = v.
Proof. intros. unfold upd. rewrite Nat.eqb_refl. reflexivity. Qed.
Lemma upd_other : forall A (f : nat -> A) i v j, j <> i -> upd f i v j = f j.
Proof. intros. unfold upd. destruct (Nat.eqb j i) eqn:E; [apply Nat.eqb_eq in E; contradiction | reflexivity]. Qed.

Lemma tm_suspend_frame : forall s i, now (tm_suspend s i) = now s /\ ctr (tm_suspend s i) = ctr s /\
  ttime (tm_suspend s i) = ttime s /\ dq (tm_suspend s i) = dq s.
Proof. intros s i. unfold tm_suspend. destruct (remove_tid i (heap s)); repeat split. Qed.

Lemma tm_install_frame : forall s i s', tm_install s i = Ok s' ->
  now s' = now s /\ ctr s' = (ctr s + 1)%N /\ ttime s' = ttime s /\ dq s' = dq s.
Proof.
  intros s i s' H. unfold tm_install in H. destruct (ttime s i); [|discriminate].
  destruct (tm_suspend_frame s i) as [Hn [Hc [Ht Hd]]].
  destruct (sched s i); inversion H; subst; cbn [now ctr ttime dq]; rewrite ?Hn, ?Hc, ?Ht, ?Hd; repeat split.
Qed.

(* what suspend_task and install_task do to the heap, without any invariant *)
Definition less_one_of (i : nat) (h h1 : list entry) : Prop :=
  h1 = h \/ exists e, e_tid e = i /\ Permutation h (e :: h1).

Lemma less_one_of_tids : forall i h h1 j, less_one_of i h h1 -> ~ In j (map e_tid h) -> ~ In j (map e_tid h1).
Proof.
  intros i h h1 j [->|[e [_ Hp]]] Hn; [exact Hn|]. intros Hj. apply Hn.
  apply (Permutation_in _ (Permutation_sym (Permutation_map e_tid Hp))). right. exact Hj.
Qed.

Lemma tm_suspend_heap : forall s i, less_one_of i (heap s) (heap (tm_suspend s i)).
Proof.
  intros s i. unfold tm_suspend. destruct (remove_tid i (heap s)) as [h'|] eqn:R.
  - right. apply (remove_perm _ _ _ R).
  - left. reflexivity.
Qed.

Lemma tm_install_heap : forall s i s', tm_install s i = Ok s' ->
  exists t h1, ttime s i = Some t
  /\ less_one_of i (heap s) h1 /\ Permutation (heap s') ((t, ctr s, i) :: h1).
Proof.
  intros s i s' H. unfold tm_install in H. destruct (ttime s i) as [t|]; [|discriminate].
  destruct (tm_suspend_frame s i) as [_ [Hc _]].
  exists t. destruct (sched s i); inversion H; subst; cbn [heap].
  - exists (heap (tm_suspend s i)). rewrite Hc. split; [reflexivity|].
    split; [apply tm_suspend_heap | apply insert_perm].
  - exists (heap s). split; [reflexivity|]. split; [left; reflexivity | apply insert_perm].
Qed.

Lemma tm_install_set_time : forall s i t, exists s',
  tm_install (set_ttime s (upd (ttime s) i (Some t))) i = Ok s' /\ ttime s' i = Some t /\ In (t, ctr s, i) (heap s').
Proof.
  intros s i t. set (s0 := set_ttime s (upd (ttime s) i (Some t))).
  destruct (tm_install s0 i) as [s'|err] eqn:T.
  - exists s'. split; [reflexivity|]. destruct (tm_install_frame _ _ _ T) as [_ [_ [Ht _]]].
    destruct (tm_install_heap _ _ _ T) as [t' [h1 [Ht' [_ Hp]]]].
    subst s0. cbn [ttime set_ttime ctr] in *. rewrite upd_same in Ht'. inversion Ht'; subst t'.
    split; [rewrite Ht; apply upd_same | apply (Permutation_in _ (Permutation_sym Hp)); left; reflexivity].
  - unfold tm_install in T. subst s0. cbn [ttime set_ttime] in T. rewrite upd_same in T. discriminate T.
Qed.

Lemma InvW_del : forall s e h', InvW s -> Permutation (heap s) (e :: h') -> sorted h' ->
  InvW (mkSt (now s) (ctr s) h' (upd (sched s) (e_tid e) false) (ttime s) (dq s)) /\ ~ In (e_tid e) (map e_tid h').
Proof.
  intros s e h' [Hs Hq Hn Hc] Hp Hs'. pose proof (Permutation_map e_tid Hp) as Hpt.
  pose proof (Permutation_NoDup Hpt Hn) as Hn'. inversion Hn' as [|? ? Hni Hnd]; subst.
  split; [split|exact Hni]; cbn [heap sched ctr].
  - exact Hs'.
  - intros x Hx. apply Hq, (Permutation_in _ (Permutation_sym Hp)). right. exact Hx.
  - exact Hnd.
  - intros j. destruct (Nat.eq_dec j (e_tid e)) as [->|Hne].
    + rewrite upd_same. split; [discriminate | intros Hj; contradiction].
    + rewrite upd_other by exact Hne. rewrite Hc. split; intros Hj.
      * apply (Permutation_in _ Hpt) in Hj. destruct Hj as [Hj|Hj]; [congruence | exact Hj].
      * apply (Permutation_in _ (Permutation_sym Hpt)). right. exact Hj.
Qed.

Lemma tm_suspend_facts : forall s i, InvW s ->
  InvW (tm_suspend s i) /\ ~ In i (map e_tid (heap (tm_suspend s i)))
  /\ (forall e, In e (heap (tm_suspend s i)) -> In e (heap s) /\ e_tid e <> i)
  /\ (forall e, In e (heap s) -> e_tid e <> i -> In e (heap (tm_suspend s i))).
Proof.
  intros s i Hw. unfold tm_suspend. destruct (remove_tid i (heap s)) as [h'|] eqn:R.
  - destruct (remove_perm _ _ _ R) as [e [He Hp]]. subst i.
    destruct (InvW_del s e h' Hw Hp (remove_sorted _ _ _ (inv_sorted s Hw) R)) as [Hw1 Hni]. cbn [heap].
    split; [exact Hw1|]. split; [exact Hni|]. split.
    + intros x Hx. split; [apply (Permutation_in _ (Permutation_sym Hp)); right; exact Hx|].
      intros Heq. apply Hni. rewrite <- Heq. apply in_map, Hx.
    + intros x Hx Hne. apply (Permutation_in _ Hp) in Hx. destruct Hx as [<-|Hx]; [contradiction | exact Hx].
  - split; [exact Hw|]. split; [apply remove_none, R|]. split; [|intros; assumption].
    intros x Hx. split; [exact Hx|]. intros Heq. apply (remove_none _ _ R). rewrite <- Heq. apply in_map, Hx.
Qed.

Lemma tm_suspend_unsched : forall s i, InvW s -> sched s i = false -> tm_suspend s i = s.
Proof.
  intros s i Hw S. unfold tm_suspend. destruct (remove_tid i (heap s)) as [h'|] eqn:R; [exfalso | reflexivity].
  destruct (remove_perm _ _ _ R) as [e [He Hp]].
  assert (Hi : In i (map e_tid (heap s))).
  { rewrite <- He. apply in_map. apply (Permutation_in _ (Permutation_sym Hp)). left. reflexivity. }
  apply (inv_sched s Hw) in Hi. congruence.
Qed.

Lemma tm_install_facts : forall s i s', InvBut i s -> tm_install s i = Ok s' ->
  exists t, ttime s i = Some t /\ Inv s' /\ ~ In i (map e_tid (heap (tm_suspend s i)))
  /\ Permutation (heap s') ((t, ctr s, i) :: heap (tm_suspend s i)).
Proof.
  intros s i s' [Hw Ht] H. unfold tm_install in H.
  destruct (ttime s i) as [t|] eqn:T; [|discriminate]. exists t. split; [reflexivity|].
  replace (if sched s i then tm_suspend s i else s) with (tm_suspend s i) in H
    by (destruct (sched s i) eqn:S; [reflexivity | apply tm_suspend_unsched; assumption]).
  destruct (tm_suspend_facts s i Hw) as [[Hs Hq Hn Hc] [Hni [Hsub _]]].
  destruct (tm_suspend_frame s i) as [_ [Hcc [Htt _]]]. set (s1 := tm_suspend s i) in *.
  inversion H; subst s'; clear H. rewrite Hcc, Htt.
  pose proof (insert_perm (t, ctr s, i) (heap s1)) as Hp.
  split; [split; [split|]|]; cbn [heap sched ttime ctr now dq].
  - apply insert_sorted; [exact Hs|]. intros x Hx. apply Hq in Hx. cbn [e_seq fst snd]. lia.
  - intros x Hx. apply (Permutation_in _ Hp) in Hx. destruct Hx as [<-|Hx]; [cbn [e_seq fst snd]; lia|].
    apply Hq in Hx. lia.
  - eapply Permutation_NoDup; [apply Permutation_sym, Permutation_map, Hp|].
    cbn [map e_tid snd]. constructor; assumption.
  - intros j. split; intros Hj.
    + apply (Permutation_in _ (Permutation_sym (Permutation_map e_tid Hp))).
      cbn [map e_tid snd]. destruct (Nat.eq_dec j i) as [->|Hne]; [left; reflexivity|].
      right. apply Hc. rewrite upd_other in Hj by exact Hne. exact Hj.
    + destruct (Nat.eq_dec j i) as [->|Hne]; [apply upd_same|].
      rewrite upd_other by exact Hne. apply Hc.
      apply (Permutation_in _ (Permutation_map e_tid Hp)) in Hj. cbn [map e_tid snd] in Hj.
      destruct Hj as [Hj|Hj]; [congruence | exact Hj].
  - intros x Hx. apply (Permutation_in _ Hp) in Hx. unfold time_ok. cbn [ttime].
    destruct Hx as [<-|Hx]; [exact T|].
    destruct (Hsub x Hx) as [Hx' Hne]. apply Ht; assumption.
  - split; [exact Hni | exact Hp].
Qed.

Lemma set_ttime_id : forall s, set_ttime s (ttime s) = s.
Proof. intros []. reflexivity. Qed.
Lemma set_dq_id : forall s, set_dq s (dq s) = s.
Proof. intros []. reflexivity. Qed.
Lemma set_dq_set_dq : forall s a b, set_dq (set_dq s a) b = set_dq s b.
Proof. intros [] a b. reflexivity. Qed.

Lemma Inv_InvBut : forall s i, Inv s -> InvBut i s.
Proof. intros s i [Hw Ht]. split; [exact Hw|]. intros e He _. apply Ht, He. Qed.

Lemma InvBut_set_time : forall s i v, Inv s -> InvBut i (set_ttime s (upd (ttime s) i v)).
Proof.
  intros s i v [[Hs Hq Hn Hc] Ht]. split; [split; assumption|].
  intros e He Hne. unfold time_ok. cbn [ttime set_ttime]. rewrite upd_other by exact Hne. apply Ht, He.
Qed.

Lemma Inv_set_dq : forall s q, Inv s -> Inv (set_dq s q).
Proof. intros s q [[Hs Hq Hn Hc] Ht]. split; [split; assumption | exact Ht]. Qed.
Lemma Inv_set_now : forall s t, Inv s -> Inv (set_now s t).
Proof. intros s t [[Hs Hq Hn Hc] Ht]. split; [split; assumption | exact Ht]. Qed.

Lemma tm_suspend_inv : forall s i, Inv s -> Inv (tm_suspend s i).
Proof.
  intros s i [Hw Ht]. destruct (tm_suspend_facts s i Hw) as [Hw1 [_ [Hin _]]].
  destruct (tm_suspend_frame s i) as [_ [_ [Htt _]]].
  split; [exact Hw1|]. intros e He. unfold time_ok. rewrite Htt. apply Ht, Hin, He.
Qed.

Lemma Inv_head_min : forall s e rest, Inv s -> heap s = e :: rest -> forall x, In x rest -> elt e x.
Proof.
  intros s e rest Hi Hh. pose proof (Inv_sorted s Hi) as Hso. rewrite Hh in Hso. inversion Hso as [|? ? _ Hf]; subst.
  apply Forall_forall. exact Hf.
Qed.

Lemma get_next_none : forall s s1 z, get_next_task s = (None, s1, z) -> s1 = s /\ z = false.
Proof.
  intros s s1 z H. unfold get_next_task in H. destruct (heap s) as [|e r]; [inversion H; auto|].
  destruct (e_when e <=? now s); inversion H; auto.
Qed.

Lemma get_next_some : forall s e s1 z, get_next_task s = (Some e, s1, z) ->
  exists r, heap s = e :: r /\ e_when e <= now s
  /\ s1 = mkSt (now s) (ctr s) r (upd (sched s) (e_tid e) false) (ttime s) (dq s)
  /\ z = match r with [] => false | e' :: _ => e_when e' <=? now s end.
Proof.
  intros s e s1 z H. unfold get_next_task in H. destruct (heap s) as [|e0 r]; [discriminate|].
  destruct (e_when e0 <=? now s) eqn:E; [|discriminate]. inversion H; subst.
  exists r. repeat split. lia.
Qed.

Lemma get_next_inv : forall s e s1 z, Inv s -> get_next_task s = (Some e, s1, z) ->
  Inv s1 /\ ~ In (e_tid e) (map e_tid (heap s1)).
Proof.
  intros s e s1 z [Hw Ht] H. destruct (get_next_some _ _ _ _ H) as [r [Hh [Hd [-> _]]]]. cbn [heap].
  assert (Hsr : sorted r) by (pose proof (inv_sorted s Hw) as Hs; rewrite Hh in Hs; inversion Hs; assumption).
  destruct (InvW_del s e r Hw ltac:(rewrite Hh; reflexivity) Hsr) as [Hw1 Hni]. split; [|exact Hni].
  split; [exact Hw1|]. intros x Hx. apply Ht. rewrite Hh. right. exact Hx.
Qed.

Definition fire_of (s : st) (e : entry) : event := EvFire (e_tid e) (e_when e) (e_seq e) (now s).

Lemma do_act_cases : forall jit c s a s' ev, do_act jit c s a = Ok (s', ev) ->
  (exists i, s' = tm_suspend s i /\ ev = []) \/
  (exists i f, (f = ttime s \/ exists t, f = upd (ttime s) i (Some t)) /\
     tm_install (set_ttime s f) i = Ok s' /\ ev = [EvInst i false]).
Proof.
  intros jit c s a s' ev H.
  assert (L : forall i f, (f = ttime s \/ exists t, f = upd (ttime s) i (Some t)) ->
            (do s2 <- tm_install (set_ttime s f) i; Ok (s2, [EvInst i false])) = Ok (s', ev) ->
            exists i f, (f = ttime s \/ exists t, f = upd (ttime s) i (Some t)) /\
              tm_install (set_ttime s f) i = Ok s' /\ ev = [EvInst i false]).
  { intros i f Hf E. destruct (tm_install (set_ttime s f) i) as [s2|] eqn:T; [|discriminate]. inversion E; subst. eauto. }
  destruct a as [i t|i d|i|i|i]; cbn [do_act] in H; [right..| |right].
  - unfold do_install_when in H. destruct (t_kind (cfg_get c i)); [|discriminate]. eapply L; eauto.
  - unfold do_install_when in H. destruct (t_kind (cfg_get c i)); [|discriminate]. eapply L; eauto.
  - unfold do_reinstall in H. destruct (t_kind (cfg_get c i)) as [|iv off].
    + destruct (ttime s i); [|discriminate]. apply (L i (ttime s)); [auto|]. rewrite set_ttime_id. exact H.
    + unfold rec_install in H. destruct (iv <=? 0); [discriminate|]. eapply L; eauto.
  - inversion H; subst. left. exists i. split; reflexivity.
  - apply (L i (ttime s)); [auto|]. rewrite set_ttime_id. exact H.
Qed.

Lemma process_task_cases : forall jit c s e s2 ev r, process_task jit c s e = (s2, ev, r) ->
  let k := cfg_get c (e_tid e) in
  exists sa eva failed, run_acts jit c (set_dq s (dq s ++ t_defers k)) (t_acts k) = (sa, eva, failed) /\
    ((s2 = sa /\ ev = fire_of s e :: eva) \/
     exists iv off, t_kind k = Recurring iv off /\ 0 < iv /\ r = false /\ failed = false /\ t_raises k = false /\
       tm_install (set_ttime sa (upd (ttime sa) (e_tid e) (Some (next_slot jit iv off (now sa))))) (e_tid e) = Ok s2 /\
       ev = fire_of s e :: eva ++ [EvInst (e_tid e) true]).
Proof.
  intros jit c s e s2 ev r H k. unfold process_task in H. fold k in H.
  destruct (run_acts jit c (set_dq s (dq s ++ t_defers k)) (t_acts k)) as [[sa eva] failed] eqn:RA.
  exists sa, eva, failed. split; [reflexivity|].
  destruct (failed || t_raises k) eqn:FR; [inversion H; subst; left; split; reflexivity|].
  destruct (t_kind k) as [|iv off] eqn:K; [inversion H; subst; left; split; reflexivity|].
  unfold rec_install in H. destruct (iv <=? 0) eqn:E; [inversion H; subst; left; split; reflexivity|].
  match type of H with context [tm_install ?a ?b] => destruct (tm_install a b) as [s3|] eqn:T end;
    inversion H; subst; [right | left; split; reflexivity].
  apply orb_false_elim in FR. destruct FR as [-> Hr].
  exists iv, off. repeat split; try reflexivity; try assumption. lia.
Qed.

(* what both loops do first.  Result: state, events, whether the callback raised, `delta == 0.0` *)
Definition fire_step (jit : Z) (c : cfg) (s : st) : st * list event * bool * bool :=
  let '(t, s1, zero) := get_next_task s in
  let '(s2, ev, r) := match t with
                      | Some e => let '(s2, ev, r) := process_task jit c s1 e in (s2, pop_events s e s1 ++ ev, r)
                      | None => (s1, [], false)
                      end in
  (s2, ev, r, zero).

Lemma fire_step_cases : forall jit c s s2 ev r z, fire_step jit c s = (s2, ev, r, z) ->
  (get_next_task s = (None, s, false) /\ s2 = s /\ ev = [] /\ r = false /\ z = false) \/
  exists e s1 ev1, get_next_task s = (Some e, s1, z) /\ process_task jit c s1 e = (s2, ev1, r) /\
    ev = pop_events s e s1 ++ ev1.
Proof.
  intros jit c s s2 ev r z H. unfold fire_step in H. destruct (get_next_task s) as [[[e|] s1] z0] eqn:G.
  - destruct (process_task jit c s1 e) as [[s2' ev1] r'] eqn:P. inversion H; subst.
    right. exists e, s1, ev1. repeat split. exact P.
  - destruct (get_next_none _ _ _ G) as [-> ->]. inversion H; subst. left. repeat split.
Qed.

(* one iteration of either loop.  Result: state, events, whether an exception ended the iteration (the callback's,
   logged here, or one that left the deferred loop), `delta == 0.0` *)
Definition loop_iter (guard : bool) (jit : Z) (c : cfg) (s : st) : st * list event * bool * bool :=
  let '(s2, ev1, r1, zero) := fire_step jit c s in
  if r1 then (s2, ev1 ++ [EvRaise], true, zero)
  else let '(s3, ev2, r2) := do_drain guard jit c s2 in (s3, ev1 ++ ev2, r2, zero).

Lemma run_once_loop_S : forall guard jit c f s,
  run_once_loop guard jit c (S f) s =
  let '(s3, ev, x, zero) := loop_iter guard jit c s in
  if x || negb zero then (s3, ev) else let '(s4, ev3) := run_once_loop guard jit c f s3 in (s4, ev ++ ev3).
Proof.
  intros. cbn [run_once_loop]. unfold loop_iter, fire_step.
  destruct (get_next_task s) as [[[e|] s1] z]; [destruct (process_task jit c s1 e) as [[s2 ev] [|]]|]; try reflexivity;
    (destruct (do_drain guard jit c _) as [[s3 ev2] [|]]; [reflexivity|]; destruct z; [|reflexivity]; cbn [orb negb];
     destruct (run_once_loop guard jit c f s3); rewrite app_assoc; reflexivity).
Qed.

Lemma run_loop_S : forall guard jit c f s,
  run_loop guard jit c (S f) s =
  if quiescent s then (s, []) else
  let '(s3, ev, _, _) := loop_iter guard jit c s in
  let '(s4, ev3) := run_loop guard jit c f s3 in (s4, ev ++ ev3).
Proof.
  intros. cbn [run_loop]. unfold loop_iter, fire_step. destruct (quiescent s); [reflexivity|].
  destruct (get_next_task s) as [[[e|] s1] z]; [destruct (process_task jit c s1 e) as [[s2 ev] [|]]|]; try reflexivity;
    destruct (do_drain guard jit c _) as [[s3 ev2] r2]; reflexivity.
Qed.

Lemma step_Poll : forall guard jit c s,
  step guard jit c s Poll = let '(s2, ev, r, _) := fire_step jit c s in (s2, ev ++ (if r then [EvRaise] else [])).
Proof.
  intros. cbn [step]. unfold fire_step. destruct (get_next_task s) as [[[e|] s1] z]; [|reflexivity].
  destruct (process_task jit c s1 e) as [[s2 ev] r]. rewrite app_assoc. reflexivity.
Qed.

(* The events a trace invariant looks at are the firings and the two ghost records; a list of the others (EvCall,
   EvRaise, EvErr) is `noise`, and every invariant below is required to ignore it. *)
Definition is_sched_event (x : event) : bool :=
  match x with EvFire _ _ _ _ | EvPop _ _ | EvInst _ _ => true | _ => false end.
Definition noise (ev : list event) : Prop := forall x, In x ev -> is_sched_event x = false.

Lemma noise_app : forall a b, noise a -> noise b -> noise (a ++ b).
Proof. intros a b Ha Hb x Hx. apply in_app_or in Hx. destruct Hx; [apply Ha | apply Hb]; assumption. Qed.
Lemma noise1 : forall x, is_sched_event x = false -> noise [x].
Proof. intros x Hx y [<-|[]]. exact Hx. Qed.
Lemma noise_nil : noise [].
Proof. intros x []. Qed.

(* The principles below are about an invariant `I s acc` of the state s and of the trace acc produced so far.
   LoopSkeleton: if the shared step, the deferred loop and noise keep I, so do run_once_loop and run_loop.  It is
   instantiated twice: by step_I in Section Loops (any program) and in SchedPassive.PLoops (I together with passive_dq,
   for programs whose callbacks do not schedule). *)
Section LoopSkeleton.
  Context (I : st -> list event -> Prop) (guard : bool) (jit : Z) (c : cfg).
  Context (I_fire : forall s acc s2 ev r z, I s acc -> fire_step jit c s = (s2, ev, r, z) -> I s2 (acc ++ ev)).
  Context (I_drain : forall s acc s2 ev r, I s acc -> do_drain guard jit c s = (s2, ev, r) -> I s2 (acc ++ ev)).
  Context (I_noise : forall s acc ev, I s acc -> noise ev -> I s (acc ++ ev)).

  Lemma loop_iter_pres : forall s acc s' ev x z, I s acc -> loop_iter guard jit c s = (s', ev, x, z) -> I s' (acc ++ ev).
  Proof.
    intros s acc s' ev x z Hi H. unfold loop_iter in H. destruct (fire_step jit c s) as [[[s2 ev1] r1] z0] eqn:F.
    pose proof (I_fire _ _ _ _ _ _ Hi F) as H2. destruct r1.
    - inversion H; subst. rewrite app_assoc. apply I_noise; [exact H2 | apply noise1; reflexivity].
    - destruct (do_drain guard jit c s2) as [[s3 ev2] r2] eqn:D. inversion H; subst.
      rewrite app_assoc. eapply I_drain; eassumption.
  Qed.

  Lemma run_once_loop_pres : forall fuel s acc s' ev, I s acc ->
    run_once_loop guard jit c fuel s = (s', ev) -> I s' (acc ++ ev).
  Proof.
    induction fuel as [|f IH]; intros s acc s' ev Hi H.
    - inversion H; subst. apply I_noise; [exact Hi | apply noise1; reflexivity].
    - rewrite run_once_loop_S in H. destruct (loop_iter guard jit c s) as [[[s3 ev1] x] z] eqn:L.
      pose proof (loop_iter_pres _ _ _ _ _ _ Hi L) as H3. destruct (x || negb z); [inversion H; subst; exact H3|].
      destruct (run_once_loop guard jit c f s3) as [s4 ev3] eqn:R. inversion H; subst.
      rewrite app_assoc. exact (IH _ _ _ _ H3 R).
  Qed.

  Lemma run_loop_pres : forall fuel s acc s' ev, I s acc ->
    run_loop guard jit c fuel s = (s', ev) -> I s' (acc ++ ev).
  Proof.
    induction fuel as [|f IH]; intros s acc s' ev Hi H.
    - cbn [run_loop] in H. destruct (quiescent s); inversion H; subst; [rewrite app_nil_r; exact Hi|].
      apply I_noise; [exact Hi | apply noise1; reflexivity].
    - rewrite run_loop_S in H. destruct (quiescent s); [inversion H; subst; rewrite app_nil_r; exact Hi|].
      destruct (loop_iter guard jit c s) as [[[s3 ev1] x] z] eqn:L. pose proof (loop_iter_pres _ _ _ _ _ _ Hi L) as H3.
      destruct (run_loop guard jit c f s3) as [s4 ev3] eqn:R. inversion H; subst.
      rewrite app_assoc. exact (IH _ _ _ _ H3 R).
  Qed.
End LoopSkeleton.

(* Loops: I is kept by every operation, hence by every history (run_ops_I), if it is kept by the six primitives all
   operations are made of.  I_dq covers a callback that defers and the drain loop detaching a batch; I_install an
   install_task that succeeds after the task's time was left alone or set.  The lemmas take the six in the order below
   (run_acts_I only I_suspend and I_install). *)
Section Loops.
  Context (I : st -> list event -> Prop) (guard : bool) (jit : Z) (c : cfg).
  Context (I_pop : forall s acc e s1 z, I s acc -> get_next_task s = (Some e, s1, z) ->
             I s1 (acc ++ [EvPop e (heap s1); fire_of s1 e])).
  Context (I_dq : forall s acc q, I s acc -> I (set_dq s q) acc).
  Context (I_noise : forall s acc ev, I s acc -> noise ev -> I s (acc ++ ev)).
  Context (I_suspend : forall s acc i, I s acc -> I (tm_suspend s i) acc).
  Context (I_install : forall s acc i f s' auto, I s acc ->
             (f = ttime s \/ exists t, f = upd (ttime s) i (Some t)) ->
             tm_install (set_ttime s f) i = Ok s' -> I s' (acc ++ [EvInst i auto])).
  Context (I_now : forall s acc t, I s acc -> I (set_now s t) acc).

  Lemma do_act_I : forall s acc a s' ev, I s acc -> do_act jit c s a = Ok (s', ev) -> I s' (acc ++ ev).
  Proof.
    intros s acc a s' ev Hi H. destruct (do_act_cases _ _ _ _ _ _ H) as [[i [-> ->]]|[i [f [Hf [T ->]]]]].
    - rewrite app_nil_r. apply I_suspend, Hi.
    - eapply I_install; eassumption.
  Qed.

  Lemma run_acts_I : forall l s acc s' ev x, I s acc -> run_acts jit c s l = (s', ev, x) -> I s' (acc ++ ev).
  Proof.
    induction l as [|a l IH]; intros s acc s' ev x Hi H; cbn [run_acts] in H.
    - inversion H; subst. rewrite app_nil_r. exact Hi.
    - destruct (do_act jit c s a) as [[s1 ev1]|] eqn:A.
      + destruct (run_acts jit c s1 l) as [[s2 ev2] x2] eqn:R. inversion H; subst.
        rewrite app_assoc. eapply IH; [|exact R]. eapply do_act_I; eassumption.
      + inversion H; subst. rewrite app_nil_r. exact Hi.
  Qed.

  Lemma fire_I : forall s acc e s1 z s2 ev r, I s acc -> get_next_task s = (Some e, s1, z) ->
    process_task jit c s1 e = (s2, ev, r) -> I s2 (acc ++ pop_events s e s1 ++ ev).
  Proof.
    intros s acc e s1 z s2 ev r Hi G P. pose proof (I_pop _ _ _ _ _ Hi G) as H1.
    destruct (process_task_cases _ _ _ _ _ _ _ P) as [sa [eva [failed [RA Hc]]]].
    assert (Ha : I sa ((acc ++ [EvPop e (heap s1); fire_of s1 e]) ++ eva)).
    { eapply run_acts_I; [|exact RA]. apply I_dq, H1. }
    unfold pop_events.
    destruct Hc as [[-> ->]|[iv [off [_ [_ [_ [_ [_ [T ->]]]]]]]]].
    - rewrite <- app_assoc in Ha. exact Ha.
    - replace (acc ++ [EvPop e (heap s1)] ++ fire_of s1 e :: eva ++ [EvInst (e_tid e) true])
        with (((acc ++ [EvPop e (heap s1); fire_of s1 e]) ++ eva) ++ [EvInst (e_tid e) true])
        by (rewrite <- !app_assoc; reflexivity).
      eapply I_install; [exact Ha | right; eexists; reflexivity | exact T].
  Qed.

  Lemma call_batch_s_I : forall b s acc s' ev x, I s acc ->
    call_batch_s guard jit c s b = (s', ev, x) -> I s' (acc ++ ev).
  Proof.
    induction b as [|d b IH]; intros s acc s' ev x Hi H; cbn [call_batch_s] in H.
    - inversion H; subst. rewrite app_nil_r. exact Hi.
    - destruct (run_acts jit c (set_dq s (dq s ++ d_spawns d)) (d_acts d)) as [[s2 ev2] failed] eqn:RA.
      assert (H2 : I s2 (acc ++ EvCall (d_id d) :: ev2 ++ (if failed || d_raises d then [EvRaise] else []))).
      { replace (acc ++ EvCall (d_id d) :: ev2 ++ (if failed || d_raises d then [EvRaise] else []))
          with (((acc ++ [EvCall (d_id d)]) ++ ev2) ++ (if failed || d_raises d then [EvRaise] else []))
          by (rewrite <- !app_assoc; reflexivity).
        apply I_noise.
        - eapply run_acts_I; [|exact RA]. apply I_dq. apply I_noise; [exact Hi | apply noise1; reflexivity].
        - destruct (failed || d_raises d); [apply noise1; reflexivity | apply noise_nil]. }
      destruct ((failed || d_raises d) && negb guard); [inversion H; subst; exact H2|].
      destruct (call_batch_s guard jit c s2 b) as [[s3 ev3] x3] eqn:R. inversion H; subst.
      change (I s' (acc ++ (EvCall (d_id d) :: ev2 ++ (if failed || d_raises d then [EvRaise] else [])) ++ ev3)).
      rewrite app_assoc. eapply IH; [exact H2 | exact R].
  Qed.

  Lemma sdrain_I : forall fuel s acc s' ev x, I s acc -> sdrain guard jit c fuel s = (s', ev, x) -> I s' (acc ++ ev).
  Proof.
    induction fuel as [|f IH]; intros s acc s' ev x Hi H; cbn [sdrain] in H.
    - destruct (dq s); inversion H; subst; [rewrite app_nil_r; exact Hi|].
      apply I_noise; [exact Hi | apply noise1; reflexivity].
    - destruct (dq s) as [|d0 q0] eqn:Q; [inversion H; subst; rewrite app_nil_r; exact Hi|].
      destruct (call_batch_s guard jit c (set_dq s []) (d0 :: q0)) as [[s1 ev1] x1] eqn:B.
      pose proof (call_batch_s_I _ _ _ _ _ _ (I_dq _ _ [] Hi) B) as H1.
      destruct x1; [inversion H; subst; exact H1|].
      destruct (sdrain guard jit c f s1) as [[s2 ev2] x2] eqn:R. inversion H; subst.
      rewrite app_assoc. eapply IH; [exact H1 | exact R].
  Qed.

  Lemma do_drain_I : forall s acc s' ev x, I s acc -> do_drain guard jit c s = (s', ev, x) -> I s' (acc ++ ev).
  Proof. intros s acc s' ev x Hi H. unfold do_drain in H. eapply sdrain_I; eassumption. Qed.

  Lemma pop_I : forall s acc t s1 z s2 ev r, I s acc -> get_next_task s = (t, s1, z) ->
    match t with
    | Some e => let '(s2, ev, r) := process_task jit c s1 e in (s2, pop_events s e s1 ++ ev, r)
    | None => (s1, [], false)
    end = (s2, ev, r) -> I s2 (acc ++ ev).
  Proof.
    intros s acc [e|] s1 z s2 ev r Hi G P.
    - destruct (process_task jit c s1 e) as [[s2' ev'] r'] eqn:PT. inversion P; subst.
      eapply fire_I; eassumption.
    - apply get_next_none in G. destruct G as [-> _]. inversion P; subst. rewrite app_nil_r. exact Hi.
  Qed.

  Lemma fire_step_I : forall s acc s2 ev r z, I s acc -> fire_step jit c s = (s2, ev, r, z) -> I s2 (acc ++ ev).
  Proof.
    intros s acc s2 ev r z Hi H. unfold fire_step in H. destruct (get_next_task s) as [[t s1] z0] eqn:G.
    destruct (match t with Some e => _ | None => _ end) as [[s2' ev'] r'] eqn:P. inversion H; subst.
    eapply pop_I; eassumption.
  Qed.

  Lemma step_I : forall s acc o s' ev, I s acc -> step guard jit c s o = (s', ev) -> I s' (acc ++ ev).
  Proof.
    assert (Hl : forall s acc a s' ev, I s acc -> lift s (do_act jit c s a) = (s', ev) -> I s' (acc ++ ev)).
    { intros s acc a s' ev Hi H. unfold lift in H. destruct (do_act jit c s a) as [[s2 ev2]|e] eqn:A.
      - inversion H; subst. eapply do_act_I; eassumption.
      - inversion H; subst. apply I_noise; [exact Hi | apply noise1; reflexivity]. }
    intros s acc o s' ev Hi H. destruct o; try (eapply Hl; [exact Hi | exact H]).
    - cbn [step] in H. inversion H; subst. rewrite app_nil_r. apply I_now, Hi.
    - cbn [step] in H. destruct (heap s); inversion H; subst; rewrite app_nil_r; [exact Hi | apply I_now, Hi].
    - rewrite step_Poll in H. destruct (fire_step jit c s) as [[[s2 ev1] r] z] eqn:F. inversion H; subst.
      rewrite app_assoc. apply I_noise; [eapply fire_step_I; eassumption|].
      destruct r; [apply noise1; reflexivity | apply noise_nil].
    - cbn [step] in H. inversion H; subst. rewrite app_nil_r. apply I_dq, Hi.
    - exact (run_once_loop_pres I guard jit c fire_step_I do_drain_I I_noise _ _ _ _ _ Hi H).
    - exact (run_loop_pres I guard jit c fire_step_I do_drain_I I_noise _ _ _ _ _ Hi H).
  Qed.

  Lemma run_ops_I : forall ops s acc s' ev, I s acc -> run_ops guard jit c s ops = (s', ev) -> I s' (acc ++ ev).
  Proof.
    induction ops as [|o ops IH]; intros s acc s' ev Hi H; cbn [run_ops] in H.
    - inversion H; subst. rewrite app_nil_r. exact Hi.
    - destruct (step guard jit c s o) as [s1 ev1] eqn:S.
      destruct (run_ops guard jit c s1 ops) as [s2 ev2] eqn:R. inversion H; subst.
      pose proof (step_I _ _ _ _ _ Hi S) as H1. specialize (IH _ _ _ _ H1 R).
      rewrite <- app_assoc in IH. exact IH.
  Qed.
End Loops.
