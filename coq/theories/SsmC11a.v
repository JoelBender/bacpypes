(* SsmC11a.v — invoke-id allocation succeeds whenever one of the 255 ids it probes is free, wherever the live ids lie
   (runs of live ids across the wrap 255 -> 0 included), and what it returns is never live. *)
From Bac Require Import Base PyRt Ssm SsmFacts.
Open Scope Z_scope.

(* (next - initial) mod 256 ids have been probed so far; a free id k probes ahead is reached *)
Lemma alloc_id_progress : forall (k : nat) (fuel : nat) initial next peer live,
  (k < fuel)%nat -> 0 <= initial < 256 -> 0 <= next < 256 ->
  (next - initial) mod 256 + Z.of_nat k < 255 ->
  existsb (tr_matches ((next + Z.of_nat k) mod 256) peer) live = false ->
  exists id nx, alloc_id fuel initial next peer live = (Ok id, nx).
Proof.
  induction k as [|k IH]; intros fuel initial next peer live Hf Hi Hn Hj Hfree; destruct fuel as [|fuel]; try lia; cbn [alloc_id].
  - replace (initial =? (next + 1) mod 256) with false by lia.
    replace ((next + Z.of_nat 0) mod 256) with next in Hfree by lia. rewrite Hfree. eauto.
  - replace (initial =? (next + 1) mod 256) with false by lia.
    destruct (existsb (tr_matches next peer) live); [|eauto].
    apply IH; try lia.
    replace (((next + 1) mod 256 + Z.of_nat k) mod 256) with ((next + Z.of_nat (S k)) mod 256) by lia. exact Hfree.
Qed.

Lemma get_next_invoke_id_succeeds : forall next peer live k, 0 <= next < 256 -> 0 <= k < 255 ->
  existsb (tr_matches ((next + k) mod 256) peer) live = false ->
  exists id nx, get_next_invoke_id next peer live = (Ok id, nx) /\
                (forall t, In t live -> ~ (s_invoke t = id /\ s_peer t = peer)).
Proof.
  intros next peer live k Hn Hk Hfree. unfold get_next_invoke_id.
  destruct (alloc_id_progress (Z.to_nat k) 257 next next peer live) as (id & nx & H); try lia.
  - replace (Z.of_nat (Z.to_nat k)) with k by lia. exact Hfree.
  - exists id, nx. split; [exact H|]. eapply get_next_invoke_id_fresh. unfold get_next_invoke_id. exact H.
Qed.

(* the run across the wrap of the seeded defect: ids 255 and 0 live, cursor at 255 -> the id handed out is 1 *)
Lemma wrap_run_example :
  let mk i := set_invoke_f i (mkSsm 5 (-1) IDLE None 0 0 0 0 false 0 0 None 3 3000 1500 3 (Some 64) 50 false None None 2 3000) in
  get_next_invoke_id 255 5 [mk 255; mk 0] = (Ok 1, 2) /\ get_next_invoke_id 254 5 [mk 254; mk 255; mk 0] = (Ok 1, 2).
Proof. vm_compute. split; reflexivity. Qed.
