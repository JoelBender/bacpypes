(* BvllRound.v — round trip of the twelve BVLL messages (model Bvll.v). *)
From Bac Require Import Base BytesFacts Bvll BvllFacts.
Open Scope N_scope.

Lemma wf_addr_inv a : wf_addr a = true -> exists l, a = ABytes l /\ lenN l = 6 /\ bytes_ok l = true.
Proof.
  destruct a as [| |l]; cbn [wf_addr]; try discriminate.
  intros H. apply andb_true_iff in H as [H1 H2]. exists l. repeat split; [lia|assumption].
Qed.

Lemma wf_addr_bytes l : lenN l = 6 -> bytes_ok l = true -> wf_addr (ABytes l) = true.
Proof. intros H B. cbn [wf_addr]. now rewrite H, B. Qed.

Lemma dec_addr_app l rest : lenN l = 6 -> dec_addr (l ++ rest) = Ok (ABytes l, rest).
Proof. intros H. unfold dec_addr. rewrite <- H, get_data_app. reflexivity. Qed.

Lemma wf_short_inv o : wf_short o = true -> exists z, o = Some z /\ (0 <= z < 65536)%Z.
Proof. destruct o as [z|]; cbn [wf_short]; [|discriminate]. intros H. exists z. split; [reflexivity|lia]. Qed.

Lemma put_short_o_ok z : (0 <= z < 65536)%Z -> put_short_o (Some z) = Ok (be2 (Z.to_N z)).
Proof. intros H. unfold put_short_o. rewrite Z.mod_small by lia. reflexivity. Qed.

Lemma get_short_be2_nil n : n < 65536 -> get_short (be2 n) = Ok (n, []).
Proof. intros H. rewrite <- (app_nil_r (be2 n)). now apply get_short_be2. Qed.

Lemma enc_bdte_row e : wf_bdte e = true ->
  exists x, enc_bdte e = Ok x /\ lenN x = 10 /\ forall rest, dec_bdte (x ++ rest) = Ok (e, rest).
Proof.
  destruct e as [a [z|]]; unfold wf_bdte; cbn [b_addr b_mask]; intros H;
    apply andb_true_iff in H as [Ha Hz]; [|discriminate].
  apply wf_addr_inv in Ha as (l & -> & Hl & _). exists (l ++ be4 (Z.to_N z)). repeat split.
  - unfold enc_bdte, put_long_z; cbn [b_addr b_mask addr_bytes bind]. rewrite Z.mod_small by lia. reflexivity.
  - rewrite lenN_app, lenN_be4. lia.
  - intros rest. unfold dec_bdte. rewrite <- app_assoc, dec_addr_app by assumption. cbn [bind].
    rewrite get_long_be4 by lia. cbn [bind]. rewrite Z2N.id by lia. reflexivity.
Qed.

Lemma enc_fdte_row e : wf_fdte e = true ->
  exists x, enc_fdte e = Ok x /\ lenN x = 10 /\ forall rest, dec_fdte (x ++ rest) = Ok (e, rest).
Proof.
  destruct e as [a t r]; unfold wf_fdte; cbn [f_addr f_ttl f_rem]; intros H.
  apply andb_true_iff in H as [H Hr]. apply andb_true_iff in H as [Ha Ht].
  apply wf_addr_inv in Ha as (l & -> & Hl & _).
  apply wf_short_inv in Ht as (tz & -> & Ht). apply wf_short_inv in Hr as (rz & -> & Hr).
  exists (l ++ be2 (Z.to_N tz) ++ be2 (Z.to_N rz)). repeat split.
  - unfold enc_fdte; cbn [f_addr f_ttl f_rem addr_bytes bind]. rewrite !put_short_o_ok by lia. reflexivity.
  - rewrite !lenN_app, !lenN_be2. lia.
  - intros rest. unfold dec_fdte. rewrite <- !app_assoc, dec_addr_app by assumption. cbn [bind].
    rewrite get_short_be2 by lia. cbn [bind]. rewrite get_short_be2 by lia. cbn [bind]. rewrite !Z2N.id by lia. reflexivity.
Qed.

Lemma enc_bdt_wf t : forallb wf_bdte t = true ->
  exists body, enc_bdt t = Ok body /\ lenN body = 10 * lenN t /\ dec_bdt body = Ok t.
Proof.
  intros W. destruct (rows_encs dec_bdte wf_bdte enc_bdte enc_bdte_row t W) as (body & Hb & Hl & Hd).
  exists body. unfold dec_bdt. rewrite enc_bdt_encs, dec_bdt_fuel_rows, Hd by lia. repeat split; [exact Hb | exact Hl].
Qed.

Lemma enc_fdt_wf t : forallb wf_fdte t = true ->
  exists body, enc_fdt t = Ok body /\ lenN body = 10 * lenN t /\ dec_fdt body = Ok t.
Proof.
  intros W. destruct (rows_encs dec_fdte wf_fdte enc_fdte enc_fdte_row t W) as (body & Hb & Hl & Hd).
  exists body. unfold dec_fdt. rewrite enc_fdt_encs, dec_fdt_fuel_rows, Hd by lia. repeat split; [exact Hb | exact Hl].
Qed.

Lemma body_roundtrip m : wf_msg m = true ->
  exists body, enc_body m = Ok body /\ lenN body + 4 = frame_len m /\ dec_body (kind_of m) body = Ok m.
Proof.
  destruct m as [c|t| |t|a d|c| |t|a|d|d|d]; cbn [wf_msg enc_body frame_len kind_of dec_body]; intros W.
  (* Result, RegisterFD *)
  1, 6: apply wf_short_inv in W as (z & -> & Hz); rewrite put_short_o_ok by lia;
    eexists; repeat split; rewrite get_short_be2_nil by lia; cbn [bind]; rewrite Z2N.id by lia; reflexivity.
  (* WriteBDT, ReadBDTAck *)
  1, 3: destruct (enc_bdt_wf t W) as (body & Hb & Hl & Hd); exists body; repeat split; [assumption | lia |];
    rewrite Hd; reflexivity.
  (* ReadBDT, ReadFDT *)
  1, 3: exists []; repeat split.
  (* Distribute, OrigUnicast, OrigBroadcast *)
  4-6: exists d; repeat split; lia.
  (* Forwarded *)
  - apply andb_true_iff in W as [Wa _]. apply wf_addr_inv in Wa as (l & -> & Hl & _).
    cbn [addr_bytes bind]. exists (l ++ d). repeat split; [rewrite lenN_app; lia|].
    rewrite dec_addr_app by assumption. reflexivity.
  (* ReadFDTAck *)
  - destruct (enc_fdt_wf t W) as (body & Hb & Hl & Hd). exists body. repeat split; [assumption|lia|].
    rewrite Hd. reflexivity.
  (* DeleteFDT *)
  - apply wf_addr_inv in W as (l & -> & Hl & _). cbn [addr_bytes]. exists l. repeat split; [lia|].
    rewrite <- (app_nil_r l) at 1. rewrite dec_addr_app by assumption. reflexivity.
Qed.

Lemma frame_roundtrip m : wf_msg m = true -> frame_len m < 65536 ->
  exists bs, enc_frame m = Ok bs /\ dec_frame bs = Ok m /\ lenN bs = frame_len m.
Proof.
  intros W L. destruct (body_roundtrip m W) as (body & Hb & Hl & Hd).
  exists (frame_of m body). split; [exact (enc_frame_ok m body Hb Hl)|]. split.
  - rewrite dec_frame_frame_of by lia. exact Hd.
  - rewrite lenN_frame_of. exact Hl.
Qed.

Lemma stale_refused stored m : wf_msg m = true ->
  enc_len stored m <> frame_len m -> enc_frame_with stored m = Err EncodingError.
Proof.
  intros W H. destruct (body_roundtrip m W) as (body & Hb & Hl & _).
  rewrite enc_frame_with_eq, Hb. cbn [bind]. replace (_ =? _) with false by lia. reflexivity.
Qed.

Lemma mk_ip_ok a b c d port : (0 <= port < 65536)%Z -> mk_ip a b c d port = Ok (ip_addr a b c d port).
Proof. intros H. unfold mk_ip, port_ok. now replace (_ && _) with true by lia. Qed.

Lemma ip_port_refused a b c d port :
  (port < 0 \/ 65535 < port)%Z -> mk_ip a b c d port = Err ValueErr.
Proof. intros H. unfold mk_ip, port_ok. now replace (_ && _) with false by lia. Qed.

Lemma ip_port_octets a b c d port :
  a < 256 -> b < 256 -> c < 256 -> d < 256 -> (0 <= port < 65536)%Z ->
  exists l, mk_ip a b c d port = Ok (ABytes l) /\ wf_addr (ABytes l) = true /\
            firstn 4 l = [a; b; c; d] /\ Z.of_N (port_of l) = port.
Proof.
  intros Ha Hb Hc Hd Hp. rewrite mk_ip_ok by exact Hp. unfold ip_addr.
  eexists; split; [reflexivity|].
  rewrite Z.mod_small by lia. cbn [app be2 wf_addr firstn port_of skipn]. repeat split.
  - unfold lenN, bytes_ok, byte_ok, be2; cbn [length forallb]. lia_div.
  - rewrite N.mod_small, div_mod_256 by (apply N.div_lt_upper_bound; lia). lia.
Qed.

(* a refused port among the Address constructions: all_ok, which canon_build_* run before the encoder, stops there *)
Lemma all_ok_refused rs1 a b c d port rs2 :
  (port < 0 \/ 65535 < port)%Z -> (forall r, In r rs1 -> exists x, r = Ok x) ->
  all_ok (rs1 ++ mk_ip a b c d port :: rs2) = Err ValueErr.
Proof.
  intros H. induction rs1 as [|r rs1 IH]; intros Hok; cbn [app all_ok].
  - rewrite ip_port_refused by assumption. reflexivity.
  - destruct (Hok r (or_introl eq_refl)) as (x & ->). cbn [bind]. apply IH.
    intros r' Hr. apply Hok. now right.
Qed.
