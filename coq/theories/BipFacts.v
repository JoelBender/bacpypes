(* BipFacts.v — lemmas about Bip.v: the foreign device table under any history (one entry per
   address, served window counted in ticks, immediate deletion), the renewal arithmetic, and the
   per-frame forwarding decisions (no echo to a distributing device, no re-forwarding to peers,
   originator preserved). *)
From Coq Require Import ZifyBool.
From Bac Require Import Base Bip.
Open Scope N_scope.

Lemma addr_eqb_eq : forall a b : addr, addr_eqb a b = true <-> a = b.
Proof.
  intros [a1 a2] [b1 b2]. unfold addr_eqb. cbn [fst snd]. rewrite andb_true_iff, !N.eqb_eq.
  split. - intros [-> ->]. reflexivity. - intros H. inversion H. auto.
Qed.
Lemma addr_eqb_refl : forall a, addr_eqb a a = true.
Proof. intros. apply addr_eqb_eq. reflexivity. Qed.
Lemma addr_eqb_neq : forall a b : addr, addr_eqb a b = false <-> a <> b.
Proof. intros. rewrite <- addr_eqb_eq. symmetry. apply not_true_iff_false. Qed.
Lemma addr_eqb_sym : forall a b, addr_eqb a b = addr_eqb b a.
Proof. intros. unfold addr_eqb. rewrite (N.eqb_sym (fst a)), (N.eqb_sym (snd a)). reflexivity. Qed.

Definition addrs (t : list fdte) : list addr := map fd_addr t.
Definition listed (t : list fdte) (a : addr) : bool := existsb (fun e => addr_eqb a (fd_addr e)) t.

Fixpoint find (t : list fdte) (a : addr) : option fdte :=
  match t with
  | [] => None
  | e :: r => if addr_eqb a (fd_addr e) then Some e else find r a
  end.

Lemma listed_In : forall t a, listed t a = true <-> In a (addrs t).
Proof.
  induction t as [|e r IH]; intros a; cbn [listed existsb addrs map In].
  - split; [discriminate | tauto].
  - rewrite orb_true_iff. fold (listed r a). rewrite IH, addr_eqb_eq. unfold addrs. intuition.
Qed.

Lemma find_listed : forall t a, listed t a = match find t a with Some _ => true | None => false end.
Proof.
  induction t as [|e r IH]; intros a; cbn [listed existsb find]; [reflexivity|].
  destruct (addr_eqb a (fd_addr e)); [reflexivity|]. cbn [orb]. apply IH.
Qed.

Lemma find_not_In : forall t a, ~ In a (addrs t) -> find t a = None.
Proof.
  intros t a H. pose proof (find_listed t a) as L. destruct (find t a); [|reflexivity].
  exfalso. apply H. apply listed_In. exact L.
Qed.

Lemma register_addrs : forall t a ttl,
  addrs (fdt_register t a ttl) = if listed t a then addrs t else addrs t ++ [a].
Proof.
  induction t as [|e r IH]; intros a ttl; cbn [fdt_register listed existsb addrs map app]; [reflexivity|].
  destruct (addr_eqb a (fd_addr e)) eqn:E; cbn [orb map fd_addr].
  - reflexivity.
  - fold (listed r a). fold (addrs r). fold (addrs (fdt_register r a ttl)). rewrite IH.
    destruct (listed r a); reflexivity.
Qed.

Lemma nodup_snoc : forall (l : list addr) a, NoDup l -> ~ In a l -> NoDup (l ++ [a]).
Proof.
  induction l as [|x l IH]; intros a N I; cbn [app].
  - constructor; [intros []|constructor].
  - inversion N; subst. constructor.
    + rewrite in_app_iff. cbn [In]. intros [H|[H|[]]]; [contradiction|]. subst. apply I. left. reflexivity.
    + apply IH; [assumption|]. intros H. apply I. right. exact H.
Qed.

Lemma register_nodup : forall t a ttl, NoDup (addrs t) -> NoDup (addrs (fdt_register t a ttl)).
Proof.
  intros t a ttl H. rewrite register_addrs. destruct (listed t a) eqn:L; [exact H|].
  apply nodup_snoc; [exact H|].
  intros I. apply listed_In in I. congruence.
Qed.

Lemma find_register_same : forall t a ttl, find (fdt_register t a ttl) a = Some (mkFdte a ttl (ttl + 5)).
Proof.
  induction t as [|e r IH]; intros a ttl; cbn [fdt_register find].
  - cbn [find fd_addr]. rewrite addr_eqb_refl. reflexivity.
  - destruct (addr_eqb a (fd_addr e)) eqn:E; cbn [find fd_addr]; rewrite E; [|apply IH].
    apply addr_eqb_eq in E. rewrite E. reflexivity.
Qed.

Lemma find_register_other : forall t a b ttl, a <> b -> find (fdt_register t b ttl) a = find t a.
Proof.
  induction t as [|e r IH]; intros a b ttl N; cbn [fdt_register find].
  - cbn [fd_addr]. apply addr_eqb_neq in N. rewrite N. reflexivity.
  - destruct (addr_eqb b (fd_addr e)) eqn:E; cbn [find fd_addr].
    + apply addr_eqb_eq in E. subst b. apply addr_eqb_neq in N. rewrite N. reflexivity.
    + rewrite IH by exact N. reflexivity.
Qed.

Lemma delete_incl : forall t a t' x, fdt_delete t a = Some t' -> In x (addrs t') -> In x (addrs t).
Proof.
  induction t as [|e r IH]; intros a t' x H; cbn [fdt_delete] in H; [discriminate|].
  destruct (fdt_delete r a) as [r'|] eqn:D.
  - inversion H; subst. cbn [addrs map In]. intros [X|X]; [left; exact X | right; apply (IH a r' x D X)].
  - destruct (addr_eqb a (fd_addr e)); [|discriminate]. inversion H; subst. cbn [addrs map In]. auto.
Qed.

Lemma delete_nodup : forall t a t', fdt_delete t a = Some t' -> NoDup (addrs t) -> NoDup (addrs t').
Proof.
  induction t as [|e r IH]; intros a t' H N; cbn [fdt_delete] in H; [discriminate|].
  cbn [addrs map] in N. inversion N as [|? ? Hn Hd]; subst.
  destruct (fdt_delete r a) as [r'|] eqn:D.
  - inversion H; subst. cbn [addrs map]. constructor; [|apply (IH a r' D Hd)].
    intros I. apply Hn. apply (delete_incl r a r' _ D I).
  - destruct (addr_eqb a (fd_addr e)); [|discriminate]. inversion H; subst. exact Hd.
Qed.

Lemma delete_none : forall t a, fdt_delete t a = None <-> listed t a = false.
Proof.
  induction t as [|e r IH]; intros a; cbn [fdt_delete listed existsb]; [tauto|].
  fold (listed r a). destruct (fdt_delete r a) eqn:D.
  - split; [discriminate|]. intros H. apply orb_false_iff in H. destruct H as [_ H].
    apply IH in H. congruence.
  - assert (listed r a = false) as L by (apply IH; exact D). rewrite L, orb_false_r.
    destruct (addr_eqb a (fd_addr e)); split; congruence.
Qed.

Lemma delete_removes : forall t a t', NoDup (addrs t) -> fdt_delete t a = Some t' -> listed t' a = false.
Proof.
  induction t as [|e r IH]; intros a t' N H; cbn [fdt_delete] in H; [discriminate|].
  cbn [addrs map] in N. inversion N as [|? ? Hn Hd]; subst.
  destruct (fdt_delete r a) as [r'|] eqn:D.
  - inversion H; subst. cbn [listed existsb]. fold (listed r' a). rewrite (IH a r' Hd D), orb_false_r.
    apply addr_eqb_neq. intros E. subst a. apply Hn.
    assert (listed r (fd_addr e) = true) as L.
    { destruct (listed r (fd_addr e)) eqn:L; [reflexivity|]. apply delete_none in L. congruence. }
    apply listed_In. exact L.
  - destruct (addr_eqb a (fd_addr e)) eqn:E; [|discriminate]. inversion H; subst.
    apply delete_none. exact D.
Qed.

Lemma find_delete_other : forall t a b t', a <> b -> fdt_delete t b = Some t' -> find t' a = find t a.
Proof.
  induction t as [|e r IH]; intros a b t' N H; cbn [fdt_delete] in H; [discriminate|].
  destruct (fdt_delete r b) as [r'|] eqn:D.
  - inversion H; subst. cbn [find]. rewrite (IH a b r' N D). reflexivity.
  - destruct (addr_eqb b (fd_addr e)) eqn:E; [|discriminate]. inversion H; subst.
    cbn [find]. apply addr_eqb_eq in E. subst b. apply addr_eqb_neq in N. rewrite N. reflexivity.
Qed.

Definition dec (e : fdte) : fdte := mkFdte (fd_addr e) (fd_ttl e) (N.pred (fd_remain e)).
Lemma tick_unfold : forall e r, fdt_tick (e :: r) =
  if 0 <? N.pred (fd_remain e) then dec e :: fdt_tick r else fdt_tick r.
Proof. intros. unfold fdt_tick. cbn [map filter fd_remain]. reflexivity. Qed.

Theorem tick_ages_every_entry : forall t,
  fdt_tick t = map dec (filter (fun e => 1 <? fd_remain e) t).
Proof.
  induction t as [|e r IH]; [reflexivity|]. rewrite tick_unfold, IH. cbn [filter].
  assert ((0 <? N.pred (fd_remain e)) = (1 <? fd_remain e)) as -> by lia.
  destruct (1 <? fd_remain e); reflexivity.
Qed.

Lemma tick_sub : forall t x, In x (addrs (fdt_tick t)) -> In x (addrs t).
Proof.
  intros t x. rewrite tick_ages_every_entry. unfold addrs. rewrite map_map, !in_map_iff.
  intros [e [E I]]. apply filter_In in I. exists e. split; [exact E | apply I].
Qed.

Lemma tick_nodup : forall t, NoDup (addrs t) -> NoDup (addrs (fdt_tick t)).
Proof.
  induction t as [|e r IH]; intros N; [constructor|]. rewrite tick_unfold.
  cbn [addrs map] in N. inversion N as [|? ? Hn Hd]; subst.
  destruct (0 <? N.pred (fd_remain e)); [|apply IH; assumption].
  cbn [addrs map dec fd_addr]. constructor; [|apply IH; assumption].
  intros I. apply Hn. apply tick_sub. exact I.
Qed.

Definition age (k : N) (o : option fdte) : option fdte :=
  match o with
  | Some x => if k <? fd_remain x then Some (mkFdte (fd_addr x) (fd_ttl x) (fd_remain x - k)) else None
  | None => None
  end.
(* register and tick leave no entry with 0 s in the table; a table given from outside may hold one *)
Definition live (o : option fdte) : Prop := forall x, o = Some x -> 0 < fd_remain x.

Lemma age_0 : forall o, live o -> age 0 o = o.
Proof.
  intros [[a t r]|] L; [|reflexivity]. specialize (L _ eq_refl). cbn [age fd_remain fd_addr fd_ttl] in *.
  assert ((0 <? r) = true) as -> by lia. rewrite N.sub_0_r. reflexivity.
Qed.
Lemma age_live : forall k o, live (age k o).
Proof.
  intros k [x|] y H; [|discriminate]. cbn [age] in H. destruct (k <? fd_remain x) eqn:E; [|discriminate].
  inversion H. cbn [fd_remain]. lia.
Qed.
Lemma age_add : forall j k o, age j (age k o) = age (k + j) o.
Proof.
  intros j k [x|]; [|reflexivity]. cbn [age]. destruct (k <? fd_remain x) eqn:E.
  - cbn [age fd_remain fd_addr fd_ttl]. assert ((j <? fd_remain x - k) = (k + j <? fd_remain x)) as -> by lia.
    destruct (k + j <? fd_remain x); [|reflexivity]. f_equal. f_equal. lia.
  - assert ((k + j <? fd_remain x) = false) as -> by lia. reflexivity.
Qed.

Lemma find_tick : forall t a, NoDup (addrs t) -> find (fdt_tick t) a = age 1 (find t a).
Proof.
  induction t as [|e r IH]; intros a N; [reflexivity|]. rewrite tick_unfold.
  cbn [addrs map] in N. inversion N as [|? ? Hn Hd]; subst. cbn [find].
  destruct (addr_eqb a (fd_addr e)) eqn:E.
  - assert ((0 <? N.pred (fd_remain e)) = (1 <? fd_remain e)) as -> by lia. cbn [age]. rewrite N.sub_1_r.
    destruct (1 <? fd_remain e).
    + cbn [find dec fd_addr]. rewrite E. reflexivity.
    + apply addr_eqb_eq in E. subst a. apply find_not_In. intros I. apply Hn. apply tick_sub. exact I.
  - destruct (0 <? N.pred (fd_remain e)); [cbn [find dec fd_addr]; rewrite E|]; apply IH; assumption.
Qed.

Definition quiet (a : addr) (e : bev) : Prop :=
  match e with
  | BConf s _ (RegisterFD _) => s <> a
  | BConf _ _ (DeleteFDT x) => x <> a
  | _ => True
  end.
Definition is_tick (e : bev) : bool := match e with BTick => true | _ => false end.
Definition ticks (es : list bev) : N := lenN (filter is_tick es).

Lemma run_cons : forall b e r, bbmd_run b (e :: r) = bbmd_run (fst (bbmd_step b e)) r.
Proof. reflexivity. Qed.
Lemma run_app : forall es1 es2 b, bbmd_run b (es1 ++ es2) = bbmd_run (bbmd_run b es1) es2.
Proof. intros. unfold bbmd_run. apply fold_left_app. Qed.

Definition table_after (t : list fdte) (e : bev) : list fdte :=
  match e with
  | BConf s _ (RegisterFD ttl) => fdt_register t s ttl
  | BConf _ _ (DeleteFDT a) => match fdt_delete t a with Some t' => t' | None => t end
  | BTick => fdt_tick t
  | _ => t
  end.

Lemma step_eq : forall b e,
  fst (bbmd_step b e) = mkBbmd (b_addr b) (b_bdt b) (table_after (b_fdt b) e) (b_upper b).
Proof.
  intros [a bd fd up] [s d m|d p|]; [destruct m|..]; try reflexivity.
  cbn [bbmd_step bbmd_confirmation table_after b_fdt]. destruct (fdt_delete fd a0); reflexivity.
Qed.
Lemma step_fdt : forall b e, b_fdt (fst (bbmd_step b e)) = table_after (b_fdt b) e.
Proof. intros. rewrite step_eq. reflexivity. Qed.
Lemma step_addr : forall b e, b_addr (fst (bbmd_step b e)) = b_addr b.
Proof. intros. rewrite step_eq. reflexivity. Qed.
Lemma run_addr : forall es b, b_addr (bbmd_run b es) = b_addr b.
Proof.
  induction es as [|e r IH]; intros b; [reflexivity|]. rewrite run_cons, IH. apply step_addr.
Qed.

Lemma step_nodup : forall b e, NoDup (addrs (b_fdt b)) -> NoDup (addrs (b_fdt (fst (bbmd_step b e)))).
Proof.
  intros b e N. rewrite step_fdt. destruct e as [s d []|d p|]; cbn [table_after]; try exact N.
  - apply register_nodup. exact N.
  - destruct (fdt_delete (b_fdt b) a) eqn:D; [apply (delete_nodup _ _ _ D) | ]; exact N.
  - apply tick_nodup. exact N.
Qed.

Lemma run_nodup : forall es b, NoDup (addrs (b_fdt b)) -> NoDup (addrs (b_fdt (bbmd_run b es))).
Proof.
  induction es as [|e r IH]; intros b N; [exact N|]. rewrite run_cons.
  apply IH. apply step_nodup. exact N.
Qed.

Lemma step_quiet : forall b e a, NoDup (addrs (b_fdt b)) -> quiet a e ->
  find (b_fdt (fst (bbmd_step b e))) a = if is_tick e then age 1 (find (b_fdt b) a) else find (b_fdt b) a.
Proof.
  intros b e a N Q. rewrite step_fdt. destruct e as [s d []|d p|]; cbn [quiet is_tick table_after] in *; try reflexivity.
  - apply find_register_other. congruence.
  - destruct (fdt_delete (b_fdt b) a0) eqn:D; [|reflexivity]. apply (find_delete_other _ _ a0); [congruence | exact D].
  - apply find_tick. exact N.
Qed.

Lemma ticks_cons : forall e r, ticks (e :: r) = (if is_tick e then 1 else 0) + ticks r.
Proof. intros. unfold ticks, lenN. cbn [filter]. destruct (is_tick e); cbn [length]; lia. Qed.

Lemma run_quiet : forall es b a, NoDup (addrs (b_fdt b)) -> Forall (quiet a) es -> live (find (b_fdt b) a) ->
  find (b_fdt (bbmd_run b es)) a = age (ticks es) (find (b_fdt b) a).
Proof.
  induction es as [|e r IH]; intros b a N Q L; [symmetry; apply age_0; exact L|]. rewrite run_cons, ticks_cons.
  inversion Q as [|? ? Q1 Q2]; subst. pose proof (step_quiet b e a N Q1) as S.
  rewrite (IH _ a (step_nodup b e N) Q2); rewrite S; destruct (is_tick e);
    [apply age_add | reflexivity | apply age_live | exact L].
Qed.

Lemma registered_entry : forall b src d T es, NoDup (addrs (b_fdt b)) -> Forall (quiet src) es ->
  find (b_fdt (bbmd_run (fst (bbmd_step b (BConf src d (RegisterFD T)))) es)) src =
  if ticks es <? T + 5 then Some (mkFdte src T (T + 5 - ticks es)) else None.
Proof.
  intros b src d T es N Q. rewrite (run_quiet es _ src (step_nodup b _ N) Q); rewrite step_fdt; cbn [table_after];
    rewrite find_register_same; [reflexivity|]. intros x H. inversion H. cbn [fd_remain]. lia.
Qed.

Theorem fdt_served_window : forall b src d T es,
  NoDup (map fd_addr (b_fdt b)) -> Forall (quiet src) es ->
  let b1 := fst (bbmd_step b (BConf src d (RegisterFD T))) in
  (ticks es < T + 5 -> listed (b_fdt (bbmd_run b1 es)) src = true) /\
  (T + 5 <= ticks es -> listed (b_fdt (bbmd_run b1 es)) src = false) /\
  (ticks es < T + 5 -> exists a', a' = src /\
     find (b_fdt (bbmd_run b1 es)) src = Some (mkFdte a' T (T + 5 - ticks es))).
Proof.
  intros b src d T es N Q b1. unfold b1. rewrite find_listed, (registered_entry b src d T es N Q).
  repeat split; intros H.
  - assert ((ticks es <? T + 5) = true) as -> by lia. reflexivity.
  - assert ((ticks es <? T + 5) = false) as -> by lia. reflexivity.
  - exists src. split; [reflexivity|]. assert ((ticks es <? T + 5) = true) as -> by lia. reflexivity.
Qed.

Lemma to_fdt_targets : forall t m a, In (Down (DStation a) m) (to_fdt t m) <-> listed t a = true.
Proof.
  intros t m a. rewrite listed_In. unfold to_fdt, addrs. rewrite !in_map_iff. split.
  - intros [e [E I]]. inversion E; subst. exists e. auto.
  - intros [e [E I]]. exists e. subst. auto.
Qed.

Theorem served_iff_listed : forall b o p a,
  (listed (b_fdt b) a = true ->
     In (Down (DStation a) (Forwarded o p)) (snd (bbmd_confirmation b o DBcast (OrigBroadcast p)))) /\
  (listed (b_fdt b) a = false ->
     ~ In (Down (DStation a) (Forwarded o p)) (to_fdt (b_fdt b) (Forwarded o p))).
Proof.
  intros b o p a. split; intros H.
  - cbn [bbmd_confirmation snd]. apply in_or_app. right. apply in_or_app. right.
    apply to_fdt_targets. exact H.
  - intros I. apply to_fdt_targets in I. congruence.
Qed.

Theorem delete_immediate : forall b s d a,
  NoDup (map fd_addr (b_fdt b)) ->
  let r := bbmd_confirmation b s d (DeleteFDT a) in
  listed (b_fdt (fst r)) a = false /\
  snd r = [Down (DStation s) (Result (if listed (b_fdt b) a then 0 else 80))].
Proof.
  intros b s d a N. cbn [bbmd_confirmation]. destruct (fdt_delete (b_fdt b) a) as [t'|] eqn:D; cbn [fst snd b_fdt].
  - split; [apply (delete_removes _ _ _ N D)|].
    destruct (listed (b_fdt b) a) eqn:L; [reflexivity|]. apply delete_none in L. congruence.
  - apply delete_none in D. rewrite D. auto.
Qed.

Definition origin_of (a : action) : option (addr * npdu) :=
  match a with
  | Up s _ p => Some (s, p)
  | Down _ (Forwarded s p) => Some (s, p)
  | _ => None
  end.

Lemma origin_up_if : forall b s d p, Forall (fun a => origin_of a = Some (s, p)) (up_if b s d p).
Proof. intros. unfold up_if. destruct (b_upper b); repeat constructor. Qed.
Lemma origin_map {A} : forall (f : A -> action) l o p, (forall x, origin_of (f x) = Some (o, p)) ->
  Forall (fun a => origin_of a = Some (o, p)) (map f l).
Proof. intros f l o p H. apply Forall_forall. intros a I. apply in_map_iff in I. destruct I as [x [<- _]]. apply H. Qed.

(* every action is built by up_if or by a map over a table that copies (o, p) into a Forwarded-NPDU *)
Theorem bbmd_source_preserved : forall b s d m o p,
  (m = OrigBroadcast p /\ o = s) \/ (m = Distribute p /\ o = s) \/ (m = Forwarded o p) ->
  Forall (fun a => origin_of a = Some (o, p)) (snd (bbmd_confirmation b s d m)).
Proof.
  intros b s d m o p H. destruct H as [[-> ->] | [[-> ->] | ->]]; cbn [bbmd_confirmation snd]; unfold to_peers, to_fdt.
  - apply Forall_app; split; [apply origin_up_if|]. apply Forall_app; split; apply origin_map; reflexivity.
  - apply Forall_app; split; [apply origin_up_if|]. apply Forall_app; split; [|apply origin_map; reflexivity].
    apply origin_map. intros e. destruct (addr_eqb (bd_addr e) (b_addr b)); reflexivity.
  - apply Forall_app; split; [apply origin_up_if|]. apply Forall_app; split; [|apply origin_map; reflexivity].
    destruct d; [constructor|]. destruct (in_bdt (b_addr b) (b_bdt b)); repeat constructor.
Qed.

(* never to a peer BBMD: copies go to the local wire (only when it came by unicast) and to registered devices *)
Theorem bbmd_no_reforward : forall b s d a p x m,
  In (Down x m) (snd (bbmd_confirmation b s d (Forwarded a p))) ->
  (x = DBcast /\ exists u, d = DStation u) \/ (exists y, x = DStation y /\ listed (b_fdt b) y = true).
Proof.
  intros b s d a p x m I. cbn [bbmd_confirmation snd] in I.
  apply in_app_or in I. destruct I as [I|I].
  - unfold up_if in I. destruct (b_upper b); cbn [In] in I; [destruct I as [I|[]]; discriminate | contradiction].
  - apply in_app_or in I. destruct I as [I|I].
    + destruct d as [|u]; [contradiction|]. destruct (in_bdt (b_addr b) (b_bdt b)); [|contradiction].
      destruct I as [I|[]]. inversion I; subst. left. split; [reflexivity | exists u; reflexivity].
    + right. unfold to_fdt in I. apply in_map_iff in I. destruct I as [e [E I]]. inversion E; subst.
      exists (fd_addr e). split; [reflexivity|]. apply listed_In. apply in_map. exact I.
Qed.

Theorem foreign_accepts_from_bbmd : forall now f s d o p b,
  f_bbmd f = Some b ->
  foreign_confirmation now f s d (Forwarded o p) =
  Ok (f, if (f_status f =? 0)%Z && addr_eqb s b then [Up o DBcast p] else []).
Proof.
  intros now f s d o p b H. unfold foreign_confirmation. rewrite H.
  destruct (f_status f =? 0)%Z; cbn [negb andb]; [|reflexivity].
  destruct (addr_eqb s b); reflexivity.
Qed.
