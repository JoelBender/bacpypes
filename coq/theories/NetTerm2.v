(* NetTerm2.v — forwarding of application traffic terminates on EVERY topology provided every router has some
   path (directly connected network or cached next hop, right or wrong) for each remote destination network in
   flight, so that no path discovery is started: K^(hop+1) per routed frame in flight, 1 per last-leg or local
   frame, is a decreasing measure.  Lemmas about Net.v (property C06). *)
From Bac Require Import Base Net NetFacts.
Open Scope N_scope.

Definition target (p : npdu) : option N :=
  match n_dadr p with Some (DBcast d) | Some (DStation d _) => Some d | _ => None end.

Lemma target_dadr : forall p dd, n_dadr p = Some dd -> target p = dadr_net dd.
Proof. intros p dd H. unfold target. rewrite H. destruct dd; reflexivity. Qed.

Definition routable (n : node) (d : N) : Prop :=
  is_router n = false \/ find_net n (Some d) <> None \/ find_path n d <> None.

Definition cache_mono (c c' : cache) : Prop := forall s d, cache_get c s d <> None -> cache_get c' s d <> None.

Lemma cache_mono_refl : forall c, cache_mono c c.
Proof. intros c s d H. assumption. Qed.

Lemma cache_mono_trans : forall a b c, cache_mono a b -> cache_mono b c -> cache_mono a c.
Proof. intros a b c H1 H2 s d H. apply H2, H1, H. Qed.

Lemma cache_update_mono : forall dnets c s m, cache_mono c (cache_update c s m dnets).
Proof.
  intros dnets c s m x d H. rewrite cache_get_update.
  destruct (optN_eqb s x && existsb (N.eqb d) dnets); [discriminate|assumption].
Qed.

Lemma find_path_from_mono : forall l k c c' d, cache_mono c c' ->
  find_path_from l k c d <> None -> find_path_from l k c' d <> None.
Proof.
  induction l as [|a r IH]; intros k c c' d Hm H; cbn [find_path_from] in *; [assumption|].
  destruct (cache_get c (a_net a) d) eqn:E.
  - assert (cache_get c' (a_net a) d <> None) by (apply Hm; congruence).
    destruct (cache_get c' (a_net a) d); [discriminate|congruence].
  - destruct (cache_get c' (a_net a) d); [discriminate|]. eapply IH; eauto.
Qed.

Lemma routable_mono : forall n n' d, adapters n' = adapters n -> cache_mono (rcache n) (rcache n') ->
  routable n d -> routable n' d.
Proof.
  intros n n' d Ha Hc [H|[H|H]].
  - left. rewrite (is_router_same _ _ Ha). assumption.
  - right; left. rewrite (find_net_same _ _ Ha). assumption.
  - right; right. unfold find_path in *. rewrite Ha. eapply find_path_from_mono; eauto.
Qed.

Lemma process_npdu_cache_mono : forall n i src dst p n' acts,
  process_npdu n i src dst p = (n', acts) -> cache_mono (rcache n) (rcache n').
Proof.
  intros n i src dst p n' acts H.
  assert (L : forall ai, cache_mono (rcache n) (rcache (learn_sadr n ai src p))).
  { intro ai. unfold learn_sadr. destruct (n_sadr p) as [[sn sm]|]; [apply cache_update_mono|apply cache_mono_refl]. }
  destruct (process_npdu_shape _ _ _ _ _ _ _ H)
    as [[En _]|(ai & la & _ & _ & _ & _ & head & fw & _ & [[En _]|[(w & _ & _ & Ew)|(nets & _ & _ & Ew)]])].
  - subst n'. apply cache_mono_refl.
  - subst n'. apply L.
  - apply nse_who_is_spec in Ew. destruct Ew as [En _]. subst n'. apply L.
  - apply nse_i_am_spec in Ew. destruct Ew as (_ & _ & Ec & _). rewrite Ec.
    eapply cache_mono_trans; [apply L|apply cache_update_mono].
Qed.

Definition app_action (p : npdu) (a : action) : Prop :=
  match a with
  | Tx _ _ _ => False
  | Fwd _ _ q => n_dadr p <> None /\ n_msg q = None /\
                 (n_dadr q = None \/ (n_dadr q = n_dadr p /\ n_hop q + 1 = n_hop p))
  | _ => True
  end.

Lemma forward_app_frame : forall n i ai src p dd,
  n_msg p = None -> n_dadr p = Some dd -> (forall d, target p = Some d -> routable n d) ->
  Forall (app_action p) (forward n i ai src p dd).
Proof.
  intros n i ai src p dd Hm Hd Hr. apply Forall_forall. intros a Ha.
  assert (Hne : n_dadr p <> None) by congruence.
  destruct (forward_in _ _ _ _ _ _ _ Ha)
    as [E|(inet & Hh & _ & [(j & _ & E)|(dnet & Hdn & [(j & _ & E)|[(j & m & _ & _ & E)|(j & _ & Hro & Hf & Hp & E)]])])];
    subst a; cbn.
  - exact I.
  - repeat split; auto. right. split; [reflexivity|lia].
  - repeat split; auto.
  - repeat split; auto. right. split; [reflexivity|lia].
  - (* path discovery is not started: dnet is routable *)
    rewrite <- (target_dadr p dd Hd) in Hdn. destruct (Hr dnet Hdn) as [H|[H|H]]; congruence.
Qed.

Lemma process_npdu_app_frame : forall n i src dst p n' acts,
  process_npdu n i src dst p = (n', acts) -> n_msg p = None ->
  (forall d, target p = Some d -> routable n d) -> Forall (app_action p) acts.
Proof.
  intros n i src dst p n' acts H Hm Hr.
  destruct (process_npdu_shape _ _ _ _ _ _ _ H)
    as [[_ Ha]|(ai & la & _ & _ & _ & _ & head & fw & Ea & [[En Hp]|[(w & Hw & _)|(nets & Hw & _)]])];
    [destruct Ha as [Ha|[Ha|Ha]]; subst acts; repeat constructor| |congruence..].
  subst acts. apply Forall_app. split.
  - destruct Hp as [Hp|[[e Hp]|[Hp|(_ & _ & _ & Hp)]]]; subst head; repeat constructor.
  - destruct (fwd_tail_cases n' i ai src p fw) as [E|(dd & Hd & E)]; rewrite E; [constructor|].
    apply forward_app_frame; auto. intros d Hd'.
    apply (routable_mono n); [eapply process_npdu_adapters|eapply process_npdu_cache_mono|]; eauto.
Qed.

Definition app_frame (f : frame) : Prop := n_msg (f_npdu f) = None.

(* g is a copy made by some router of the application frame f *)
Definition child_of (f g : frame) : Prop :=
  n_dadr (f_npdu f) <> None /\ app_frame g /\
  (n_dadr (f_npdu g) = None \/
   (n_dadr (f_npdu g) = n_dadr (f_npdu f) /\ n_hop (f_npdu g) + 1 = n_hop (f_npdu f))).

Lemma emit_children : forall w who f acts,
  Forall (app_action (f_npdu f)) acts ->
  Forall (child_of f) (fst (emit w who acts)) /\
  (length (fst (emit w who acts)) <= length (filter is_fwd acts))%nat.
Proof.
  intros w who f. induction acts as [|a r IH]; intro Hall; [split; [constructor|cbn; lia]|].
  inversion Hall as [|? ? Ha Hr]; subst. destruct (IH Hr) as [IH1 IH2].
  rewrite emit_cons. cbn [fst filter].
  destruct a; cbn [app_action act_frames is_fwd app] in *; try contradiction; auto.
  destruct (nth_error (w_ports w) port) as [[lan m]|]; cbn [app length]; [|split; [assumption|lia]].
  split; [constructor; [exact Ha|assumption]|lia].
Qed.

Definition nodes_ok (A : nat) (ns : list wnode) : Prop :=
  Forall (fun wn => (length (adapters (w_node wn)) <= A)%nat) ns.

Definition all_routable (ns : list wnode) (d : N) : Prop := forall wn, In wn ns -> routable (w_node wn) d.

Lemma member_out_nodes_ok : forall A ns f x w' fs os,
  member_out ns f x = (Some w', fs, os) -> nodes_ok A ns -> nodes_ok A (set_nth ns (fst x) w').
Proof.
  intros A ns f x w' fs os H Hok.
  destruct (member_out_some _ _ _ _ _ _ H) as (w & lan & wmac & n' & acts & En & _ & _ & Ep & Ew & _). subst w'.
  apply set_nth_Forall; [assumption|]. cbn. rewrite (process_npdu_adapters _ _ _ _ _ _ _ Ep).
  unfold nodes_ok in Hok. rewrite Forall_forall in Hok. apply (Hok w). eapply nth_error_In; eauto.
Qed.

Lemma member_out_routable : forall ns f x w' fs os d,
  member_out ns f x = (Some w', fs, os) -> all_routable ns d -> all_routable (set_nth ns (fst x) w') d.
Proof.
  intros ns f x w' fs os d H Hd wn Hwn.
  destruct (member_out_some _ _ _ _ _ _ H) as (w & lan & wmac & n' & acts & En & _ & _ & Ep & Ew & _). subst w'.
  apply set_nth_In in Hwn. destruct Hwn as [Hwn|Hwn]; [|apply Hd; assumption]. subst wn. cbn.
  apply (routable_mono (w_node w)); [eapply process_npdu_adapters|eapply process_npdu_cache_mono|]; eauto.
  apply Hd. eapply nth_error_In; eauto.
Qed.

Lemma member_out_app_frame : forall A ns f x w' fs os,
  member_out ns f x = (Some w', fs, os) -> app_frame f -> nodes_ok A ns ->
  (forall d, target (f_npdu f) = Some d -> all_routable ns d) ->
  Forall (child_of f) fs /\ (length fs <= S A)%nat.
Proof.
  intros A ns f x w' fs os H Hg Hok Hr.
  destruct (member_out_some _ _ _ _ _ _ H) as (w & lan & wmac & n' & acts & En & _ & _ & Ep & _ & Ee).
  assert (Hin : In w ns) by (eapply nth_error_In; eauto).
  assert (Hacts : Forall (app_action (f_npdu f)) acts).
  { eapply process_npdu_app_frame; eauto. intros d Hd. apply (Hr d Hd w Hin). }
  destruct (emit_children w' (fst x) f acts Hacts) as [Hfs Hlen]. rewrite Ee in Hfs, Hlen. cbn [fst] in Hfs, Hlen.
  split; [assumption|]. pose proof (thm_fanout _ _ _ _ _ _ _ Ep) as Hfan.
  unfold nodes_ok in Hok. rewrite Forall_forall in Hok. specialize (Hok w Hin). lia.
Qed.

Lemma deliver_app_frame : forall A members ns f q tr ns' q' tr',
  deliver ns f members q tr = (ns', q', tr') -> app_frame f -> nodes_ok A ns ->
  (forall d, target (f_npdu f) = Some d -> all_routable ns d) ->
  exists new, q' = q ++ new /\ Forall (child_of f) new /\
    (length new <= length members * S A)%nat /\ nodes_ok A ns' /\
    (forall d, all_routable ns d -> all_routable ns' d).
Proof.
  intros A. induction members as [|x r IH]; intros ns f q tr ns' q' tr' H Hg Hok Hr.
  - inversion H; subst. exists []. rewrite app_nil_r. repeat split; [constructor|cbn; lia|assumption|auto].
  - rewrite deliver_cons in H. destruct (member_out ns f x) as [[[w'|] fs] os] eqn:Em.
    + pose proof (member_out_nodes_ok A _ _ _ _ _ _ Em Hok) as Hok'.
      assert (Hpres : forall d, all_routable ns d -> all_routable (set_nth ns (fst x) w') d)
        by (intros d Hd; eapply member_out_routable; eauto).
      destruct (member_out_app_frame A _ _ _ _ _ _ Em Hg Hok Hr) as [Hfs Hlen].
      destruct (IH _ _ _ _ _ _ _ H Hg Hok' (fun d Hd => Hpres d (Hr d Hd))) as (new & A1 & A2 & A3 & A4 & A5).
      exists (fs ++ new). repeat split; auto.
      * rewrite A1, app_assoc. reflexivity.
      * apply Forall_app. split; assumption.
      * rewrite app_length. cbn [length Nat.mul]. lia.
    + destruct (IH _ _ _ _ _ _ _ H Hg Hok Hr) as (new & A1 & A2 & A3 & A4 & A5).
      exists new. repeat split; auto. cbn; lia.
Qed.

(* the measure: K^(hop+1) for a frame that can still be forwarded, 1 for a last-leg / local frame *)
Definition frame_weight (K : N) (f : frame) : N :=
  match n_dadr (f_npdu f) with None => 1 | Some _ => K ^ (n_hop (f_npdu f) + 1) end.
Fixpoint mu2 (K : N) (q : list frame) : N := match q with [] => 0 | f :: r => frame_weight K f + mu2 K r end.

Lemma mu2_app : forall K a b, mu2 K (a ++ b) = mu2 K a + mu2 K b.
Proof. intros K. induction a as [|x a IH]; intro b; cbn [app mu2]; [reflexivity|]. rewrite IH. lia. Qed.

Lemma frame_weight_pos : forall K f, K <> 0 -> 1 <= frame_weight K f.
Proof.
  intros K f HK. unfold frame_weight. destruct (n_dadr (f_npdu f)); [|lia].
  assert (K ^ (n_hop (f_npdu f) + 1) <> 0) by (apply N.pow_nonzero; assumption). lia.
Qed.

Lemma child_weight : forall K f g, 1 <= K -> child_of f g -> frame_weight K g <= K ^ n_hop (f_npdu f).
Proof.
  intros K f g HK (Hd & _ & Hc). unfold frame_weight. destruct Hc as [Hc|[Hc Hh]].
  - rewrite Hc. assert (K ^ n_hop (f_npdu f) <> 0) by (apply N.pow_nonzero; lia). lia.
  - rewrite Hc. destruct (n_dadr (f_npdu f)); [|congruence]. rewrite Hh. lia.
Qed.

Lemma children_lt : forall K f (len : nat) new,
  Forall (child_of f) new -> (length new <= len)%nat -> N.of_nat len < K -> mu2 K new < frame_weight K f.
Proof.
  intros K f len new Hn Hl HK.
  destruct new as [|g r].
  - cbn. pose proof (frame_weight_pos K f). lia.
  - pose proof (Forall_inv Hn) as (Hd & _).
    assert (Hsum : forall l, Forall (child_of f) l -> mu2 K l <= N.of_nat (length l) * K ^ n_hop (f_npdu f)).
    { induction l as [|x l IHl]; intro Hx; [cbn; lia|]. inversion Hx; subst. cbn [mu2 length].
      rewrite Nat2N.inj_succ, N.mul_succ_l. pose proof (child_weight K f x ltac:(lia) H1). specialize (IHl H2). lia. }
    specialize (Hsum _ Hn). unfold frame_weight. destruct (n_dadr (f_npdu f)); [|congruence].
    rewrite N.add_1_r, N.pow_succ_r'.
    assert (0 < K ^ n_hop (f_npdu f)) by (apply N.neq_0_lt_0; apply N.pow_nonzero; lia).
    assert (N.of_nat (length (g :: r)) * K ^ n_hop (f_npdu f) < K * K ^ n_hop (f_npdu f))
      by (apply N.mul_lt_mono_pos_r; [assumption|lia]).
    lia.
Qed.

(* the base of the measure: a frame has at most M * S A copies (at most M members on its LAN, each with at most A
   adapters makes at most S A copies), each of weight at most K ^ hop, so K = M * S A + 1 makes them weigh less
   than the frame itself *)
Definition measure_base (M A : nat) : N := N.of_nat (M * S A) + 1.

Definition targets_in (D : N -> Prop) (q : list frame) : Prop :=
  forall f d, In f q -> target (f_npdu f) = Some d -> D d.

Lemma copy_target : forall p q d, n_dadr q = None \/ n_dadr q = n_dadr p -> target q = Some d -> target p = Some d.
Proof. intros p q d [H|H] Ht; unfold target in *; rewrite H in Ht; [discriminate|assumption]. Qed.

Lemma child_target : forall f g d, child_of f g -> target (f_npdu g) = Some d -> target (f_npdu f) = Some d.
Proof. intros f g d (_ & _ & [Hc|[Hc _]]); apply copy_target; auto. Qed.

Lemma step_app_frame : forall A M (D : N -> Prop) w f q,
  queue w = f :: q -> Forall app_frame (queue w) -> nodes_ok A (nodes w) ->
  (forall lan, (length (lan_members (lans w) lan) <= M)%nat) ->
  targets_in D (queue w) -> (forall d, D d -> all_routable (nodes w) d) ->
  exists w', step w = Some w' /\ lans w' = lans w /\ nodes_ok A (nodes w') /\ Forall app_frame (queue w') /\
             targets_in D (queue w') /\ (forall d, D d -> all_routable (nodes w') d) /\
             mu2 (measure_base M A) (queue w') < mu2 (measure_base M A) (queue w).
Proof.
  intros A M D w f q Hq Hall Hok HM HT HD. rewrite (step_cons w f q Hq). rewrite Hq in *.
  inversion Hall; subst.
  destruct (deliver (nodes w) f (lan_members (lans w) (f_lan f)) q [OFrame f]) as [[ns q'] os] eqn:Ed.
  assert (Hr : forall d, target (f_npdu f) = Some d -> all_routable (nodes w) d).
  { intros d Hd. apply HD. apply (HT f d); [left; reflexivity|assumption]. }
  destruct (deliver_app_frame A _ _ _ _ _ _ _ _ Ed H1 Hok Hr) as (new & A1 & A2 & A3 & A4 & A5).
  eexists. split; [reflexivity|]. cbn [lans nodes queue]. repeat split; auto.
  - subst q'. apply Forall_app. split; [assumption|].
    eapply Forall_impl; [|exact A2]. intros g (_ & Hg & _). exact Hg.
  - subst q'. intros g d Hg Hd. apply in_app_or in Hg. destruct Hg as [Hg|Hg].
    + apply (HT g d); [right; assumption|assumption].
    + rewrite Forall_forall in A2. apply (HT f d); [left; reflexivity|]. eapply child_target; eauto.
  - subst q'. rewrite mu2_app. cbn [mu2].
    assert (Hlt : mu2 (measure_base M A) new < frame_weight (measure_base M A) f).
    { apply (children_lt _ _ (M * S A)%nat); [assumption| |unfold measure_base; lia]. specialize (HM (f_lan f)). nia. }
    lia.
Qed.

Lemma app_terminates_bounded : forall A M (D : N -> Prop) m w,
  (N.to_nat (mu2 (measure_base M A) (queue w)) < m)%nat ->
  Forall app_frame (queue w) -> nodes_ok A (nodes w) ->
  (forall lan, (length (lan_members (lans w) lan) <= M)%nat) ->
  targets_in D (queue w) -> (forall d, D d -> all_routable (nodes w) d) ->
  exists k, queue (run k w) = [].
Proof.
  intros A M D. induction m as [|m IH]; intros w Hm Hall Hok HM HT HD; [lia|].
  destruct (queue w) as [|f q] eqn:Hq; [exists 0%nat; cbn; assumption|].
  rewrite <- Hq in Hall, Hm, HT.
  destruct (step_app_frame A M D w f q Hq Hall Hok HM HT HD) as (w' & Hs & Hl & Hok' & Hall' & HT' & HD' & Hlt).
  destruct (IH w') as [k Hk]; auto; [lia|intro lan; rewrite Hl; apply HM|].
  exists (S k). cbn [run]. rewrite Hs. assumption.
Qed.

Lemma lan_members_bound : forall lns lan,
  (length (lan_members lns lan) <= list_max (map (fun kv => length (snd kv)) lns))%nat.
Proof.
  induction lns as [|[k m] r IH]; intro lan; cbn [lan_members map list_max fold_right]; [cbn; lia|].
  destruct (k =? lan); cbn [snd]; [lia|]. specialize (IH lan). unfold list_max in IH. lia.
Qed.

Theorem forwarding_terminates : forall w,
  Forall app_frame (queue w) ->
  (forall f d wn, In f (queue w) -> target (f_npdu f) = Some d -> In wn (nodes w) -> routable (w_node wn) d) ->
  exists k, queue (run k w) = [].
Proof.
  intros w Hall Hr.
  set (A := list_max (map (fun wn => length (adapters (w_node wn))) (nodes w))).
  set (M := list_max (map (fun kv : N * list (nat * nat) => length (snd kv)) (lans w))).
  apply (app_terminates_bounded A M (fun d => exists f, In f (queue w) /\ target (f_npdu f) = Some d)
           (S (N.to_nat (mu2 (measure_base M A) (queue w))))); auto.
  - unfold nodes_ok. assert (H : (list_max (map (fun wn => length (adapters (w_node wn))) (nodes w)) <= A)%nat) by (subst A; lia).
    apply list_max_le in H. rewrite Forall_map in H. exact H.
  - intro lan. apply lan_members_bound.
  - intros f d Hf Hd. exists f. auto.
  - intros d [f [Hf Hd]] wn Hwn. eapply Hr; eauto.
Qed.

(* a decidable form of the hypothesis, for examples *)
Definition routableb (n : node) (d : N) : bool :=
  negb (is_router n)
  || match find_net n (Some d) with Some _ => true | None => false end
  || match find_path n d with Some _ => true | None => false end.

Lemma routableb_sound : forall n d, routableb n d = true -> routable n d.
Proof.
  intros n d H. unfold routableb in H. apply orb_prop in H. destruct H as [H|H].
  - apply orb_prop in H. destruct H as [H|H].
    + left. destruct (is_router n); [discriminate|reflexivity].
    + right; left. destruct (find_net n (Some d)); [discriminate|discriminate H].
  - right; right. destruct (find_path n d); [discriminate|discriminate H].
Qed.

Definition world_routableb (w : world) : bool :=
  forallb (fun f => match n_msg (f_npdu f) with None => true | Some _ => false end
                    && match target (f_npdu f) with
                       | Some d => forallb (fun wn => routableb (w_node wn) d) (nodes w)
                       | None => true end) (queue w).

Lemma world_routableb_sound : forall w, world_routableb w = true ->
  Forall app_frame (queue w) /\
  (forall f d wn, In f (queue w) -> target (f_npdu f) = Some d -> In wn (nodes w) -> routable (w_node wn) d).
Proof.
  intros w H. unfold world_routableb in H. rewrite forallb_forall in H. split.
  - apply Forall_forall. intros f Hf. specialize (H f Hf). apply andb_prop in H. destruct H as [H _].
    unfold app_frame. destruct (n_msg (f_npdu f)); [discriminate|reflexivity].
  - intros f d wn Hf Hd Hwn. specialize (H f Hf). apply andb_prop in H. destruct H as [_ H].
    rewrite Hd in H. rewrite forallb_forall in H. apply routableb_sound. apply H. assumption.
Qed.

Corollary forwarding_terminates_b : forall w, world_routableb w = true -> exists k, queue (run k w) = [].
Proof. intros w H. destruct (world_routableb_sound w H). apply forwarding_terminates; assumption. Qed.
