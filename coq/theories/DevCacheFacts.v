(* DevCacheFacts.v — the reference counts of DeviceInfoCache follow the transactions: over any history of I-Ams, transactions
   being created, finishing and upgrading their record, the count of every record equals the number of live transactions
   that hold it; hence release never raises (the outcome of a transaction is never pre-empted by it), creating a transaction
   never raises, nothing stays referenced once no transaction is left, and a release - also the one that brings the count
   to zero - keeps the record in the cache under the same keys. *)
From Bac Require Import Base DevCache.
Open Scope Z_scope.

Lemma upd_nth_length : forall {A} i (f : A -> A) l, length (upd_nth i f l) = length l.
Proof. intros A i f l. revert i. induction l as [|x r IH]; intros [|k]; cbn [upd_nth length]; auto. Qed.

Lemma nth_error_upd_nth_eq : forall {A} i (f : A -> A) l, nth_error (upd_nth i f l) i = option_map f (nth_error l i).
Proof. intros A i f l. revert i. induction l as [|x r IH]; intros [|k]; cbn [upd_nth nth_error option_map]; auto. Qed.

Lemma nth_error_upd_nth_ne : forall {A} i j (f : A -> A) l, i <> j -> nth_error (upd_nth i f l) j = nth_error l j.
Proof.
  intros A i j f l. revert i j. induction l as [|x r IH]; intros [|k] [|m] H; cbn [upd_nth nth_error]; auto.
  - congruence.
Qed.

Definition dvalid (n : nat) (d : list (Z * nat)) : Prop := Forall (fun p => (snd p < n)%nat) d.

Lemma dvalid_mono : forall n m d, (n <= m)%nat -> dvalid n d -> dvalid m d.
Proof. intros n m d H Hd. eapply Forall_impl; [|exact Hd]. cbn. intros; lia. Qed.

Lemma dget_valid : forall n d k i, dvalid n d -> dget k d = Some i -> (i < n)%nat.
Proof.
  intros n d k i Hd. induction Hd as [|[k' v] r Hp Hr IH]; cbn [dget]; [discriminate|].
  destruct (k =? k'); [intros E; inversion E; subst; exact Hp | exact IH].
Qed.

Lemma dset_valid : forall n d k v, (v < n)%nat -> dvalid n d -> dvalid n (dset k v d).
Proof.
  intros n d k v Hv Hd. induction Hd as [|[k' v'] r Hp Hr IH]; cbn [dset].
  - constructor; [exact Hv | constructor].
  - destruct (k =? k'); constructor; auto.
Qed.

Lemma ddel_valid : forall n d k d', dvalid n d -> ddel k d = Ok d' -> dvalid n d'.
Proof.
  intros n d k d' Hd. revert d'. induction Hd as [|[k' v'] r Hp Hr IH]; intros d'; cbn [ddel]; [discriminate|].
  destruct (k =? k').
  - intros E; inversion E; subst; exact Hr.
  - destruct (ddel k r) as [r'|e]; [|discriminate]. intros E; inversion E; subst. constructor; [exact Hp | apply IH; reflexivity].
Qed.

Lemma holders_app : forall i l1 l2, holders i (l1 ++ l2) = holders i l1 + holders i l2.
Proof.
  intros i l1 l2. induction l1 as [|[a [j|]] r IH]; cbn [app holders]; [reflexivity | rewrite IH; lia | exact IH].
Qed.

Lemma holders_nonneg : forall i l, 0 <= holders i l.
Proof. intros i l. induction l as [|[a [j|]] r IH]; cbn [holders]; [lia | destruct (Nat.eqb j i); lia | exact IH]. Qed.

Definition holds (i : nat) (di : option nat) : Z := match di with Some j => if Nat.eqb j i then 1 else 0 | None => 0 end.

Lemma holders_del_nth : forall i l k a di, nth_error l k = Some (a, di) -> holders i (del_nth k l) = holders i l - holds i di.
Proof.
  intros i l. induction l as [|[b [j|]] r IH]; intros [|k] a di; cbn [nth_error del_nth holders]; try discriminate.
  - intros E; inversion E; subst. cbn [holds]. lia.
  - intros E. rewrite (IH _ _ _ E). lia.
  - intros E; inversion E; subst. cbn [holds]. lia.
  - intros E. exact (IH _ _ _ E).
Qed.

Lemma In_del_nth : forall {A} k (l : list A) x, In x (del_nth k l) -> In x l.
Proof.
  intros A k l. revert k. induction l as [|y r IH]; intros [|k] x; cbn [del_nth In]; auto.
  intros [H|H]; [left; exact H | right; exact (IH _ _ H)].
Qed.

Definition live_valid (n : nat) (l : list (Z * option nat)) : Prop := forall a i, In (a, Some i) l -> (i < n)%nat.

Lemma holders_out_of_range : forall n l i, live_valid n l -> (n <= i)%nat -> holders i l = 0.
Proof.
  intros n l i. induction l as [|[a [j|]] r IH]; intros Hv Hi; cbn [holders]; [reflexivity| |].
  - assert (j < n)%nat by (apply (Hv a); left; reflexivity).
    replace (Nat.eqb j i) with false by (symmetry; apply Nat.eqb_neq; lia).
    rewrite IH; [lia | intros b k Hk; apply (Hv b); right; exact Hk | exact Hi].
  - apply IH; [intros b k Hk; apply (Hv b); right; exact Hk | exact Hi].
Qed.

Definition refs_ok (recs : list drec) (l : list (Z * option nat)) : Prop :=
  forall i r, nth_error recs i = Some r -> dr_ref r = holders i l.

Record Inv (s : dstate) : Prop := mkInv {
  inv_id : dvalid (length (dc_recs (ds_cache s))) (dc_by_id (ds_cache s));
  inv_addr : dvalid (length (dc_recs (ds_cache s))) (dc_by_addr (ds_cache s));
  inv_live : live_valid (length (dc_recs (ds_cache s))) (ds_live s);
  inv_refs : refs_ok (dc_recs (ds_cache s)) (ds_live s) }.

Lemma refs_ok_upd : forall recs l i f, (forall r, dr_ref (f r) = dr_ref r) -> refs_ok recs l -> refs_ok (upd_nth i f recs) l.
Proof.
  intros recs l i f Hf H j r. destruct (Nat.eq_dec i j) as [->|Hne].
  - rewrite nth_error_upd_nth_eq. destruct (nth_error recs j) as [r0|] eqn:E; cbn [option_map]; [|discriminate].
    intros X; inversion X; subst. rewrite Hf. exact (H _ _ E).
  - rewrite nth_error_upd_nth_ne by exact Hne. apply H.
Qed.

(* a key of record i that has changed is moved: the old entry deleted (KeyError if it is not there), the new one set *)
Lemma rekey_valid : forall n i (moved : bool) k k' d d', (i < n)%nat -> dvalid n d ->
  (if moved then match ddel k' d with Ok x => Ok (dset k i x) | Err e => Err e end else Ok d) = Ok d' -> dvalid n d'.
Proof.
  intros n i moved k k' d d' Hi Hd. destruct moved; [|intros [= <-]; exact Hd].
  destruct (ddel k' d) as [x|e] eqn:E; intros [= <-]. apply dset_valid; [exact Hi | exact (ddel_valid _ _ _ _ Hd E)].
Qed.

Lemma update_device_info_inv : forall i recs bid bad l,
  (i < length recs)%nat -> dvalid (length recs) bid -> dvalid (length recs) bad -> live_valid (length recs) l -> refs_ok recs l ->
  Inv (mkDs (fst (update_device_info i (mkDc recs bid bad))) l).
Proof.
  intros i recs bid bad l Hi Hid Had Hl Hr. unfold update_device_info. cbn [dc_recs dc_by_id dc_by_addr].
  destruct (nth_error recs i) as [r|] eqn:E; cbn [fst]; [|constructor; assumption].
  assert (Hk : forall k, refs_ok (upd_nth i (set_keys k) recs) l) by (intros k; apply refs_ok_upd; [reflexivity | exact Hr]).
  destruct (dr_keys r) as [[kid kad]|]; cbn [fst].
  - match goal with |- context [match ?s3 with Ok _ => _ | Err e => (_, Some e) end] => destruct s3 as [bid'|e] eqn:E3 end;
      cbn [fst]; [|constructor; assumption].
    apply (rekey_valid (length recs) i) in E3; [|exact Hi | exact Hid].
    match goal with |- context [match ?s4 with Ok _ => _ | Err e => (_, Some e) end] => destruct s4 as [bad'|e] eqn:E4 end;
      cbn [fst]; [apply (rekey_valid (length recs) i) in E4; [|exact Hi | exact Had]|];
      constructor; cbn [ds_cache ds_live dc_recs dc_by_id dc_by_addr]; rewrite ?upd_nth_length; auto.
  - constructor; cbn [ds_cache ds_live dc_recs dc_by_id dc_by_addr]; rewrite ?upd_nth_length; auto using dset_valid.
Qed.

Lemma refs_ok_snoc : forall recs l r0, live_valid (length recs) l -> dr_ref r0 = 0 -> refs_ok recs l -> refs_ok (recs ++ [r0]) l.
Proof.
  intros recs l r0 Hl H0 H i r Hn.
  destruct (Nat.lt_ge_cases i (length recs)) as [Hlt|Hge].
  - rewrite nth_error_app1 in Hn by exact Hlt. exact (H _ _ Hn).
  - rewrite nth_error_app2 in Hn by exact Hge.
    destruct (i - length recs)%nat eqn:Ei; cbn [nth_error] in Hn.
    + inversion Hn; subst. rewrite H0. symmetry. eapply holders_out_of_range; [exact Hl | exact Hge].
    + destruct n; discriminate.
Qed.

Lemma live_valid_mono : forall n m l, (n <= m)%nat -> live_valid n l -> live_valid m l.
Proof. intros n m l H Hl a i Hin. specialize (Hl a i Hin). lia. Qed.

(* the record a listed transaction holds exists, and it is counted: release finds a count that is not 0 *)
Lemma held_record : forall recs l k a i, live_valid (length recs) l -> refs_ok recs l -> nth_error l k = Some (a, Some i) ->
  exists r, nth_error recs i = Some r /\ dr_ref r = holders i (del_nth k l) + 1 /\ (dr_ref r =? 0) = false.
Proof.
  intros recs l k a i Hl Hr Ek. pose proof (Hl _ _ (nth_error_In _ _ Ek)) as Hi.
  destruct (nth_error recs i) as [r|] eqn:En; [|apply nth_error_None in En; lia].
  exists r. pose proof (Hr _ _ En) as Href.
  pose proof (holders_del_nth i _ _ _ _ Ek) as Hd. cbn [holds] in Hd. rewrite Nat.eqb_refl in Hd.
  pose proof (holders_nonneg i (del_nth k l)). repeat split; lia.
Qed.

Lemma dstep_inv : forall o s, Inv s -> Inv (fst (dstep o s)).
Proof.
  intros o [[recs bid bad] l] [Hid Had Hl Hr]. cbn [ds_cache ds_live dc_recs dc_by_id dc_by_addr] in *.
  destruct o as [inst addr ma sg | addr | k | k]; unfold dstep; cbn [ds_cache ds_live dc_recs dc_by_id dc_by_addr].
  - (* I-Am *)
    unfold iam_device_info. cbn [dc_recs dc_by_id dc_by_addr].
    set (found := match dget inst bid with Some i => Some i | None => dget addr bad end).
    assert (Hf : forall i, found = Some i -> (i < length recs)%nat).
    { intros i. unfold found. destruct (dget inst bid) eqn:E1.
      - intros X; inversion X; subst. exact (dget_valid _ _ _ _ Hid E1).
      - intros X. exact (dget_valid _ _ _ _ Had X). }
    destruct found as [i|].
    + specialize (Hf i eq_refl).
      pose proof (update_device_info_inv i (upd_nth i (set_iam inst addr ma sg) recs) bid bad l) as H.
      rewrite upd_nth_length in H. specialize (H Hf Hid Had Hl (refs_ok_upd recs l i (set_iam inst addr ma sg) (fun _ => eq_refl) Hr)).
      destruct (update_device_info i _) as [c' e]. exact H.
    + pose proof (update_device_info_inv (length recs) (upd_nth (length recs) (set_iam inst addr ma sg) (recs ++ [mkDrec inst addr 1024 0 0 None])) bid bad l) as H.
      rewrite upd_nth_length, app_length in H. cbn [length] in H.
      assert (Hle : (length recs <= length recs + 1)%nat) by lia.
      specialize (H ltac:(lia) (dvalid_mono _ _ _ Hle Hid) (dvalid_mono _ _ _ Hle Had) (live_valid_mono _ _ _ Hle Hl)
                    (refs_ok_upd _ l (length recs) (set_iam inst addr ma sg) (fun _ => eq_refl) (refs_ok_snoc recs l (mkDrec inst addr 1024 0 0 None) Hl eq_refl Hr))).
      destruct (update_device_info (length recs) _) as [c' e]. exact H.
  - (* a transaction is created *)
    unfold get_device_info, acquire. cbn [dc_recs dc_by_id dc_by_addr fst].
    destruct (dget addr bad) as [i|] eqn:E; cbn [fst].
    + assert (Hi : (i < length recs)%nat) by exact (dget_valid _ _ _ _ Had E).
      constructor; cbn [ds_cache ds_live dc_recs dc_by_id dc_by_addr]; rewrite ?upd_nth_length; auto.
      * intros a j Hin. apply in_app_or in Hin. destruct Hin as [Hin|[Hin|[]]]; [exact (Hl _ _ Hin)|]. inversion Hin; subst. exact Hi.
      * intros j r. rewrite holders_app. cbn [holders]. destruct (Nat.eq_dec i j) as [->|Hne].
        -- rewrite nth_error_upd_nth_eq. destruct (nth_error recs j) as [r0|] eqn:En; cbn [option_map]; [|discriminate].
           intros X; inversion X; subst. cbn [set_ref dr_ref]. rewrite (Hr _ _ En), Nat.eqb_refl. lia.
        -- rewrite nth_error_upd_nth_ne by exact Hne. intros En. rewrite (Hr _ _ En).
           replace (Nat.eqb i j) with false by (symmetry; apply Nat.eqb_neq; exact Hne). lia.
    + constructor; cbn [ds_cache ds_live dc_recs dc_by_id dc_by_addr]; auto.
      * intros a j Hin. apply in_app_or in Hin. destruct Hin as [Hin|[Hin|[]]]; [exact (Hl _ _ Hin) | discriminate].
      * intros j r En. rewrite holders_app. cbn [holders]. rewrite (Hr _ _ En). lia.
  - (* a transaction finishes *)
    destruct (nth_error l k) as [[a di]|] eqn:Ek; cbn [fst]; [|constructor; assumption].
    assert (Hl' : live_valid (length recs) (del_nth k l)) by (intros b j Hj; apply (Hl b); eapply In_del_nth; exact Hj).
    destruct di as [i|].
    + destruct (held_record recs l k a i Hl Hr Ek) as (r & En & Href & E0).
      unfold release. cbn [dc_recs dc_by_id dc_by_addr]. rewrite En, E0. cbn [fst].
      constructor; cbn [ds_cache ds_live dc_recs dc_by_id dc_by_addr]; rewrite ?upd_nth_length; auto.
      intros j r'. destruct (Nat.eq_dec i j) as [->|Hne].
      * rewrite nth_error_upd_nth_eq, En. cbn [option_map]. intros X; inversion X; subst. cbn [set_ref dr_ref]. lia.
      * rewrite nth_error_upd_nth_ne by exact Hne. intros En'. rewrite (Hr _ _ En').
        pose proof (holders_del_nth j _ _ _ _ Ek) as Hd'. cbn [holds] in Hd'.
        replace (Nat.eqb i j) with false in Hd' by (symmetry; apply Nat.eqb_neq; exact Hne). lia.
    + cbn [fst]. constructor; cbn [ds_cache ds_live dc_recs dc_by_id dc_by_addr]; auto.
      intros j r En. rewrite (Hr _ _ En). pose proof (holders_del_nth j _ _ _ _ Ek) as Hd. cbn [holds] in Hd. lia.
  - (* ServerSSM.idle upgrades the record *)
    destruct (nth_error l k) as [[a [i|]]|] eqn:Ek; cbn [fst]; try (constructor; assumption).
    destruct (nth_error recs i) as [r|] eqn:En; cbn [fst]; [|constructor; assumption].
    assert (Hi : (i < length recs)%nat) by (apply nth_error_Some; congruence).
    destruct ((dr_seg r =? 0) || (dr_seg r =? 1)).
    + pose proof (update_device_info_inv i (upd_nth i (set_seg (dr_seg r + 2)) recs) bid bad l) as H.
      rewrite upd_nth_length in H. specialize (H Hi Hid Had Hl (refs_ok_upd recs l i (set_seg (dr_seg r + 2)) (fun _ => eq_refl) Hr)).
      destruct (update_device_info i _) as [c' e]. exact H.
    + destruct ((dr_seg r =? 2) || (dr_seg r =? 3)); cbn [fst]; constructor; assumption.
Qed.

Lemma inv_init : Inv ds_init.
Proof. constructor; cbn; try constructor. - intros a i []. - intros [|i] r; discriminate. Qed.

Lemma dsteps_inv : forall ops s, Inv s -> Inv (dsteps ops s).
Proof. induction ops as [|o r IH]; intros s H; cbn [dsteps]; [exact H | apply IH, dstep_inv, H]. Qed.

Lemma dc_refcount_history : forall ops i r,
  nth_error (dc_recs (ds_cache (dsteps ops ds_init))) i = Some r -> dr_ref r = holders i (ds_live (dsteps ops ds_init)).
Proof. intros ops. exact (inv_refs _ (dsteps_inv ops _ inv_init)). Qed.

Lemma close_never_raises : forall s k, Inv s -> snd (dstep (DClose k) s) = None.
Proof.
  intros [[recs bid bad] l] k [Hid Had Hl Hr]. cbn [ds_cache ds_live dc_recs dc_by_id dc_by_addr] in *.
  unfold dstep. cbn [ds_cache ds_live dc_recs].
  destruct (nth_error l k) as [[a [i|]]|] eqn:Ek; cbn [snd]; try reflexivity.
  destruct (held_record recs l k a i Hl Hr Ek) as (r & En & _ & E0).
  unfold release. cbn [dc_recs dc_by_id dc_by_addr]. rewrite En, E0. reflexivity.
Qed.

Lemma dc_close_never_raises_history : forall ops k, snd (dstep (DClose k) (dsteps ops ds_init)) = None.
Proof. intros ops k. apply close_never_raises, dsteps_inv, inv_init. Qed.

Lemma dc_open_never_raises : forall s addr, snd (dstep (DOpen addr) s) = None.
Proof. intros s addr. reflexivity. Qed.

Lemma dc_quiescent_history : forall ops i r,
  ds_live (dsteps ops ds_init) = [] -> nth_error (dc_recs (ds_cache (dsteps ops ds_init))) i = Some r -> dr_ref r = 0.
Proof. intros ops i r Hq Hn. rewrite (dc_refcount_history ops i r Hn), Hq. reflexivity. Qed.

(* release keeps the record where it is, whatever the count becomes: no eviction *)
Lemma dc_close_keeps_records : forall s k,
  let s' := fst (dstep (DClose k) s) in
  dc_by_id (ds_cache s') = dc_by_id (ds_cache s) /\ dc_by_addr (ds_cache s') = dc_by_addr (ds_cache s) /\
  length (dc_recs (ds_cache s')) = length (dc_recs (ds_cache s)) /\
  forall i r, nth_error (dc_recs (ds_cache s)) i = Some r ->
    exists r', nth_error (dc_recs (ds_cache s')) i = Some r' /\ obs_rec (set_ref 0 r') = obs_rec (set_ref 0 r).
Proof.
  intros [[recs bid bad] l] k. unfold dstep. cbn [ds_cache ds_live dc_recs dc_by_id dc_by_addr].
  destruct (nth_error l k) as [[a [i|]]|] eqn:Ek; cbn [fst ds_cache dc_recs dc_by_id dc_by_addr];
    try (repeat split; intros j r Hn; exists r; split; [exact Hn | reflexivity]).
  unfold release. cbn [dc_recs dc_by_id dc_by_addr].
  destruct (nth_error recs i) as [r0|] eqn:En; cbn [fst ds_cache dc_recs dc_by_id dc_by_addr];
    try (repeat split; intros j r Hn; exists r; split; [exact Hn | reflexivity]).
  destruct (dr_ref r0 =? 0); cbn [fst ds_cache dc_recs dc_by_id dc_by_addr];
    try (repeat split; intros j r Hn; exists r; split; [exact Hn | reflexivity]).
  repeat split; [apply upd_nth_length|].
  intros j r Hn. destruct (Nat.eq_dec i j) as [->|Hne].
  - rewrite nth_error_upd_nth_eq, Hn. cbn [option_map]. eexists; split; [reflexivity | reflexivity].
  - rewrite nth_error_upd_nth_ne by exact Hne. exists r; split; [exact Hn | reflexivity].
Qed.

(* a transaction created while the peer has a record holds that record and the count goes up by one *)
Lemma dc_open_counts : forall s addr i r, Inv s ->
  get_device_info addr (ds_cache s) = Some i -> nth_error (dc_recs (ds_cache s)) i = Some r ->
  exists r', nth_error (dc_recs (ds_cache (fst (dstep (DOpen addr) s)))) i = Some r' /\ dr_ref r' = dr_ref r + 1 /\
             ds_live (fst (dstep (DOpen addr) s)) = ds_live s ++ [(addr, Some i)].
Proof.
  intros [[recs bid bad] l] addr i r _ Hg Hn. unfold get_device_info in Hg. cbn [ds_cache dc_by_addr dc_recs] in *.
  unfold dstep, get_device_info, acquire. cbn [ds_cache ds_live dc_recs dc_by_id dc_by_addr]. rewrite Hg. cbn [fst ds_cache dc_recs ds_live].
  rewrite nth_error_upd_nth_eq, Hn. cbn [option_map]. eexists; split; [reflexivity | split; reflexivity].
Qed.
