(* PrioHold.v — the minimum on/off hold of the commandable model (property C17):
   slot 6 and the pending release are, after every history that does not command priority 6
   itself, exactly the hold the statement describes (Prio.hold_after): started by the last change
   of the present value to a state with a minimum time > 0, ending exactly that time later, and
   untouched by everything else (a flip to a state without minimum time included). *)
From Bac Require Import Base Prio PrioFacts.
Open Scope Z_scope.

Definition live (g : hold) (nw : Z) : Prop :=
  match g with Some (_, u) => nw < u | None => True end.

(* the model's slot 6 / pending release are the hold g *)
Definition hold_inv (o : obj) (g : hold) : Prop :=
  slot6 o = Some (option_map fst g) /\ timer o = option_map snd g /\ live g (now o).

Lemma expire_live : forall g nw, live g nw -> expire g nw = g.
Proof.
  intros [[v u]|] nw H; cbn in *; [|reflexivity].
  replace (u <=? nw) with false by lia. reflexivity.
Qed.

Lemma expire_dead : forall v u nw, u <= nw -> expire (Some (v, u)) nw = None.
Proof. intros. cbn. replace (u <=? nw) with true by lia. reflexivity. Qed.

Lemma hold_step_same : forall on off g p nw, live g nw -> hold_step on off g p p nw = g.
Proof.
  intros. unfold hold_step. rewrite Z.eqb_refl. cbn [negb andb]. apply expire_live. assumption.
Qed.

Lemma hold_step_new : forall on off g p w nw,
  w <> p -> 0 < min_time on off w ->
  hold_step on off g p w nw = Some (w, nw + min_time on off w).
Proof.
  intros. unfold hold_step.
  replace (w =? p) with false by lia. replace (0 <? min_time on off w) with true by lia.
  cbn [negb andb]. apply expire_live. cbn. lia.
Qed.

Lemma hold_step_free : forall on off g p w nw,
  min_time on off w = 0 -> hold_step on off g p w nw = expire g nw.
Proof.
  intros. unfold hold_step. rewrite H. change (0 <? 0) with false.
  rewrite Bool.andb_false_r. reflexivity.
Qed.

Lemma min_time_nonneg : forall on off w, 0 <= on -> 0 <= off -> 0 <= min_time on off w.
Proof. intros. unfold min_time. destruct (w =? ACTIVE); [|destruct (w =? INACTIVE)]; lia. Qed.

(* what the hold lemmas ask of the object: it carries the MinOnOff monitor, has its 16 slots, and its two minimum
   times are not negative.  The last is needed only because `held` (the model, PrioFacts.v) tests the time for <> 0
   while hold_step (the statement, Prio.v) tests it for > 0: with a negative time the model schedules a release in
   the past, hold_step starts no hold. *)
Definition minonoff_ok (o : obj) : Prop :=
  monitored o = true /\ length (slots o) = 16%nat /\ 0 <= min_on o /\ 0 <= min_off o.

Lemma step_minonoff_ok : forall o e, minonoff_ok o -> minonoff_ok (fst (step o e)).
Proof.
  intros o e (Hm & Hlen & Hon & Hoff). pose proof (step_frame o e) as F. cbv zeta in F.
  destruct F as (Fm & Fon & Foff & Fl). unfold minonoff_ok. rewrite Fm, Fon, Foff, Fl. auto.
Qed.

(* an accepted write, from the moment the commanded value is stored: if the object then carries
   what is left of g at this instant, the rest of the write (the present value, the monitor)
   makes it carry the next hold.  Either a hold starts, and slot 6 and the timer are overwritten,
   or held is false and they stay. *)
Lemma hold_stored : forall o i v g,
  minonoff_ok o -> 1 <= i <= 16 ->
  hold_inv (with_slots o (set_nth (Z.to_nat (i - 1)) v (slots o))) (expire g (now o)) ->
  let o' := fst (write_spec o i v) in
  hold_inv o' (hold_step (min_on o) (min_off o) g (pv o) (pv o') (now o)).
Proof.
  intros o i v g (Hm & Hlen & Hon & Hoff) Hi Hst. cbv zeta. rewrite write_spec_valid by exact Hi.
  unfold hold_inv, slot6, hold_step, held in *. cbn [fst pv slots timer now with_slots] in *. rewrite Hm. cbn [andb].
  set (sl1 := set_nth _ v _) in *. set (w := winner sl1 _).
  pose proof (min_time_nonneg (min_on o) (min_off o) w Hon Hoff) as Hmt.
  (* hold_step's test > 0 and held's test <> 0 agree on a time that is not negative *)
  replace (0 <? min_time (min_on o) (min_off o) w) with (negb (min_time (min_on o) (min_off o) w =? 0)) by lia.
  destruct (negb (w =? pv o) && negb (min_time (min_on o) (min_off o) w =? 0)) eqn:Eh; [|exact Hst].
  rewrite expire_live by (cbn; lia). cbn [option_map fst snd live].
  rewrite set_nth_same by (unfold sl1; rewrite set_nth_length; lia). repeat split. lia.
Qed.

Lemma hold_write : forall o i v g,
  minonoff_ok o -> i <> 6 -> hold_inv o g ->
  let o' := fst (write_spec o i v) in
  hold_inv o' (hold_step (min_on o) (min_off o) g (pv o) (pv o') (now o)).
Proof.
  intros o i v g Hok Hi Hg. cbv zeta. destruct (prio_dec i) as [Hv|Hv].
  - apply hold_stored; [exact Hok | exact Hv |]. destruct Hg as [H6 [Ht Hn]]. rewrite expire_live by exact Hn.
    unfold hold_inv, slot6. cbn [with_slots slots timer now]. rewrite set_nth_other by lia. auto.
  - rewrite write_spec_invalid by exact Hv. cbn [fst]. rewrite hold_step_same by apply Hg. exact Hg.
Qed.

(* the release: a write of null at priority 6 with the timer already taken off the schedule *)
Lemma hold_release : forall o v u,
  minonoff_ok o -> u <= now o ->
  let o' := fst (write_spec (with_timer o None) 6 None) in
  hold_inv o' (hold_step (min_on o) (min_off o) (Some (v, u)) (pv o) (pv o') (now o)).
Proof.
  intros o v u Hok Hu. cbv zeta. pose proof (proj1 (proj2 Hok)) as Hlen.
  apply (hold_stored (with_timer o None) 6 None (Some (v, u))); [exact Hok | lia |].
  cbn [now with_timer]. rewrite expire_dead by exact Hu.
  unfold hold_inv, slot6. cbn [with_slots with_timer slots timer]. change (Z.to_nat (6 - 1)) with 5%nat.
  rewrite set_nth_same by lia. cbn. auto.
Qed.

Lemma hold_tick : forall o dt g,
  minonoff_ok o -> hold_inv o g ->
  let o' := fst (tick o dt) in
  hold_inv o' (hold_step (min_on o) (min_off o) g (pv o) (pv o') (now o')).
Proof.
  intros o dt g Hok [H6 [Ht Hn]]. rewrite tick_spec. cbv zeta.
  destruct g as [[v u]|]; cbn [option_map snd] in Ht; rewrite Ht.
  - destruct (u <=? now o + dt) eqn:Eu.
    + replace (now (fst (write_spec (with_timer (with_now o (now o + dt)) None) 6 None))) with (now o + dt)
        by (symmetry; apply write_spec_frame).
      apply (hold_release (with_now o (now o + dt)) v u); [exact Hok |]. cbn [now with_now]. lia.
    + cbn [fst pv now with_now]. rewrite hold_step_same by (cbn; lia). repeat split; try assumption. cbn. lia.
  - cbn [fst pv now with_now]. rewrite hold_step_same by exact I. repeat split; assumption.
Qed.

Lemma hold_exact : forall es o g,
  minonoff_ok o -> no_user6 es = true -> hold_inv o g ->
  hold_inv (run o es) (hold_after o g es).
Proof.
  induction es as [|e r IH]; intros o g Hok Hu Hi; [exact Hi|].
  cbn [run hold_after]. apply IH; [apply step_minonoff_ok; exact Hok | |].
  - destruct e; cbn [no_user6] in Hu; [apply andb_prop in Hu; tauto | exact Hu].
  - destruct e as [p v|dt]; cbn [step]; [|apply hold_tick; assumption].
    cbn [no_user6] in Hu. apply andb_prop in Hu. destruct Hu as [Hp _]. rewrite command_spec.
    replace (now (fst (write_spec o (prio_index p) v))) with (now o) by (symmetry; apply write_spec_frame).
    apply hold_write; [exact Hok | lia | exact Hi].
Qed.

(* no hold running: slot 6 is null, nothing is scheduled (so the present value, being the winner
   of the array, is the winner of the commanded slots alone) *)
Lemma hold_inv_none : forall o, hold_inv o None -> slot6 o = Some None /\ timer o = None.
Proof. intros o [H6 [Ht _]]. auto. Qed.

Lemma hold_inv_some : forall o v u,
  hold_inv o (Some (v, u)) -> slot6 o = Some (Some v) /\ timer o = Some u /\ now o < u.
Proof. intros o v u [H6 [Ht Hn]]. auto. Qed.

Lemma hold_inv_fresh : forall d p m on off nw, hold_inv (mkObj no_slots d p m on off None nw) None.
Proof. intros. unfold hold_inv, slot6. cbn. auto. Qed.
