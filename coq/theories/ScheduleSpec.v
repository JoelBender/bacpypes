(* ScheduleSpec.v — what BACnet prescribes for a schedule (clause 12.24.4), stated independently
   of the interpreter's loops, and the well-formedness under which the theorems hold.
   Definitions only. *)
From Bac Require Import Base PyRt Calendar ScheduleEval.
Open Scope Z_scope.

Definition valid_time (t : T4) : Prop :=
  let '(h, m, s, c) := t in 0 <= h < 24 /\ 0 <= m < 60 /\ 0 <= s < 60 /\ 0 <= c < 100.

(* the value of the LAST list entry whose time is at or before t (None: no such entry, or Null) *)
Fixpoint cur_from (acc : option Z) (tvs : list TV) (t : T4) : option Z :=
  match tvs with
  | [] => acc
  | (tv, v) :: r => cur_from (if t4_le tv t then v else acc) r t
  end.
Definition cur_val (tvs : list TV) (t : T4) : option Z := cur_from None tvs t.

(* ascending times *)
Fixpoint sorted_tvs (l : list TV) : Prop :=
  match l with
  | [] => True
  | (tv, _) :: r => (forall x, In x r -> t4_le tv (fst x) = true) /\ sorted_tvs r
  end.

(* what the periods denote *)
Definition centry_denotes (c : centry) (d : D4) : Prop :=
  match c with
  | CDate p => date_denotes p d
  | CRange r => range_denotes r d
  | CWnd w => wnd_denotes w d
  | CEmpty => False
  end.
Definition wf_centry (c : centry) : Prop :=
  match c with CDate _ => True | CRange r => wf_range r | CWnd w => wf_wnd w | CEmpty => False end.
Definition period_denotes (p : period) (d : D4) : Prop :=
  match p with
  | PEntry c => centry_denotes c d
  | PRef (Some l) => exists c, In c l /\ centry_denotes c d
  | _ => False
  end.
Definition wf_period (p : period) : Prop :=
  match p with
  | PEntry c => wf_centry c
  | PRef (Some l) => forall c, In c l -> wf_centry c
  | _ => False
  end.

Definition prio_of (e : sevent) : Z := match se_prio e with Some p => p | None => 0 end.
Definition in_force (d : D4) (e : sevent) : Prop := period_denotes (se_period e) d.

Definition wf_event (e : sevent) : Prop :=
  wf_period (se_period e) /\ (exists p, se_prio e = Some p /\ 1 <= p <= 16) /\ sorted_tvs (se_tvs e).

(* pairwise distinct priorities among the events in force on d *)
Fixpoint distinct_priorities (d : D4) (evs : list sevent) : Prop :=
  match evs with
  | [] => True
  | e :: r => (in_force d e -> forall e', In e' r -> in_force d e' -> prio_of e' <> prio_of e)
              /\ distinct_priorities d r
  end.

Definition wf_weekly (w : option (list (list TV))) : Prop :=
  match w with None => True | Some l => length l = 7%nat /\ forall day, In day l -> sorted_tvs day end.

Definition wf_sched (c : sched) (d : D4) : Prop :=
  wf_range (eff c) /\ Forall wf_event (excs c) /\ distinct_priorities d (excs c) /\ wf_weekly (weekly c).

Definition weekly_day (c : sched) (d : D4) : list TV :=
  match weekly c with
  | None => []
  | Some w => let '(_, _, _, dow) := d in nth (Z.to_nat (dow - 1)) w []
  end.

(* clause 12.24.4: the current value of the highest-priority (lowest number) exception in force
   whose current value is not Null; otherwise the weekday's current value; otherwise the default *)
Definition spec_value (c : sched) (d : D4) (t : T4) (v : Z) : Prop :=
  (exists e, In e (excs c) /\ in_force d e /\ cur_val (se_tvs e) t = Some v /\
             forall e', In e' (excs c) -> in_force d e' -> cur_val (se_tvs e') t <> None ->
                        prio_of e <= prio_of e')
  \/ ((forall e, In e (excs c) -> in_force d e -> cur_val (se_tvs e) t = None) /\
      v = match cur_val (weekly_day c d) t with Some x => x | None => dflt c end).

Definition in_effect (c : sched) (d : D4) : Prop := range_denotes (eff c) d.

(* entry times with whole seconds (datetime_to_time drops the hundredths) *)
Definition whole_tv (tv : TV) : Prop := let '(_, _, _, h) := fst tv in h = 0.
Definition whole_seconds (c : sched) : Prop :=
  (forall e, In e (excs c) -> Forall whole_tv (se_tvs e)) /\
  (forall w, weekly c = Some w -> forall day, In day w -> Forall whole_tv day).
Definition valid_tvs (l : list TV) : Prop := Forall (fun tv => valid_time (fst tv)) l.
Definition valid_times (c : sched) : Prop :=
  (forall e, In e (excs c) -> valid_tvs (se_tvs e)) /\
  (forall w, weekly c = Some w -> forall day, In day w -> valid_tvs day).

(* ---- what datetime_to_time (schedule.py:236-247) must satisfy, for ANY local-time rule:
   the instant it returns is one whose local wall-clock reading is the requested (date, time),
   whenever such an instant exists (on a day with a UTC-offset change a reading may not exist, or
   exist twice: then nothing is required beyond being one of them).  The code meets this by handing
   the whole wall-clock tuple to time.mktime with isdst = -1; mktime/localtime are trusted CPython:
   `normalise` in ScheduleEval.v is their behaviour under a constant offset (TZ=UTC), ScheduleTz.v models
   them for zones with two offsets, and the harness judges real objects by local wall-clock reading in
   two zones with daylight-saving rules across both change days. *)
Definition dtt_requirement (localtime : Z -> D4 * T4) (dtt : D4 -> T4 -> Z) : Prop :=
  forall d t, (exists e, localtime e = (d, t)) -> localtime (dtt d t) = (d, t).
