(* table obligations about gen/ObjTables.v (re-checked by every build against what the source says now) *)
From Bac Require Import Base PyRt Obj.
From BacGen Require Import ObjTables.
Open Scope Z_scope.

(* an element datatype the model handles: an application tag 0..12 with sane Unsigned limits, or a class id *)
Definition sdt_ok (s : sdt) : bool :=
  match s with
  | SAtom k lo hi => (0 <=? k) && (k <=? 12) && (0 <=? lo) && match hi with Some h => lo <=? h | None => true end
  | SAny => true
  | SCons cid => 1 <=? cid
  end.
Definition not_any (s : sdt) : bool := match s with SAny => false | _ => true end.
(* what fix_length appends is of the element kind (a primitive of that tag / an instance of that class) *)
Definition proto_ok (s : sdt) (e : elem) : bool :=
  match s, e with
  | SAtom k _ _, EAtom k' _ => k' =? k
  | SCons cid, ECons c' _ => c' =? cid
  | SCons cid, EBad c' _ => c' =? cid
  | _, _ => false
  end.
(* arrays and lists are never of AnyAtomic (cast_many has no such branch); fixed lengths are naturals *)
Definition dtype_ok (d : dtype) : bool :=
  match d with
  | DS s => sdt_ok s
  | DArray s fixed proto =>
      sdt_ok s && not_any s && proto_ok s proto && match fixed with Some f => 0 <=? f | None => true end
  | DList s => sdt_ok s && not_any s
  end.
Definition pdesc_ok (p : pdesc) : bool := (0 <=? p_id p) && dtype_ok (p_dt p).

Fixpoint mem_z (x : Z) (l : list Z) : bool := match l with [] => false | y :: r => (x =? y) || mem_z x r end.
Fixpoint nodup_z (l : list Z) : bool := match l with [] => true | x :: r => negb (mem_z x r) && nodup_z r end.

(* a table is a dictionary (find_prop = _properties.get): identifiers are distinct; every descriptor is handled *)
Definition table_ok (t : list pdesc) : bool := nodup_z (map p_id t) && forallb pdesc_ok t.

(* object classes (all but the restricted device table) declare objectIdentifier (75), objectName (77), objectType (79)
   and propertyList (371), none of them writable — also in the all-mutable subclasses of the harness *)
Definition fixed_props_ok (t : list pdesc) : bool :=
  forallb (fun pid => existsb (fun p => (p_id p =? pid) && negb (p_mut p)) t) [75; 77; 79; 371].

Theorem all_tables_ok : forallb table_ok all_tables = true.
Proof. vm_compute. reflexivity. Qed.

(* removelast drops T_localdev, which translator/gen_objtables.py appends to all_tables after the object classes *)
Theorem object_tables_fixed_props : forallb fixed_props_ok (removelast all_tables) = true.
Proof. vm_compute. reflexivity. Qed.

Lemma mem_z_In : forall x l, mem_z x l = true <-> In x l.
Proof.
  intros x l. induction l as [| y r IH]; cbn; [split; [discriminate | tauto] |].
  rewrite Bool.orb_true_iff, IH, Z.eqb_eq. split; intros [H | H]; auto.
Qed.
Lemma nodup_z_NoDup : forall l, nodup_z l = true -> NoDup l.
Proof.
  induction l as [| x r IH]; intros H; [constructor |]. cbn in H. apply andb_prop in H. destruct H as [H1 H2].
  constructor; [| apply IH; exact H2]. intro Hin. apply mem_z_In in Hin. rewrite Hin in H1. discriminate.
Qed.

Theorem all_tables_wf : forall t, In t all_tables ->
  NoDup (map p_id t) /\ forall p, In p t -> pdesc_ok p = true.
Proof.
  intros t Hin. pose proof all_tables_ok as H. rewrite forallb_forall in H. specialize (H t Hin).
  unfold table_ok in H. apply andb_prop in H. destruct H as [H1 H2].
  split; [apply nodup_z_NoDup; exact H1 | rewrite forallb_forall in H2; exact H2].
Qed.
