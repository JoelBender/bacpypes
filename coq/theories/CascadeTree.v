(* CascadeTree.v — the FIFO cascade of IpNet.v visits exactly the datagrams of the delivery
   forest, whatever the queue order, as long as no node changes state (generic: any world).
   tree / good / tsize are proof devices; the statement proved is cascade_is_forest. *)
From Coq Require Import Permutation Lia.
From Bac Require Import Base Bip IpNet.
Open Scope nat_scope.

(* the observations below one datagram, to depth n *)
Fixpoint tree (n : nat) (w : world) (g : dgram) : list obs :=
  match n with
  | O => []
  | S k => match deliver w g 0 (w_nodes w) with
           | Ok y => OFrame g :: snd y ++ flat_map (tree k w) (routed w g ++ snd (fst y))
           | Err _ => []
           end
  end.

(* the forest below g is complete within depth n and leaves every node as it was *)
Fixpoint good (n : nat) (w : world) (g : dgram) : Prop :=
  match n with
  | O => False
  | S k => exists ds os, deliver w g 0 (w_nodes w) = Ok (w_nodes w, ds, os) /\
                         Forall (good k w) (routed w g ++ ds)
  end.

Fixpoint tsize (n : nat) (w : world) (g : dgram) : nat :=
  match n with
  | O => 0
  | S k => match deliver w g 0 (w_nodes w) with
           | Ok y => S (list_sum (map (tsize k w) (routed w g ++ snd (fst y))))
           | Err _ => 0
           end
  end.

Lemma tree_S : forall k w g, tree (S k) w g =
  match deliver w g 0 (w_nodes w) with
  | Ok y => OFrame g :: snd y ++ flat_map (tree k w) (routed w g ++ snd (fst y))
  | Err _ => []
  end.
Proof. reflexivity. Qed.
Lemma tsize_S : forall k w g, tsize (S k) w g =
  match deliver w g 0 (w_nodes w) with
  | Ok y => S (list_sum (map (tsize k w) (routed w g ++ snd (fst y))))
  | Err _ => 0
  end.
Proof. reflexivity. Qed.

Lemma stable_all : forall k w l,
  (forall g, good k w g -> good (S k) w g /\ tree (S k) w g = tree k w g /\ tsize (S k) w g = tsize k w g) ->
  Forall (good k w) l ->
  Forall (good (S k) w) l /\ flat_map (tree (S k) w) l = flat_map (tree k w) l /\
  list_sum (map (tsize (S k) w) l) = list_sum (map (tsize k w) l).
Proof.
  intros k w l H. induction 1 as [|g l Hg _ [IG [IT IS]]]; [repeat split; constructor|].
  destruct (H g Hg) as [G [T Z]]. cbn [flat_map map list_sum fold_right]. fold (list_sum (map (tsize (S k) w) l)).
  fold (list_sum (map (tsize k w) l)). rewrite T, Z, IT, IS. repeat split. constructor; assumption.
Qed.

Lemma good_stable : forall n w g, good n w g ->
  good (S n) w g /\ tree (S n) w g = tree n w g /\ tsize (S n) w g = tsize n w g.
Proof.
  induction n as [|k IH]; intros w g H; [destruct H|].
  destruct H as [ds [os [D F]]]. destruct (stable_all k w _ (IH w) F) as [G [T Z]].
  split; [|split].
  - exists ds, os. split; [exact D | exact G].
  - rewrite (tree_S (S k)), (tree_S k), D. cbn [fst snd]. rewrite T. reflexivity.
  - rewrite (tsize_S (S k)), (tsize_S k), D. cbn [fst snd]. rewrite Z. reflexivity.
Qed.

Lemma good_mono : forall m n w g, good n w g -> good (m + n) w g /\ tree (m + n) w g = tree n w g.
Proof.
  induction m as [|m IH]; intros n w g H; [auto|]. destruct (IH n w g H) as [G T].
  destruct (good_stable (m + n) w g G) as [G' [T' _]]. cbn [plus]. split; [exact G'|]. rewrite T'. exact T.
Qed.
Lemma good_le : forall n k w g, n <= k -> good n w g -> good k w g /\ tree k w g = tree n w g.
Proof. intros n k w g L H. replace k with ((k - n) + n) by lia. apply good_mono. exact H. Qed.

Lemma world_eta : forall w, mkWorld (w_lans w) (w_nodes w) (w_now w) = w.
Proof. intros []. reflexivity. Qed.

Theorem cascade_is_forest : forall n w fuel q log,
  Forall (good n w) q -> list_sum (map (tsize n w) q) < fuel ->
  exists log', cascade fuel w q log = Ok (w, log') /\ Permutation log' (log ++ flat_map (tree n w) q).
Proof.
  intros n w. induction fuel as [|f IH]; intros q log G L; [lia|].
  destruct q as [|g q]; cbn [cascade].
  - exists log. split; [reflexivity|]. cbn [flat_map]. rewrite app_nil_r. apply Permutation_refl.
  - inversion G as [|? ? Gg Gq]; subst. destruct n as [|k]; [destruct Gg|].
    pose proof Gg as Gg'. destruct Gg' as [ds [os [D F]]].
    rewrite D. cbn [bind fst snd]. rewrite world_eta.
    destruct (stable_all k w _ (good_stable k w) F) as [G' [ET ES]].
    destruct (IH (q ++ routed w g ++ ds) (log ++ OFrame g :: os)) as [log' [C P]].
    + apply Forall_app. split; [exact Gq | exact G'].
    + change (list_sum (map (tsize (S k) w) (g :: q))) with (tsize (S k) w g + list_sum (map (tsize (S k) w) q)) in L.
      rewrite map_app, list_sum_app, ES.
      rewrite tsize_S in L.
      rewrite D in L. cbn [fst snd] in L. lia.
    + exists log'. split; [exact C|]. eapply Permutation_trans; [exact P|].
      rewrite flat_map_app, ET. cbn [flat_map].
      rewrite tree_S.
      rewrite D. cbn [fst snd].
      rewrite <- (app_assoc log). apply Permutation_app_head. cbn [app]. apply perm_skip.
      rewrite <- (app_assoc os). apply Permutation_app_head. apply Permutation_app_comm.
Qed.
