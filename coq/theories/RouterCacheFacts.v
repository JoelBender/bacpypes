(* RouterCacheFacts.v — lemmas about the model RouterCache.v (property C19).  The invariant Coherent is read as
   an equation between booleans, cred = leads (cred_path), and every operation is shown to keep it by rewriting
   both sides with it; update_source_network with something filed also needs unique keys (RouterCacheRenum.v).
   props/C19.v says get_router_info where the lemmas say pget, the name under which the model's own functions
   (others_of, route_in, dump) look a path up. *)
From Bac Require Import Base RouterCache.
Open Scope Z_scope.

Lemma get_router_info_pget : forall s sn d, get_router_info s sn d = pget s sn d.
Proof. reflexivity. Qed.

Section AssocFacts.
  Context {K V : Type} (eqb : K -> K -> bool).
  Context (eqb_spec : forall a b, eqb a b = true <-> a = b).

  Lemma eqb_refl' : forall a, eqb a a = true.
  Proof. intros a. apply eqb_spec. reflexivity. Qed.

  Lemma existsb_eqb_spec : forall x (l : list K), existsb (eqb x) l = true <-> In x l.
  Proof.
    intros. rewrite existsb_exists. split.
    - intros [y [Hy He]]. apply eqb_spec in He. subst. exact Hy.
    - intros H. exists x. split; [exact H | apply eqb_refl'].
  Qed.

  Lemma aget_afilter : forall (f : K -> bool) k (l : list (K * V)),
    aget eqb k (afilter f l) = if f k then aget eqb k l else None.
  Proof.
    intros f k l. unfold afilter. induction l as [|[k0 v0] l IH]; cbn [filter fst aget].
    - destruct (f k); reflexivity.
    - destruct (f k0) eqn:Hf0; cbn [aget]; rewrite IH; destruct (eqb k k0) eqn:Hk; try reflexivity;
        apply eqb_spec in Hk; subst k0; rewrite Hf0; reflexivity.
  Qed.

  Lemma aget_adel : forall k k' (l : list (K * V)),
    aget eqb k (adel eqb k' l) = if eqb k k' then None else aget eqb k l.
  Proof.
    intros. unfold adel. rewrite aget_afilter. destruct (eqb k k'); reflexivity.
  Qed.

  Lemma aget_aset : forall k k' v (l : list (K * V)),
    aget eqb k (aset eqb k' v l) = if eqb k k' then Some v else aget eqb k l.
  Proof.
    intros. unfold aset. cbn [aget]. destruct (eqb k k') eqn:Hk; [reflexivity|].
    rewrite aget_adel, Hk. reflexivity.
  Qed.

  (* displace deletes a record or files what is left of it: both are one put of an optional value *)
  Definition aput (k : K) (o : option V) (l : list (K * V)) : list (K * V) :=
    match o with Some v => aset eqb k v l | None => adel eqb k l end.

  Lemma aget_aput : forall k k' o (l : list (K * V)),
    aget eqb k (aput k' o l) = if eqb k k' then o else aget eqb k l.
  Proof. intros k k' [v|] l; [apply aget_aset|apply aget_adel]. Qed.

  Lemma aget_app : forall k (l1 l2 : list (K * V)),
    aget eqb k (l1 ++ l2) = match aget eqb k l1 with Some v => Some v | None => aget eqb k l2 end.
  Proof.
    intros k l1 l2. induction l1 as [|[k0 v0] l1 IH]; [reflexivity|].
    cbn [app aget]. destruct (eqb k k0); [reflexivity|exact IH].
  Qed.

  Lemma aget_fold_aset : forall {D} (c : D -> bool) (g : D -> K) v ds k (l : list (K * V)),
    aget eqb k (fold_left (fun l d => if c d then l else aset eqb (g d) v l) ds l)
    = if existsb (fun d => negb (c d) && eqb k (g d)) ds then Some v else aget eqb k l.
  Proof.
    intros D c g v ds k. induction ds as [|d ds IH]; intros l.
    - reflexivity.
    - cbn [fold_left existsb]. rewrite IH. destruct (c d) eqn:Hc; cbn [negb andb orb].
      + reflexivity.
      + rewrite aget_aset. destruct (eqb k (g d)); cbn [orb]; [|reflexivity].
        destruct (existsb _ ds); reflexivity.
  Qed.

  Lemma amem_spec : forall k (l : list (K * V)), amem eqb k l = true <-> exists v, aget eqb k l = Some v.
  Proof.
    intros. unfold amem. destruct (aget eqb k l) as [v|]; split.
    - intros _. exists v. reflexivity.
    - reflexivity.
    - discriminate.
    - intros [v H]. discriminate.
  Qed.

  Lemma aget_in : forall k v (l : list (K * V)), aget eqb k l = Some v -> In (k, v) l.
  Proof.
    intros k v l. induction l as [|[k0 v0] l IH]; cbn; [discriminate|].
    destruct (eqb k k0) eqn:Hk.
    - intros [= ->]. apply eqb_spec in Hk. subst. auto.
    - auto.
  Qed.

  Lemma in_amem : forall k v (l : list (K * V)), In (k, v) l -> amem eqb k l = true.
  Proof.
    intros k v l. unfold amem. induction l as [|[k0 v0] l IH]; intros Hin; [contradiction|].
    cbn [aget]. destruct (eqb k k0) eqn:E; [reflexivity|].
    destruct Hin as [[= -> ->]|Hin]; [rewrite eqb_refl' in E; discriminate|exact (IH Hin)].
  Qed.

  Lemma afilter_nil : forall (f : K -> bool) (l : list (K * V)),
    (forall k v, In (k, v) l -> f k = false) -> afilter f l = [].
  Proof.
    intros f l. unfold afilter. induction l as [|[k v] l IH]; intros H; [reflexivity|].
    cbn [filter fst]. rewrite (H k v (or_introl eq_refl)).
    apply IH. intros k' v' Hin. apply (H k' v'). right. exact Hin.
  Qed.
End AssocFacts.

Lemma keq_spec : forall a b, keq a b = true <-> a = b.
Proof.
  intros [a1 a2] [b1 b2]. unfold keq. cbn [fst snd]. rewrite andb_true_iff, !Z.eqb_eq.
  split; [intros [-> ->]; reflexivity | intros [= -> ->]; auto].
Qed.

Lemma keq_pair : forall a b c d, keq (a, b) (c, d) = (a =? c) && (b =? d).
Proof. reflexivity. Qed.

Lemma pair_neq_keq : forall a b c d, (a, b) <> (c, d) -> keq (a, b) (c, d) = false.
Proof.
  intros. destruct (keq (a, b) (c, d)) eqn:E; [|reflexivity].
  apply keq_spec in E. contradiction.
Qed.

Lemma zmem_spec : forall x l, zmem x l = true <-> In x l.
Proof. exact (existsb_eqb_spec Z.eqb Z.eqb_eq). Qed.

Lemma kmem_spec : forall k l, kmem k l = true <-> In k l.
Proof. exact (existsb_eqb_spec keq keq_spec). Qed.

Definition zeqb_spec := Z.eqb_eq.

Lemma amem_map_fst : forall d (l : list (Z * Z)), zmem d (map fst l) = amem Z.eqb d l.
Proof.
  intros d l. induction l as [|[k v] l IH]; [reflexivity|].
  unfold amem in *. cbn [map fst zmem existsb aget]. fold (zmem d (map fst l)). rewrite IH.
  destruct (d =? k); reflexivity.
Qed.

Lemma rget_in : forall s sn a ri, rget s sn a = Some ri -> In ((sn, a), ri) (routers s).
Proof. intros s sn a ri. apply (aget_in keq keq_spec). Qed.

Lemma pget_in : forall s sn d a, pget s sn d = Some a -> In ((sn, d), a) (paths s).
Proof. intros s sn d a. apply (aget_in keq keq_spec). Qed.

Lemma has_dnet_in : forall ri d, has_dnet ri d = true <-> exists v, In (d, v) (dnets ri).
Proof.
  intros ri d. unfold has_dnet. split.
  - intros H. apply (amem_spec Z.eqb) in H. destruct H as [v Hv]. exists v. apply (aget_in Z.eqb Z.eqb_eq). exact Hv.
  - intros [v Hin]. apply (in_amem Z.eqb Z.eqb_eq d v). exact Hin.
Qed.

Lemma rget_put : forall s n p sn a o sn0 a0,
  rget (mkC n (aput keq (sn, a) o (routers s)) p) sn0 a0 = if keq (sn0, a0) (sn, a) then o else rget s sn0 a0.
Proof. intros. unfold rget. cbn [routers]. apply (aget_aput keq keq_spec). Qed.

Definition credited (s : cache) (sn a d : Z) : Prop :=
  exists ri, rget s sn a = Some ri /\ has_dnet ri d = true.

Definition Coherent (s : cache) : Prop :=
  (forall sn d a, pget s sn d = Some a <-> credited s sn a d)
  /\ (forall sn a ri, rget s sn a = Some ri -> zmem sn (nets s) = true).

Definition cred (s : cache) (sn a d : Z) : bool :=
  match rget s sn a with Some ri => has_dnet ri d | None => false end.

Definition leads (s : cache) (sn d a : Z) : bool :=
  match pget s sn d with Some x => x =? a | None => false end.

(* x is the router left out: syntactically the test inside others_of *)
Definition excluded (excl : option Z) (x : Z) : bool := match excl with Some a => x =? a | None => false end.

Lemma credited_cred : forall s sn a d, credited s sn a d <-> cred s sn a d = true.
Proof.
  intros. unfold credited, cred. destruct (rget s sn a) as [ri|]; split.
  - intros [ri' [[= <-] H]]. exact H.
  - intros H. exists ri. auto.
  - intros [ri' [H _]]. discriminate.
  - discriminate.
Qed.

Lemma cred_known : forall s sn a ri d, rget s sn a = Some ri -> cred s sn a d = has_dnet ri d.
Proof. intros s sn a ri d H. unfold cred. rewrite H. reflexivity. Qed.

Lemma leads_iff : forall s sn d a, leads s sn d a = true <-> pget s sn d = Some a.
Proof.
  intros. unfold leads. destruct (pget s sn d) as [x|]; [|split; discriminate].
  rewrite Z.eqb_eq. split; [intros ->|intros [= ->]]; reflexivity.
Qed.

Lemma cred_path : forall s sn a d, Coherent s -> cred s sn a d = leads s sn d a.
Proof.
  intros s sn a d [Hc _]. apply eq_true_iff_eq. rewrite <- credited_cred, leads_iff. symmetry. apply Hc.
Qed.

Lemma coherent_intro : forall s,
  (forall sn a d, cred s sn a d = leads s sn d a) ->
  (forall sn a ri, rget s sn a = Some ri -> zmem sn (nets s) = true) -> Coherent s.
Proof.
  intros s H Hn. split; [|exact Hn]. intros sn d a. rewrite credited_cred, H. symmetry. apply leads_iff.
Qed.

Lemma coherent_empty : Coherent empty.
Proof. apply coherent_intro; [reflexivity|discriminate]. Qed.

Lemma coherent_put : forall s n p sn a o, Coherent s ->
  zmem sn n = true -> (forall x, zmem x (nets s) = true -> zmem x n = true) ->
  let s' := mkC n (aput keq (sn, a) o (routers s)) p in
  (forall sn0 a0 d,
     (if keq (sn0, a0) (sn, a) then match o with Some ri => has_dnet ri d | None => false end else cred s sn0 a0 d)
     = leads s' sn0 d a0) ->
  Coherent s'.
Proof.
  intros s n p sn a o Hcoh Hsn Hm s' H. apply coherent_intro.
  - intros sn0 a0 d. rewrite <- H. unfold cred, s'. rewrite rget_put. destruct (keq (sn0, a0) (sn, a)); reflexivity.
  - intros sn0 a0 ri. unfold s'. rewrite rget_put. cbn [nets]. destruct (keq (sn0, a0) (sn, a)) eqn:E.
    + apply keq_spec in E. injection E as -> ->. intros _. exact Hsn.
    + intros Hr. apply Hm, (proj2 Hcoh _ _ _ Hr).
Qed.

Lemma has_dnet_filter : forall f l st d,
  has_dnet (mkR (afilter f l) st) d = f d && has_dnet (mkR l st) d.
Proof.
  intros. unfold has_dnet, amem. cbn [dnets]. rewrite (aget_afilter Z.eqb Z.eqb_eq).
  destruct (f d); reflexivity.
Qed.

Lemma displace_ok : forall s sn ds a' ri, Coherent s -> rget s sn a' = Some ri ->
  exists s', displace sn ds s a' = Ok s' /\ Coherent s' /\ nets s' = nets s /\
    (forall sn0 d0, pget s' sn0 d0 =
       if (sn0 =? sn) && zmem d0 ds && leads s sn0 d0 a' then None else pget s sn0 d0) /\
    (forall sn0 a0, (sn0, a0) <> (sn, a') -> rget s' sn0 a0 = rget s sn0 a0) /\
    ((forall d, has_dnet ri d = true -> zmem d ds = true) -> rget s' sn a' = None).
Proof.
  intros s sn ds a' ri Hcoh Hr. pose proof (fun d => cred_known s sn a' ri d Hr) as Hk.
  unfold displace. rewrite Hr.
  assert (Hchk : forallb (fun d => implb (has_dnet ri d) (amem keq (sn, d) (paths s))) ds = true).
  { apply forallb_forall. intros d _. rewrite <- Hk, (cred_path s sn a' d Hcoh). unfold leads, amem, pget.
    destruct (aget keq (sn, d) (paths s)) as [x|]; [destruct (x =? a')|]; reflexivity. }
  rewrite Hchk. cbn [negb].
  set (dn' := afilter (fun d => negb (zmem d ds)) (dnets ri)).
  set (p' := afilter _ (paths s)).
  set (o' := match dn' with [] => None | _ => Some (mkR dn' (rstatus ri)) end).
  replace (match dn' with [] => adel keq (sn, a') (routers s) | _ => aset keq (sn, a') (mkR dn' (rstatus ri)) (routers s) end)
    with (aput keq (sn, a') o' (routers s)) by (unfold o'; destruct dn'; reflexivity).
  set (s' := mkC _ _ p'). exists s'. split; [reflexivity|].
  assert (Hp' : forall sn0 d0, pget s' sn0 d0 =
       if (sn0 =? sn) && zmem d0 ds && leads s sn0 d0 a' then None else pget s sn0 d0).
  { intros sn0 d0. unfold pget at 1. cbn [s' paths]. unfold p'.
    rewrite (aget_afilter keq keq_spec), <- (cred_path s sn0 a' d0 Hcoh). cbn [fst snd].
    fold (pget s sn0 d0). destruct (sn0 =? sn) eqn:Esn; [apply Z.eqb_eq in Esn; subst sn0; rewrite Hk|]; cbn [andb negb];
      [destruct (_ && _)|]; reflexivity. }
  split; [|split; [reflexivity|split; [exact Hp'|split]]].
  - apply (coherent_put s (nets s) p' sn a' o' Hcoh); [apply (proj2 Hcoh _ _ _ Hr)|auto|].
    intros sn0 a0 d. fold s'.
    replace (match o' with Some r => has_dnet r d | None => false end) with (negb (zmem d ds) && cred s sn a' d).
    2:{ rewrite Hk. transitivity (has_dnet (mkR dn' (rstatus ri)) d); [|unfold o'; destruct dn'; reflexivity].
        unfold dn'. rewrite has_dnet_filter. destruct ri; reflexivity. }
    unfold leads. rewrite Hp', keq_pair, !(cred_path s) by exact Hcoh. unfold leads.
    destruct (sn0 =? sn) eqn:Esn; cbn [andb]; [apply Z.eqb_eq in Esn; subst sn0|reflexivity].
    destruct (pget s sn d) as [x|]; [|destruct (a0 =? a'), (zmem d ds); reflexivity].
    destruct (zmem d ds); cbn [andb negb]; [|destruct (a0 =? a') eqn:Ea; [apply Z.eqb_eq in Ea; subst a0|]; reflexivity].
    (* a listed destination: it stays with whoever else had it *)
    destruct (x =? a') eqn:Ex.
    + apply Z.eqb_eq in Ex. subst x. rewrite (Z.eqb_sym a' a0). destruct (a0 =? a'); reflexivity.
    + destruct (a0 =? a') eqn:Ea; [apply Z.eqb_eq in Ea; subst a0; rewrite Ex|]; reflexivity.
  - intros sn0 a0 Hne. unfold s'. rewrite rget_put, pair_neq_keq by exact Hne. reflexivity.
  - intros Hall. unfold s'. rewrite rget_put, (eqb_refl' keq keq_spec). unfold o'.
    replace dn' with (@nil (Z * Z)); [reflexivity|]. symmetry. apply afilter_nil. intros k v Hin.
    rewrite (Hall k (proj2 (has_dnet_in ri k) (ex_intro _ v Hin))). reflexivity.
Qed.

Lemma displace_fold : forall sn ds others s, Coherent s -> NoDup others ->
  (forall a', In a' others -> exists ri, rget s sn a' = Some ri) ->
  exists s', foldM (displace sn ds) others s = Ok s' /\ Coherent s' /\ nets s' = nets s /\
    (forall sn0 d0, pget s' sn0 d0 =
       if (sn0 =? sn) && zmem d0 ds && match pget s sn0 d0 with Some a => zmem a others | None => false end
       then None else pget s sn0 d0) /\
    (forall sn0 a0, ~ (sn0 = sn /\ In a0 others) -> rget s' sn0 a0 = rget s sn0 a0).
Proof.
  intros sn ds others. induction others as [|a' r IH]; intros s Hcoh Hnd Hex.
  - exists s. cbn [foldM]. split; [reflexivity|]. split; [exact Hcoh|]. split; [reflexivity|]. split.
    + intros sn0 d0. destruct (pget s sn0 d0); cbn [zmem existsb]; rewrite andb_false_r; reflexivity.
    + reflexivity.
  - destruct (Hex a' (or_introl eq_refl)) as [ri Hr].
    destruct (displace_ok s sn ds a' ri Hcoh Hr) as [s1 [H1 [Hc1 [Hn1 [Hp1 [Hf1 _]]]]]].
    inversion Hnd as [|x l Hnotin Hnd']; subst.
    destruct (IH s1 Hc1 Hnd') as [s2 [H2 [Hc2 [Hn2 [Hp2 Hf2]]]]].
    { intros a'' Hin. destruct (Hex a'' (or_intror Hin)) as [ri'' Hr''].
      exists ri''. rewrite Hf1; [exact Hr''|]. intros [= ->]. contradiction. }
    exists s2. cbn [foldM]. rewrite H1. cbn [bind]. split; [exact H2|]. split; [exact Hc2|].
    split; [congruence|]. split.
    + intros sn0 d0. rewrite Hp2, Hp1. unfold leads.
      destruct (sn0 =? sn); cbn [andb]; [|reflexivity].
      destruct (zmem d0 ds); cbn [andb]; [|reflexivity].
      destruct (pget s sn0 d0) as [x|]; [|reflexivity].
      cbn [zmem existsb]. destruct (x =? a'); cbn [orb]; [reflexivity|].
      fold (zmem x r). destruct (zmem x r); reflexivity.
    + intros sn0 a0 Hno. rewrite Hf2.
      * apply Hf1. intros [= -> ->]. apply Hno. split; [reflexivity|left; reflexivity].
      * intros [-> Hin]. apply Hno. split; [reflexivity|right; exact Hin].
Qed.

Lemma others_of_spec : forall s sn excl ds a',
  In a' (others_of s sn excl ds) <-> exists d, In d ds /\ pget s sn d = Some a' /\ excluded excl a' = false.
Proof.
  intros s sn excl ds a'. unfold others_of. rewrite nodup_In, in_flat_map.
  split; intros [d [Hd H]]; exists d; (split; [exact Hd|]).
  - destruct (pget s sn d) as [x|]; [|contradiction]. fold (excluded excl x) in H.
    destruct (excluded excl x) eqn:E; [contradiction|]. destruct H as [->|[]]. auto.
  - destruct H as [-> H]. fold (excluded excl a'). rewrite H. left; reflexivity.
Qed.

Lemma displace_others : forall s sn excl ds, Coherent s ->
  exists s', foldM (displace sn ds) (others_of s sn excl ds) s = Ok s' /\ Coherent s' /\ nets s' = nets s /\
    (forall sn0 d0, pget s' sn0 d0 =
       if (sn0 =? sn) && zmem d0 ds
       then match pget s sn d0 with Some x => if excluded excl x then Some x else None | None => None end
       else pget s sn0 d0) /\
    (forall a0, excluded excl a0 = true \/ rget s sn a0 = None -> rget s' sn a0 = rget s sn a0).
Proof.
  intros s sn excl ds Hcoh.
  destruct (displace_fold sn ds (others_of s sn excl ds) s Hcoh (NoDup_nodup _ _)) as [s' [H1 [Hc1 [Hn1 [Hp1 Hf1]]]]].
  { intros a' Hin. apply others_of_spec in Hin. destruct Hin as [d [_ [Hp _]]].
    apply (proj1 Hcoh) in Hp. destruct Hp as [ri [Hr _]]. eauto. }
  exists s'. split; [exact H1|]. split; [exact Hc1|]. split; [exact Hn1|]. split.
  - intros sn0 d0. rewrite Hp1. destruct (sn0 =? sn) eqn:Esn; cbn [andb]; [apply Z.eqb_eq in Esn; subst sn0|reflexivity].
    destruct (zmem d0 ds) eqn:Ed; cbn [andb]; [|reflexivity]. destruct (pget s sn d0) as [x|] eqn:Hp; [|reflexivity].
    destruct (excluded excl x) eqn:E.
    + destruct (zmem x _) eqn:Ez; [|reflexivity]. apply zmem_spec, others_of_spec in Ez.
      destruct Ez as [_ [_ [_ Ez]]]. congruence.
    + replace (zmem x _) with true; [reflexivity|]. symmetry. apply zmem_spec, others_of_spec.
      exists d0. rewrite <- zmem_spec. auto.
  - intros a0 Ha. apply Hf1. intros [_ Hin]. apply others_of_spec in Hin. destruct Hin as [d [_ [Hp He]]].
    destruct Ha as [Ha|Ha]; [congruence|]. apply leads_iff in Hp. rewrite <- (cred_path s sn a0 d Hcoh) in Hp.
    unfold cred in Hp. rewrite Ha in Hp. discriminate.
Qed.

Lemma forget_router : forall s sn a dso, Coherent s -> (dso = None \/ dso = Some []) ->
  exists s', delete_router_info s sn (Some a) dso = Ok s' /\ Coherent s' /\
    (forall sn0 d0, pget s' sn0 d0 =
       match pget s sn0 d0 with
       | Some x => if (sn0 =? sn) && (x =? a) then None else Some x
       | None => None
       end) /\
    rget s' sn a = None /\
    (forall sn0 a0, (sn0, a0) <> (sn, a) -> rget s' sn0 a0 = rget s sn0 a0).
Proof.
  intros s sn a dso Hcoh Hdso. unfold delete_router_info.
  (* with and without a record the look-ups afterwards are displace_ok's equation with some b for zmem d0 ds;
     that is the claim as soon as, on network sn, b is what the router is credited with *)
  assert (Hsplit : forall b sn0 d0, (sn0 = sn -> b = cred s sn a d0) ->
    (if (sn0 =? sn) && b && leads s sn0 d0 a then None else pget s sn0 d0)
    = match pget s sn0 d0 with Some x => if (sn0 =? sn) && (x =? a) then None else Some x | None => None end).
  { intros b sn0 d0 Hb. destruct (sn0 =? sn) eqn:Esn; cbn [andb]; [|destruct (pget s sn0 d0); reflexivity].
    apply Z.eqb_eq in Esn. subst sn0. rewrite (Hb eq_refl), (cred_path s sn a d0 Hcoh). unfold leads.
    destruct (pget s sn d0) as [x|]; [destruct (x =? a)|]; reflexivity. }
  destruct (rget s sn a) as [ri|] eqn:Hr.
  - set (ds := match dso with Some (d :: r) => d :: r | _ => map fst (dnets ri) end).
    assert (Eds : forall d, zmem d ds = has_dnet ri d) by (intros d; unfold ds; destruct Hdso as [->| ->]; apply amem_map_fst).
    destruct (displace_ok s sn ds a ri Hcoh Hr) as [s' [H1 [Hc1 [_ [Hp1 [Hf1 Hd1]]]]]].
    exists s'. split; [exact H1|]. split; [exact Hc1|]. split; [|split; [|exact Hf1]].
    + intros sn0 d0. rewrite Hp1. apply Hsplit. intros _. rewrite Eds. symmetry. apply cred_known. exact Hr.
    + apply Hd1. intros d Hd. rewrite Eds. exact Hd.
  - exists s. split; [reflexivity|]. split; [exact Hcoh|]. split; [|split; [exact Hr|reflexivity]].
    intros sn0 d0. rewrite <- (Hsplit false sn0 d0); [rewrite andb_false_r; reflexivity|].
    intros _. unfold cred. rewrite Hr. reflexivity.
Qed.

Lemma forget_router_dnets : forall s sn a d r, Coherent s ->
  exists s', delete_router_info s sn (Some a) (Some (d :: r)) = Ok s' /\ Coherent s' /\
    (forall sn0 d0, pget s' sn0 d0 =
       if (sn0 =? sn) && zmem d0 (d :: r) && leads s sn0 d0 a then None else pget s sn0 d0) /\
    (forall sn0 a0, (sn0, a0) <> (sn, a) -> rget s' sn0 a0 = rget s sn0 a0).
Proof.
  intros s sn a d r Hcoh. unfold delete_router_info.
  destruct (rget s sn a) as [ri|] eqn:Hr.
  - destruct (displace_ok s sn (d :: r) a ri Hcoh Hr) as [s' [H1 [Hc1 [_ [Hp1 [Hf1 _]]]]]].
    exists s'. auto.
  - exists s. split; [reflexivity|]. split; [exact Hcoh|]. split; [|reflexivity].
    (* no record, so no path leads there *)
    intros sn0 d0. rewrite <- (cred_path s sn0 a d0 Hcoh). destruct (sn0 =? sn) eqn:Esn; [|reflexivity].
    apply Z.eqb_eq in Esn. subst sn0. unfold cred. rewrite Hr, andb_false_r. reflexivity.
Qed.

Lemma forget_dnets : forall s sn ds, Coherent s ->
  exists s', delete_router_info s sn None (Some ds) = Ok s' /\ Coherent s' /\
    (forall sn0 d0, pget s' sn0 d0 = if (sn0 =? sn) && zmem d0 ds then None else pget s sn0 d0).
Proof.
  intros s sn ds Hcoh. unfold delete_router_info.
  destruct (displace_others s sn None ds Hcoh) as [s' [H1 [Hc1 [_ [Hp1 _]]]]].
  exists s'. split; [exact H1|]. split; [exact Hc1|].
  intros sn0 d0. rewrite Hp1. destruct (_ && _); [destruct (pget s sn d0)|]; reflexivity.
Qed.

Lemma aget_set_all : forall ds st l d,
  aget Z.eqb d (set_all ds st l) = if zmem d ds then Some st else aget Z.eqb d l.
Proof. intros. exact (aget_fold_aset Z.eqb Z.eqb_eq (fun _ => false) (fun x => x) st ds d l). Qed.

Lemma has_dnet_set_all : forall ds st l o d,
  has_dnet (mkR (set_all ds st l) o) d = zmem d ds || amem Z.eqb d l.
Proof.
  intros. unfold has_dnet, amem. cbn [dnets]. rewrite aget_set_all.
  destruct (zmem d ds); reflexivity.
Qed.

Lemma pget_add_all : forall (c : Z -> bool) sn a ds sn0 d0 (l : list ((Z * Z) * Z)),
  aget keq (sn0, d0) (fold_left (fun l d => if c d then l else aset keq (sn, d) a l) ds l)
  = if (sn0 =? sn) && zmem d0 ds && negb (c d0) then Some a else aget keq (sn0, d0) l.
Proof.
  intros c sn a ds sn0 d0 l. rewrite (aget_fold_aset keq keq_spec).
  assert (E : existsb (fun d => negb (c d) && keq (sn0, d0) (sn, d)) ds = (sn0 =? sn) && zmem d0 ds && negb (c d0)).
  { induction ds as [|d ds IH]; [rewrite andb_false_r; reflexivity|].
    cbn [existsb zmem]. fold (zmem d0 ds). rewrite IH, keq_pair.
    destruct (sn0 =? sn); cbn [andb]; [|rewrite andb_false_r; reflexivity].
    destruct (d0 =? d) eqn:Ed; [|rewrite andb_false_r; reflexivity].
    apply Z.eqb_eq in Ed. subst d. destruct (c d0); destruct (zmem d0 ds); reflexivity. }
  rewrite E. reflexivity.
Qed.

(* e: the record of the announcing router, empty for a router not known before; s1: the cache after the others
   were displaced *)
Lemma install_ok : forall s1 sn a ds st e o n',
  Coherent s1 -> (forall d, cred s1 sn a d = has_dnet e d) ->
  (forall d x, zmem d ds = true -> pget s1 sn d = Some x -> x = a) ->
  zmem sn n' = true -> (forall x, zmem x (nets s1) = true -> zmem x n' = true) ->
  let s' := mkC n' (aset keq (sn, a) (mkR (set_all ds st (dnets e)) o) (routers s1))
                (fold_left (fun l d => if has_dnet e d then l else aset keq (sn, d) a l) ds (paths s1)) in
  Coherent s' /\ forall sn0 d0, pget s' sn0 d0 = if (sn0 =? sn) && zmem d0 ds then Some a else pget s1 sn0 d0.
Proof.
  intros s1 sn a ds st e o n' Hcoh Hbase Hexcl Hsn Hmono s'.
  assert (Hp2 : forall sn0 d0, pget s' sn0 d0 = if (sn0 =? sn) && zmem d0 ds then Some a else pget s1 sn0 d0).
  { intros sn0 d0. unfold pget at 1. cbn [s' paths]. rewrite pget_add_all. fold (pget s1 sn0 d0).
    destruct (sn0 =? sn) eqn:Esn; cbn [andb]; [apply Z.eqb_eq in Esn; subst sn0|reflexivity].
    destruct (zmem d0 ds); cbn [andb]; [|reflexivity].
    rewrite <- Hbase, (cred_path s1 sn a d0 Hcoh). unfold leads. destruct (pget s1 sn d0) as [x|]; [|reflexivity].
    destruct (x =? a) eqn:E; [apply Z.eqb_eq in E; subst x|]; reflexivity. }
  split; [|exact Hp2].
  apply (coherent_put s1 n' (paths s') sn a (Some _) Hcoh Hsn Hmono). intros sn0 a0 d. fold s'.
  unfold leads. rewrite Hp2, keq_pair, has_dnet_set_all. fold (has_dnet e d).
  rewrite <- (Hbase d), !(cred_path s1) by exact Hcoh. unfold leads.
  destruct (sn0 =? sn) eqn:Esn; cbn [andb]; [apply Z.eqb_eq in Esn; subst sn0|reflexivity].
  destruct (zmem d ds) eqn:Ed; cbn [orb].
  - (* an announced destination: the announcing router and no other *)
    rewrite (Z.eqb_sym a a0). destruct (a0 =? a) eqn:Ea; [reflexivity|].
    destruct (pget s1 sn d) as [x|] eqn:Hp; [|reflexivity]. rewrite (Hexcl d x Ed Hp), Z.eqb_sym. exact Ea.
  - destruct (a0 =? a) eqn:Ea; [apply Z.eqb_eq in Ea; subst a0|]; reflexivity.
Qed.

Lemma update_ok : forall s sn a ds st, Coherent s ->
  exists s', update_router_info s sn a ds st = Ok s' /\ Coherent s' /\
    (forall sn0 d0, pget s' sn0 d0 = if (sn0 =? sn) && zmem d0 ds then Some a else pget s sn0 d0).
Proof.
  intros s sn a ds st Hcoh. unfold update_router_info.
  set (excl := match rget s sn a with Some _ => Some a | None => None end).
  destruct (displace_others s sn excl ds Hcoh) as [s1 [H1 [Hc1 [Hn1 [Hp1 Hf1]]]]]. rewrite H1. cbn [bind].
  assert (Hkeep : forall d, cred s1 sn a d = cred s sn a d).
  { intros d. unfold cred. rewrite Hf1; [reflexivity|]. unfold excl.
    destruct (rget s sn a); [left; apply Z.eqb_refl|right; reflexivity]. }
  assert (Hexcl : forall d x, zmem d ds = true -> pget s1 sn d = Some x -> x = a).
  { intros d x Ed. rewrite Hp1, Z.eqb_refl, Ed. cbn [andb]. destruct (pget s sn d) as [y|]; [|discriminate].
    unfold excl. destruct (rget s sn a); cbn [excluded]; [|discriminate].
    destruct (y =? a) eqn:E; [|discriminate]. intros [= <-]. apply Z.eqb_eq. exact E. }
  (* what install_ok gives relative to s1 is the claim relative to s: the displacement only removed paths of ds *)
  assert (Hfin : forall s', Coherent s' /\
      (forall sn0 d0, pget s' sn0 d0 = if (sn0 =? sn) && zmem d0 ds then Some a else pget s1 sn0 d0) ->
    Coherent s' /\ (forall sn0 d0, pget s' sn0 d0 = if (sn0 =? sn) && zmem d0 ds then Some a else pget s sn0 d0)).
  { intros s' [Hc Hp]. split; [exact Hc|]. intros sn0 d0. rewrite Hp, Hp1. destruct ((sn0 =? sn) && zmem d0 ds); reflexivity. }
  destruct (rget s sn a) as [e|] eqn:Hr; eexists; (split; [reflexivity|]); apply Hfin.
  - apply (install_ok s1 sn a ds st e (rstatus e) (nets s1) Hc1); [|exact Hexcl| |auto].
    + intros d. rewrite Hkeep. apply cred_known. exact Hr.
    + rewrite Hn1. apply (proj2 Hcoh _ _ _ Hr).
  - apply (install_ok s1 sn a ds st (mkR [] None) None _ Hc1); [|exact Hexcl| |].
    + intros d. rewrite Hkeep. unfold cred. rewrite Hr. reflexivity.
    + destruct (zmem sn (nets s1)) eqn:E; [exact E|]. cbn [zmem existsb]. rewrite Z.eqb_refl. reflexivity.
    + intros x Hx. destruct (zmem sn (nets s1)); [exact Hx|]. cbn [zmem existsb]. fold (zmem x (nets s1)).
      rewrite Hx. apply orb_true_r.
Qed.

Lemma status_ok : forall s sn a st, Coherent s ->
  Coherent (update_router_status s sn a st) /\
  (forall sn0 d0, pget (update_router_status s sn a st) sn0 d0 = pget s sn0 d0).
Proof.
  intros s sn a st Hcoh. unfold update_router_status.
  destruct (rget s sn a) as [ri|] eqn:Hr; [|split; [exact Hcoh|reflexivity]].
  split; [|reflexivity].
  apply (coherent_put s (nets s) (paths s) sn a (Some (mkR (dnets ri) (Some st))) Hcoh); [apply (proj2 Hcoh _ _ _ Hr)|auto|].
  intros sn0 a0 d. change (leads _ sn0 d a0) with (leads s sn0 d a0). rewrite <- (cred_path s sn0 a0 d Hcoh).
  destruct (keq (sn0, a0) (sn, a)) eqn:E; [|reflexivity].
  apply keq_spec in E. injection E as -> ->. symmetry. apply (cred_known s sn a ri d Hr).
Qed.

Lemma renumber_unknown : forall s old new, zmem old (nets s) = false ->
  update_source_network s old new = Ok s.
Proof. intros s old new H. unfold update_source_network. rewrite H. reflexivity. Qed.

Definition is_renum (o : op) : bool := match o with Renum _ _ => true | _ => false end.
Definition no_renum (h : list op) : Prop := forallb (fun o => negb (is_renum o)) h = true.
Definition refused (o : op) : Prop := exists sn, o = Forget sn None None.

Lemma step_no_renum : forall s o, Coherent s -> is_renum o = false ->
  (exists s', step s o = Ok s' /\ Coherent s') \/ (refused o /\ step s o = Err RuntimeErr).
Proof.
  intros s o Hcoh Ho. destruct o as [sn a ds st|sn a st|sn ao dso|old new]; [| | |discriminate].
  - left. destruct (update_ok s sn a ds st Hcoh) as [s' [H [Hc _]]]. eauto.
  - left. eexists. split; [reflexivity|]. apply status_ok. exact Hcoh.
  - destruct ao as [a|]; [left|destruct dso as [ds|]; [left|right]].
    + destruct dso as [[|d r]|].
      * destruct (forget_router s sn a (Some []) Hcoh (or_intror eq_refl)) as [s' [H [Hc _]]]. eauto.
      * destruct (forget_router_dnets s sn a d r Hcoh) as [s' [H [Hc _]]]. eauto.
      * destruct (forget_router s sn a None Hcoh (or_introl eq_refl)) as [s' [H [Hc _]]]. eauto.
    + destruct (forget_dnets s sn ds Hcoh) as [s' [H [Hc _]]]. eauto.
    + split; [exists sn; reflexivity|reflexivity].
Qed.

Lemma run_coherent : forall h s, Coherent s -> no_renum h -> Coherent (run s h).
Proof.
  induction h as [|o h IH]; intros s Hcoh Hnr; [exact Hcoh|].
  unfold no_renum in Hnr. cbn [forallb] in Hnr. apply andb_true_iff in Hnr. destruct Hnr as [Ho Hh].
  apply negb_true_iff in Ho. apply (IH (step_total s o)); [|exact Hh]. unfold step_total.
  destruct (step_no_renum s o Hcoh Ho) as [[s' [H Hc]]|[_ H]]; rewrite H; assumption.
Qed.

Lemma run_snoc : forall s h o, run s (h ++ [o]) = step_total (run s h) o.
Proof. intros. unfold run. rewrite fold_left_app. reflexivity. Qed.

Lemma learn_step : forall s sn a ds st sn0 d0, Coherent s ->
  pget (step_total s (Learn sn a ds st)) sn0 d0 = if (sn0 =? sn) && zmem d0 ds then Some a else pget s sn0 d0.
Proof.
  intros s sn a ds st sn0 d0 Hcoh. destruct (update_ok s sn a ds st Hcoh) as [s' [H [_ Hp]]].
  unfold step_total. cbn [step]. rewrite H. apply Hp.
Qed.

Lemma learn_newest : forall s sn a ds st d, Coherent s -> In d ds ->
  pget (step_total s (Learn sn a ds st)) sn d = Some a.
Proof.
  intros s sn a ds st d Hcoh Hin. rewrite learn_step, Z.eqb_refl, (proj2 (zmem_spec d ds) Hin) by exact Hcoh. reflexivity.
Qed.

Lemma learn_frame : forall s sn a ds st sn0 d0, Coherent s -> (sn0 <> sn \/ ~ In d0 ds) ->
  pget (step_total s (Learn sn a ds st)) sn0 d0 = pget s sn0 d0.
Proof.
  intros s sn a ds st sn0 d0 Hcoh Hnot. rewrite learn_step by exact Hcoh.
  destruct ((sn0 =? sn) && zmem d0 ds) eqn:E; [|reflexivity].
  apply andb_true_iff in E. rewrite Z.eqb_eq, zmem_spec in E. tauto.
Qed.

Lemma history_newest_wins : forall h sn a ds st d, no_renum h -> In d ds ->
  get_router_info (run empty (h ++ [Learn sn a ds st])) sn d = Some a.
Proof.
  intros h sn a ds st d Hnr Hin. rewrite get_router_info_pget, run_snoc. apply learn_newest; [|exact Hin].
  apply run_coherent; [exact coherent_empty|exact Hnr].
Qed.

Lemma history_frame : forall h sn a ds st sn0 d0, no_renum h -> (sn0 <> sn \/ ~ In d0 ds) ->
  get_router_info (run empty (h ++ [Learn sn a ds st])) sn0 d0 = get_router_info (run empty h) sn0 d0.
Proof.
  intros h sn a ds st sn0 d0 Hnr Hnot. rewrite !get_router_info_pget, run_snoc. apply learn_frame; [|exact Hnot].
  apply run_coherent; [exact coherent_empty|exact Hnr].
Qed.
