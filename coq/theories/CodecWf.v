(* CodecWf.v — the tags emitted by the generic encoder are well-formed tags (so that C02's tag-list
   round trip applies) whenever the leaves and Any contents are and the context numbers are <= 254. *)
From Bac Require Import Base ResFacts BytesFacts Tag TagHdr TagFacts Schema Codec PrimCtxFacts CodecFacts.
Open Scope N_scope.

Fixpoint val_wf (v : val) : Prop :=
  match v with
  | VAtom x => wf_tag x = true
  | VTags ts => forallb wf_tag ts = true
  | VSeq fs =>
      (fix go (l : list (option val)) : Prop :=
         match l with
         | [] => True
         | None :: r => go r
         | Some w :: r => val_wf w /\ go r
         end) fs
  | VChoice _ w => val_wf w
  | VList vs =>
      (fix go (l : list val) : Prop :=
         match l with [] => True | w :: r => val_wf w /\ go r end) vs
  end.
Definition oval_wf (f : option val) : Prop := match f with None => True | Some w => val_wf w end.
Fixpoint fields_wf (l : list (option val)) : Prop :=
  match l with [] => True | f :: r => oval_wf f /\ fields_wf r end.
Fixpoint vals_wf (l : list val) : Prop :=
  match l with [] => True | w :: r => val_wf w /\ vals_wf r end.
Lemma val_wf_seq fs : val_wf (VSeq fs) <-> fields_wf fs.
Proof.
  cbn [val_wf]. induction fs as [|[w|] r IH]; cbn [fields_wf oval_wf]; [tauto| |]; rewrite <- IH; tauto.
Qed.
Lemma val_wf_list vs : val_wf (VList vs) = vals_wf vs.
Proof. reflexivity. Qed.

Definition TW (t : ty) : Prop := wf_ty t = true -> forall v ts,
  has_ty t v -> val_wf v -> encode t v = Ok ts -> forallb wf_tag ts = true.
Definition TWe (e : elem) : Prop := wf_el e = true -> forall f ts,
  has_el e f -> oval_wf f -> enc_el encode e f = Ok ts -> forallb wf_tag ts = true.

Lemma wrap_wf c b : ctx_ok c = true -> forallb wf_tag b = true -> forallb wf_tag (wrap c b) = true.
Proof.
  destruct c as [c|]; cbn [wrap ctx_ok]; intros Hc Hb; [|exact Hb].
  assert (Hd : wf_tag (open_tag c) = true /\ wf_tag (close_tag c) = true).
  { unfold wf_tag, open_tag, close_tag, bytes_ok, lenN; cbn. lia. }
  cbn [forallb]. rewrite forallb_app, Hb, (proj1 Hd). cbn [forallb]. rewrite (proj2 Hd). reflexivity.
Qed.

Lemma leaf_ctx_wf k c x x' : c <= 254 -> leaf_ok k x -> wf_tag x = true ->
  app_to_context c x = Ok x' -> wf_tag x' = true.
Proof.
  intros Hc Hl Hw. apply wf_tag_spec in Hw as (_ & _ & L & B & _).
  destruct (ctx_roundtrip c k x (leaf_app_shape k x Hl)) as (d & A & _ & W). destruct (W B L) as [Bd Ld].
  rewrite app_to_context_eq, A. intros [= <-]. apply ctx_tag_wf; [lia|exact Bd|exact Ld].
Qed.

Lemma enc_leaf_wf k c x ts : ctx_ok c = true -> leaf_ok k x -> wf_tag x = true ->
  enc_leaf c x = Ok ts -> forallb wf_tag ts = true.
Proof.
  intros Hc Hl Hw. destruct c as [c|]; cbn [enc_leaf ctx_ok] in *.
  - intros H. apply bind_ok_inv in H as [x' [Hx H]]. injection H as <-.
    cbn [forallb]. rewrite (leaf_ctx_wf k c x x' ltac:(lia) Hl Hw Hx). reflexivity.
  - intros H. injection H as <-. cbn [forallb]. rewrite Hw. reflexivity.
Qed.

Lemma el_tw t c o : TW t -> TWe (El t c o).
Proof.
  intros Ht Hwf f ts Hf Hv He. cbn [wf_el] in Hwf. split_andb.
  destruct f as [v|]; [|cbn [enc_el] in He; destruct o; [injection He as <-; reflexivity|discriminate]].
  cbn [has_el] in Hf. cbn [oval_wf] in Hv. rewrite (enc_el_some t c o v Hf) in He.
  destruct (is_atomic t) eqn:Hat.
  - destruct (atomic_inv t v Hat Hf) as (k & x & -> & Hx & _).
    exact (enc_leaf_wf k c x ts ltac:(assumption) Hx Hv He).
  - apply enc_wrapped_inv in He as (b & Hb & ->). apply wrap_wf; [assumption|].
    exact (Ht ltac:(assumption) v b Hf Hv Hb).
Qed.

Lemma els_tw els : Forall TWe els -> wf_els els = true -> forall fs ts,
  has_fields els fs -> fields_wf fs -> enc_els encode els fs = Ok ts -> forallb wf_tag ts = true.
Proof.
  induction 1 as [|e r He _ IH]; intros Hw fs ts Hf Hv Henc.
  - cbn in Henc. injection Henc as <-. reflexivity.
  - apply wf_els_cons in Hw as (Hwe & _ & Hwr). destruct fs as [|f fs]; [contradiction|].
    destruct Hf as [Hf1 Hf2]. destruct Hv as [Hv1 Hv2].
    apply enc_els_cons in Henc as (a & b & Ha & Hb & ->).
    rewrite forallb_app, (He Hwe f a Hf1 Hv1 Ha), (IH Hwr fs b Hf2 Hv2 Hb). reflexivity.
Qed.

Lemma alt_tw els : Forall TWe els -> forallb wf_el els = true -> forall i w ts,
  has_alt els i w -> val_wf w -> enc_nth encode els i w = Ok ts -> forallb wf_tag ts = true.
Proof.
  induction 1 as [|e r He _ IH]; intros Hw i w ts Ha Hv Henc; [destruct i; contradiction|].
  cbn [forallb] in Hw. split_andb. destruct i as [|j]; cbn [has_alt enc_nth] in *; destruct Ha as [_ Ha].
  - rewrite (enc_alt_el e w Ha) in Henc. exact (He ltac:(assumption) (Some w) ts Ha Hv Henc).
  - eapply IH; eauto.
Qed.

Lemma list_tw s : TW s -> wf_ty s = true -> forall vs ts,
  Forall (has_ty s) vs -> vals_wf vs -> enc_list (encode s) vs = Ok ts -> forallb wf_tag ts = true.
Proof.
  intros Hs Hw. induction vs as [|v vs IH]; intros ts Hall Hv He.
  - cbn in He. injection He as <-. reflexivity.
  - inversion Hall as [|? ? Hv1 Hvs]; subst. destruct Hv as [Hw1 Hw2].
    apply enc_list_cons in He as (a & b & Ha & Hb & ->).
    rewrite forallb_app, (Hs Hw v a Hv1 Hw1 Ha), (IH b Hvs Hw2 Hb). reflexivity.
Qed.

Theorem encode_tags_wf : forall t, TW t.
Proof.
  apply (ty_ind2 TW TWe).
  1-2: unfold TW; intros until ts; intros Hv Hw He; destruct (enc_inv _ _ _ Hv He) as (x & -> & -> & _);
    cbn [forallb val_wf] in *; rewrite Hw; reflexivity.
  1-2: intros _ v ts Hv Hw He; destruct (enc_inv _ _ _ Hv He) as [-> _]; exact Hw.
  - intros els Hall Hwf v ts Hv Hw He. destruct (enc_inv _ _ _ Hv He) as (fs & -> & Hf & Henc).
    rewrite wf_ty_seq in Hwf. apply val_wf_seq in Hw. exact (els_tw els Hall Hwf fs ts Hf Hw Henc).
  - intros els Hall Hwf v ts Hv Hw He. destruct (enc_inv _ _ _ Hv He) as (i & w & -> & Ha & Henc).
    cbn [wf_ty] in Hwf. split_andb. exact (alt_tw els Hall ltac:(assumption) i w ts Ha Hw Henc).
  - intros s Hs Hwf v ts Hv Hw He. destruct (enc_inv _ _ _ Hv He) as (vs & -> & Hvs & Henc).
    cbn [wf_ty] in Hwf. split_andb. rewrite val_wf_list in Hw.
    exact (list_tw s Hs ltac:(assumption) vs ts Hvs Hw Henc).
  - intros s f Hs Hwf v ts Hv Hw He. destruct (enc_inv _ _ _ Hv He) as (vs & -> & Hvs & Henc & _).
    cbn [wf_ty] in Hwf. split_andb. rewrite val_wf_list in Hw.
    exact (list_tw s Hs ltac:(assumption) vs ts Hvs Hw Henc).
  - intros _ v ts Hv Hw He. destruct (enc_inv _ _ _ Hv He) as (n & n' & tail & Hn & Hf & Ha & ->).
    destruct Hf as [|x _ _|d t _ _]; cbn in Hw; cbn [forallb];
      rewrite (leaf_ctx_wf 7 0 n n' ltac:(lia) Hn ltac:(tauto) Ha); cbn [andb].
    + reflexivity.
    + destruct Hw as [_ [Hw _]]. rewrite Hw. reflexivity.
    + destruct Hw as [_ [[Hw1 [Hw2 _]] _]]. rewrite Hw1, Hw2. reflexivity.
  - exact el_tw.
Qed.
