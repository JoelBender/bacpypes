(* SsmC04h.v — C04 on the serving side over whole histories: whatever sequence of frames, application answers and
   time-outs a server transaction sees (raising handlers included), as long as it is in the table it is armed and in a
   state that has a time-out handler, and once it has left the table it is COMPLETED/ABORTED without a timer. *)
From Bac Require Import Base PyRt Ssm SsmFrame SsmC04a SsmC04s.
From BacGen Require Import ApduFns.
Open Scope Z_scope.

Definition s_state_ok (s : ssm) : bool :=
  (s_state s =? SEGMENTED_REQUEST) || (s_state s =? AWAIT_RESPONSE) || (s_state s =? SEGMENTED_RESPONSE).

Definition s_inv (s : ssm) : Prop :=
  s_state_ok s = true /\ s_timer s <> None /\ 0 < s_app_to s /\ 0 < s_seg_to s.
Definition s_done (s : ssm) : Prop := terminal s = true /\ s_timer s = None.

Definition post_h (r : hst * option err) : Prop :=
  let st' := fst r in
  (h_live st' = true -> s_inv (h_s st')) /\ (h_live st' = false -> s_done (h_s st')).

Lemma s_inv_pre : forall st, s_inv (h_s st) -> h_live st = true -> pre_s st.
Proof.
  intros st (Hok & _ & Ha & Hs) Hl. repeat split; try assumption.
  unfold terminal, s_state_ok, SEGMENTED_REQUEST, AWAIT_RESPONSE, SEGMENTED_RESPONSE, COMPLETED, ABORTED in *. lia.
Qed.

Lemma s_state_ok_cases : forall s, s_state_ok s = true ->
  s_state s = SEGMENTED_REQUEST \/ s_state s = AWAIT_RESPONSE \/ s_state s = SEGMENTED_RESPONSE.
Proof. intros s H. unfold s_state_ok in H. lia. Qed.

Lemma s_inv_not_idle : forall t, s_inv t -> s_state t <> IDLE.
Proof.
  intros t (Hok & _). unfold s_state_ok, IDLE, SEGMENTED_REQUEST, AWAIT_RESPONSE, SEGMENTED_RESPONSE in *. lia.
Qed.

Lemma post_srv_h : forall st r (armed : Prop), s_state_ok (h_s st) = true -> 0 < s_app_to (h_s st) -> 0 < s_seg_to (h_s st) ->
  armed -> post_srv st r armed -> post_h r.
Proof.
  intros st r armed Hok Ha Hs Harm ((_ & _ & Hcfg & H4 & H5 & H6) & H7). destruct Hcfg as (_ & _ & _ & Cs & _ & Ca & _).
  unfold post_h, s_inv, s_done. cbn [fst snd] in *. split; intros Hl.
  - repeat split; [ | apply H6; auto | lia | lia].
    destruct (H7 Hl) as [E|[E|[E|E]]]; unfold s_state_ok in *; rewrite E; [exact Hok | reflexivity..].
  - split; [apply H4; exact Hl | apply H5; exact Hl].
Qed.

Lemma s_confirmation_h : forall a st, s_inv (h_s st) -> h_live st = true -> post_h (s_confirmation a st).
Proof.
  intros a st Hinv Hl. pose proof (s_inv_pre st Hinv Hl) as Hpre. destruct Hinv as (Hok & Harm & Ha & Hs).
  exact (post_srv_h _ _ _ Hok Ha Hs Harm (s_confirmation_srv a st Hpre)).
Qed.

(* the timer has just been popped by the TaskManager *)
Lemma s_process_task_h : forall st, s_inv (h_s st) -> h_live st = true ->
  post_h (s_process_task (mkH (set_timer_f None (h_s st)) (h_outs st) (h_ctr st) (h_now st) (h_live st))).
Proof.
  intros st Hinv Hl. destruct (s_inv_pre st Hinv Hl) as (_ & Ht & _). destruct Hinv as (Hok & _ & Ha & Hs).
  set (st1 := mkH (set_timer_f None (h_s st)) (h_outs st) (h_ctr st) (h_now st) (h_live st)).
  refine (post_srv_h st1 _ _ Hok Ha Hs _ (s_process_task_srv st1 _)); [right; exact (s_state_ok_cases _ Hok) | repeat split; assumption].
Qed.

Lemma s_indication_h : forall a st, s_inv (h_s st) -> h_live st = true -> post_h (s_indication a st).
Proof.
  intros a st Hinv Hl. pose proof (s_inv_pre st Hinv Hl) as Hpre. pose proof (s_inv_not_idle _ Hinv) as Hn.
  destruct Hinv as (Hok & Harm & Ha & Hs).
  apply (post_srv_h _ _ _ Hok Ha Hs Harm). apply s_indication_srv; assumption.
Qed.

(* a confirmed request as the header decoder can produce it (3-bit max-segments, 4-bit max-response) *)
Definition wf_request (a : apdu) : Prop := a_type a = 0 /\ 0 <= a_maxsegs a < 8 /\ 0 <= a_maxresp a < 16.

Lemma dec_maxsegs_total : forall x, 0 <= x < 8 -> exists v, dec_maxsegs x = Ok v.
Proof.
  intros x H. assert (x = 0 \/ x = 1 \/ x = 2 \/ x = 3 \/ x = 4 \/ x = 5 \/ x = 6 \/ x = 7) as Hx by lia.
  repeat (destruct Hx as [->|Hx]; [eexists; vm_compute; reflexivity|]). subst. eexists; vm_compute; reflexivity.
Qed.

Lemma dec_maxresp_total : forall x, 0 <= x < 16 ->
  (exists v, decode_max_apdu_length_accepted x = Ok (Some v) /\ 0 < v) \/ decode_max_apdu_length_accepted x = Err ValueErr.
Proof.
  intros x H.
  assert (x = 0 \/ x = 1 \/ x = 2 \/ x = 3 \/ x = 4 \/ x = 5 \/ x = 6 \/ x = 7 \/ x = 8 \/ x = 9 \/ x = 10 \/ x = 11 \/
          x = 12 \/ x = 13 \/ x = 14 \/ x = 15) as Hx by lia.
  repeat (destruct Hx as [->|Hx]; [first [left; eexists; vm_compute; split; reflexivity | right; vm_compute; reflexivity]|]).
  subst. first [left; eexists; vm_compute; split; reflexivity | right; vm_compute; reflexivity].
Qed.

Lemma s_idle_h : forall a st, wf_request a -> s_state (h_s st) = IDLE -> 0 < s_app_to (h_s st) -> 0 < s_seg_to (h_s st) ->
  h_live st = true -> post_h (s_idle a st) /\ snd (s_idle a st) = None.
Proof.
  intros a [s outs ctr now live] (Ht & Hms & Hmr) Hi Ha Hs Hl. cbn [h_s h_live] in *. subst live. destruct_ssm s. cbn [s_state s_app_to s_seg_to] in *. subst x_state.
  unfold s_idle, s_abort. rewrite Ht. cbn [Z.eqb negb].
  destruct (dec_maxsegs_total _ Hms) as (ms & ->).
  destruct (dec_maxresp_total _ Hmr) as [(v & -> & _) | ->];
  path_split;
    (split; [unfold post_h, s_inv, s_done, s_state_ok, terminal; mcbn; repeat split; intros; first [discriminate | assumption]
            | mcbn; reflexivity]).
Qed.

Inductive sevent := SRx (a : apdu) | SAnswer (a : apdu) | STimeout.

Definition s_handle (ev : sevent) (s : ssm) (ctr now : Z) : hst * option err :=
  match ev with
  | SRx a => s_indication a (mkH s [] ctr now true)
  | SAnswer a => s_confirmation a (mkH s [] ctr now true)
  | STimeout => s_process_task (mkH (set_timer_f None s) [] ctr now true)
  end.

(* the transaction after a history; false once it has been removed from serverTransactions (then nothing reaches it) *)
Fixpoint s_after (evs : list (Z * sevent)) (s : ssm) (ctr : Z) : ssm * bool :=
  match evs with
  | [] => (s, true)
  | (now, ev) :: r =>
    let st' := fst (s_handle ev s ctr now) in
    if h_live st' then s_after r (h_s st') (h_ctr st') else (h_s st', false)
  end.

Lemma s_handle_inv : forall ev s ctr now, s_inv s -> post_h (s_handle ev s ctr now).
Proof.
  intros ev s ctr now Hinv. destruct ev as [a|a|]; unfold s_handle.
  - apply s_indication_h; [exact Hinv | reflexivity].
  - apply s_confirmation_h; [exact Hinv | reflexivity].
  - apply (s_process_task_h (fresh_h s ctr now)); [exact Hinv | reflexivity].
Qed.

Lemma s_history_inv : forall evs s ctr, s_inv s ->
  let r := s_after evs s ctr in (snd r = true -> s_inv (fst r)) /\ (snd r = false -> s_done (fst r)).
Proof.
  induction evs as [|[now ev] r IH]; intros s ctr Hinv; cbn [s_after].
  - cbn. split; [intros; exact Hinv | discriminate].
  - destruct (s_handle_inv ev s ctr now Hinv) as (H1 & H2).
    destruct (h_live (fst (s_handle ev s ctr now))) eqn:El.
    + apply IH. apply H1. reflexivity.
    + cbn [fst snd]. split; [discriminate | intros; apply H2; reflexivity].
Qed.

(* StateMachineAccessPoint.confirmation creates the transaction in IDLE and hands it the request *)
Definition s_life (a : apdu) (s0 : ssm) (ctr now : Z) (evs : list (Z * sevent)) : ssm * bool :=
  let st := fst (s_idle a (mkH s0 [] ctr now true)) in
  if h_live st then s_after evs (h_s st) (h_ctr st) else (h_s st, false).

Lemma s_life_inv : forall a s0 ctr now evs, wf_request a -> s_state s0 = IDLE -> 0 < s_app_to s0 -> 0 < s_seg_to s0 ->
  let r := s_life a s0 ctr now evs in (snd r = true -> s_inv (fst r)) /\ (snd r = false -> s_done (fst r)).
Proof.
  intros a s0 ctr now evs Hwf Hi Ha Hs. unfold s_life.
  destruct (s_idle_h a (fresh_h s0 ctr now) Hwf Hi Ha Hs eq_refl) as ((H1 & H2) & _).
  destruct (h_live (fst (s_idle a _))) eqn:El.
  - apply s_history_inv. apply H1. reflexivity.
  - cbn [fst snd]. split; [discriminate | intros; apply H2; reflexivity].
Qed.
