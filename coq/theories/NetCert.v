(* NetCert.v — decidable forms of the hypotheses of the tree theorems (internet_ok, tree_to, tree_from) with
   soundness proofs, so that the check can validate, inside Coq, that the random internetworks it simulates do
   satisfy them; and tree_to as tree_from plus warm caches.  Lemmas about Net.v (property C06). *)
From Bac Require Import Base ListFacts Net NetFacts NetOnce NetRoute NetArrive NetLocal NetBcast NetTree NetFlood.
Open Scope N_scope.

Definition pair_eqb (a b : nat * nat) : bool := Nat.eqb (fst a) (fst b) && Nat.eqb (snd a) (snd b).

Lemma pair_eqb_eq : forall a b, pair_eqb a b = true -> a = b.
Proof.
  intros [a1 a2] [b1 b2] H. unfold pair_eqb in H. cbn in H. apply andb_prop in H. destruct H as [H1 H2].
  apply Nat.eqb_eq in H1, H2. congruence.
Qed.

Lemma existsb_pair_in : forall x l, existsb (pair_eqb x) l = true -> In x l.
Proof.
  intros x l H. apply existsb_exists in H. destruct H as [y [Hy E]]. apply pair_eqb_eq in E. subst y. assumption.
Qed.

Lemma omac_eqb_eq : forall a b, omac_eqb a b = true -> a = b.
Proof. intros [x|] [y|]; cbn; intro H; try discriminate; [apply mac_eqb_eq in H; congruence|reflexivity]. Qed.

Definition adapter_eqb (a b : adapter) : bool := optN_eqb (a_net a) (a_net b) && omac_eqb (a_mac a) (a_mac b).

Lemma adapter_eqb_eq : forall a b, adapter_eqb a b = true -> a = b.
Proof.
  intros [n1 m1] [n2 m2] H. unfold adapter_eqb in H. cbn in H. apply andb_prop in H. destruct H as [H1 H2].
  apply optN_eqb_eq in H1. apply omac_eqb_eq in H2. congruence.
Qed.

Fixpoint nodupNb (l : list N) : bool :=
  match l with [] => true | a :: r => negb (existsb (N.eqb a) r) && nodupNb r end.

Lemma nodupNb_sound : forall l, nodupNb l = true -> NoDup l.
Proof.
  induction l as [|a r IH]; intro H; [constructor|]. cbn in H. apply andb_prop in H. destruct H as [H1 H2].
  constructor; [|apply IH; assumption]. apply (existsb_refl_notin N.eqb N.eqb_refl). apply negb_true_iff. exact H1.
Qed.

Fixpoint nodupnatb (l : list nat) : bool :=
  match l with [] => true | a :: r => negb (existsb (Nat.eqb a) r) && nodupnatb r end.

Lemma nodupnatb_sound : forall l, nodupnatb l = true -> NoDup l.
Proof.
  induction l as [|a r IH]; intro H; [constructor|]. cbn in H. apply andb_prop in H. destruct H as [H1 H2].
  constructor; [|apply IH; assumption]. apply (existsb_refl_notin Nat.eqb Nat.eqb_refl). apply negb_true_iff. exact H1.
Qed.

Definition router_shapeb (w : wnode) : bool :=
  (2 <=? length (w_ports w))%nat && nodupNb (map fst (w_ports w)) &&
  list_eqb adapter_eqb (adapters (w_node w)) (map ad_of (w_ports w)) && negb (has_app (w_node w)).

Definition station_shapeb (w : wnode) : bool :=
  match w_ports w, adapters (w_node w) with
  | [(lan, _)], [a] => (match a_net a with None => true | Some l => l =? lan end) && has_app (w_node w)
  | _, _ => false
  end.

Lemma router_shapeb_sound : forall w, router_shapeb w = true -> router_shape w.
Proof.
  intros w H. unfold router_shapeb in H. repeat (apply andb_prop in H; destruct H as [H ?]).
  unfold router_shape. repeat split.
  - apply Nat.leb_le. assumption.
  - apply nodupNb_sound. assumption.
  - apply (list_eqb_eq adapter_eqb adapter_eqb_eq). assumption.
  - destruct (has_app (w_node w)); [discriminate|reflexivity].
Qed.

Lemma station_shapeb_sound : forall w, station_shapeb w = true -> station_shape w.
Proof.
  intros w H. unfold station_shapeb in H.
  destruct (w_ports w) as [|[lan m] [|? ?]] eqn:Ep; try discriminate.
  destruct (adapters (w_node w)) as [|a [|? ?]] eqn:Ea; try discriminate.
  apply andb_prop in H. destruct H as [H1 H2].
  exists lan, m, a. repeat split; auto.
  destruct (a_net a) as [l|]; [right; apply N.eqb_eq in H1; congruence|left; reflexivity].
Qed.

Definition all_ports_of (ns : list wnode) : list (nat * nat) :=
  flat_map (fun who => match nth_error ns who with
                       | Some w => map (fun p => (who, p)) (seq 0 (length (w_ports w)))
                       | None => [] end) (seq 0 (length ns)).

Lemma all_ports_of_complete : forall ns x lan m, port_of ns x = Some (lan, m) -> In x (all_ports_of ns).
Proof.
  intros ns [who p] lan m H. unfold port_of in H. cbn [fst snd] in H.
  destruct (nth_error ns who) as [w|] eqn:Ew; [|discriminate].
  unfold all_ports_of. apply in_flat_map. exists who. split; [eapply nth_error_in_seq; eauto|].
  rewrite Ew. apply in_map. destruct (nth_error (w_ports w) p) eqn:Ep; [|discriminate]. eapply nth_error_in_seq; eauto.
Qed.

Definition internet_okb (lns : list (N * list (nat * nat))) (ns : list wnode) : bool :=
  forallb (fun kv => forallb (fun x => match port_of ns x with Some (l, _) => l =? fst kv | None => false end) (snd kv)) lns
  && forallb (fun x => match port_of ns x with
                       | Some (lan, _) => existsb (pair_eqb x) (lan_members lns lan)
                       | None => true end) (all_ports_of ns)
  && lans_distinctb lns ns
  && forallb (fun kv => nodupnatb (map fst (snd kv))) lns
  && forallb (fun w => router_shapeb w || station_shapeb w) ns.

Lemma lan_members_entry : forall lns lan, lan_members lns lan = [] \/ In (lan, lan_members lns lan) lns.
Proof.
  induction lns as [|[k m] r IH]; intro lan; cbn [lan_members]; [left; reflexivity|].
  destruct (N.eqb_spec k lan).
  - subst k. right. left. reflexivity.
  - destruct (IH lan) as [H|H]; [left; assumption|right; right; assumption].
Qed.

Lemma internet_okb_sound : forall lns ns, internet_okb lns ns = true -> internet_ok lns ns.
Proof.
  intros lns ns H. unfold internet_okb in H. repeat (apply andb_prop in H; destruct H as [H ?]).
  (* the five conjuncts come out last first, under generated names: number them in the order of internet_ok *)
  rename H into H1, H3 into H2, H2 into H3, H1 into H4, H0 into H5.
  constructor.
  - intros lan x Hx. destruct (lan_members_entry lns lan) as [E|E]; [rewrite E in Hx; contradiction|].
    rewrite forallb_forall in H1. specialize (H1 _ E). cbn [fst snd] in H1. rewrite forallb_forall in H1.
    specialize (H1 x Hx). destruct (port_of ns x) as [[l m]|]; [|discriminate]. apply N.eqb_eq in H1. subst l. eauto.
  - intros x lan m Hp. rewrite forallb_forall in H2. specialize (H2 x (all_ports_of_complete _ _ _ _ Hp)).
    rewrite Hp in H2. apply existsb_pair_in. assumption.
  - apply lans_distinctb_sound. assumption.
  - intro lan. destruct (lan_members_entry lns lan) as [E|E]; [rewrite E; constructor|].
    rewrite forallb_forall in H4. apply nodupnatb_sound. apply (H4 _ E).
  - intros who w Hw. rewrite forallb_forall in H5. specialize (H5 w (nth_error_In _ _ Hw)).
    apply orb_prop in H5. destruct H5 as [E|E]; [left; apply router_shapeb_sound|right; apply station_shapeb_sound]; assumption.
Qed.

Definition router_okb (ns : list wnode) (d : N) (lv : N -> nat) (up : nat -> nat) (par : N -> nat * nat)
                      (who : nat) (w : wnode) : bool :=
  match nth_error (w_ports w) (up who) with
  | None => false
  | Some (lu, _) =>
      (negb (Nat.eqb (lv lu) 0) || (lu =? d))
      && forallb (fun p => Nat.eqb p (up who) ||
                           match nth_error (w_ports w) p with
                           | Some (lp, _) => Nat.eqb (lv lp) (S (lv lu)) | None => true end)
                 (seq 0 (length (w_ports w)))
      && (Nat.eqb (lv lu) 0 ||
          match port_mac ns (par lu), find_path (w_node w) d with
          | Some pm, Some (j, m) => Nat.eqb j (up who) && mac_eqb m pm
          | _, _ => false
          end)
  end.

Definition parent_okb (lns : list (N * list (nat * nat))) (ns : list wnode) (lv : N -> nat) (up : nat -> nat)
                      (par : N -> nat * nat) (L : N) : bool :=
  Nat.eqb (lv L) 0 ||
  (existsb (pair_eqb (par L)) (lan_members lns L) &&
   match nth_error ns (fst (par L)) with
   | Some w => router_shapeb w && negb (Nat.eqb (snd (par L)) (up (fst (par L))))
   | None => false
   end).

Definition tree_tob lns ns d lv up par : bool :=
  Nat.eqb (lv d) 0
  && forallb (fun who => match nth_error ns who with
                         | Some w => negb (router_shapeb w) || router_okb ns d lv up par who w
                         | None => true end) (seq 0 (length ns))
  && forallb (parent_okb lns ns lv up par) (map fst lns).

Lemma shapeb_router : forall lns ns who w, internet_okb lns ns = true -> nth_error ns who = Some w ->
  router_shape w -> router_shapeb w = true.
Proof.
  intros lns ns who w H Hw Hr. unfold internet_okb in H. apply andb_prop in H. destruct H as [_ H].
  rewrite forallb_forall in H. specialize (H w (nth_error_In _ _ Hw)).
  destruct (router_shapeb w); [reflexivity|]. cbn in H. apply station_shapeb_sound in H.
  exfalso. eapply router_not_station; eauto.
Qed.

Lemma inhabited_key : forall lns ns L, internet_ok lns ns -> inhabited ns L -> In L (map fst lns).
Proof.
  intros lns ns L Hio (x & m & Hp). pose proof (io_listed Hio _ _ _ Hp) as Hin.
  destruct (lan_members_entry lns L) as [E|E]; [rewrite E in Hin; contradiction|].
  apply (in_map fst) in E. exact E.
Qed.

Lemma parent_okb_sound : forall lns ns lv up par L, parent_okb lns ns lv up par L = true -> lv L <> 0%nat ->
  In (par L) (lan_members lns L) /\
  exists w, nth_error ns (fst (par L)) = Some w /\ router_shape w /\ snd (par L) <> up (fst (par L)).
Proof.
  intros lns ns lv up par L H Hlv. unfold parent_okb in H. apply orb_prop in H. destruct H as [H|H].
  - apply Nat.eqb_eq in H. contradiction.
  - apply andb_prop in H. destruct H as [H1 H2]. split; [apply existsb_pair_in; assumption|].
    destruct (nth_error ns (fst (par L))) as [w|]; [|discriminate]. apply andb_prop in H2. destruct H2 as [H2 H3].
    exists w. split; [reflexivity|]. split; [apply router_shapeb_sound; assumption|].
    destruct (Nat.eqb_spec (snd (par L)) (up (fst (par L)))); [discriminate|assumption].
Qed.

Lemma ports_levels_sound : forall (lv : N -> nat) (ports : list (N * mac)) u lu,
  forallb (fun p => Nat.eqb p u || match nth_error ports p with
                                   | Some (lp, _) => Nat.eqb (lv lp) (S (lv lu)) | None => true end)
          (seq 0 (length ports)) = true ->
  forall p lp mp, nth_error ports p = Some (lp, mp) -> p <> u -> lv lp = S (lv lu).
Proof.
  intros lv ports u lu H p lp mp Hp Hne. rewrite forallb_forall in H.
  specialize (H p (nth_error_in_seq _ _ _ Hp)). rewrite Hp in H.
  destruct (Nat.eqb_spec p u); [contradiction|]. apply Nat.eqb_eq. exact H.
Qed.

Lemma tree_tob_sound : forall lns ns d lv up par,
  internet_okb lns ns = true -> tree_tob lns ns d lv up par = true -> tree_to lns ns d lv up par.
Proof.
  intros lns ns d lv up par Hiob H. pose proof (internet_okb_sound _ _ Hiob) as Hio.
  unfold tree_tob in H. apply andb_prop in H. destruct H as [H H3]. apply andb_prop in H. destruct H as [H1 H2].
  constructor.
  - apply Nat.eqb_eq. assumption.
  - intros who w Hw Hr. rewrite forallb_forall in H2.
    specialize (H2 who (nth_error_in_seq _ _ _ Hw)). rewrite Hw, (shapeb_router _ _ _ _ Hiob Hw Hr) in H2. cbn [negb orb] in H2.
    unfold router_okb in H2. destruct (nth_error (w_ports w) (up who)) as [[lu mu]|] eqn:Eu; [|discriminate].
    apply andb_prop in H2. destruct H2 as [H2 H6]. apply andb_prop in H2. destruct H2 as [H4 H5].
    exists lu, mu. split; [reflexivity|]. split; [|split].
    + intro E. rewrite E in H4. cbn in H4. apply N.eqb_eq in H4. assumption.
    + exact (ports_levels_sound lv (w_ports w) (up who) lu H5).
    + intro Hne. destruct (Nat.eqb_spec (lv lu) 0); [contradiction|]. cbn in H6.
      destruct (port_mac ns (par lu)) as [pm|]; [|discriminate].
      destruct (find_path (w_node w) d) as [[j m]|]; [|discriminate].
      apply andb_prop in H6. destruct H6 as [E1 E2]. apply Nat.eqb_eq in E1. apply mac_eqb_eq in E2. subst j m.
      exists pm. split; reflexivity.
  - intros L Hinh Hlv. rewrite forallb_forall in H3.
    apply (parent_okb_sound lns ns lv up par L); [|assumption]. apply H3. eapply inhabited_key; eauto.
Qed.

Definition router_fromb (lv : N -> nat) (up : nat -> nat) (who : nat) (w : wnode) : bool :=
  match nth_error (w_ports w) (up who) with
  | None => false
  | Some (lu, _) =>
      forallb (fun p => Nat.eqb p (up who) ||
                        match nth_error (w_ports w) p with
                        | Some (lp, _) => Nat.eqb (lv lp) (S (lv lu)) | None => true end)
              (seq 0 (length (w_ports w)))
  end.

Definition tree_fromb lns ns s lv up par : bool :=
  Nat.eqb (lv s) 0
  && forallb (fun L => (negb (Nat.eqb (lv L) 0) || (L =? s)) && (lv L <? 255)%nat) (map fst lns)
  && forallb (fun who => match nth_error ns who with
                         | Some w => negb (router_shapeb w) || router_fromb lv up who w
                         | None => true end) (seq 0 (length ns))
  && forallb (parent_okb lns ns lv up par) (map fst lns)
  && forallb (fun L => forallb (fun x => match nth_error ns (fst x) with
                                          | Some w => negb (router_shapeb w) || Nat.eqb (snd x) (up (fst x)) || pair_eqb x (par L)
                                          | None => true end) (lan_members lns L)) (map fst lns).

Lemma tree_fromb_sound : forall lns ns s lv up par,
  internet_okb lns ns = true -> tree_fromb lns ns s lv up par = true -> tree_from lns ns s lv up par.
Proof.
  intros lns ns s lv up par Hiob H. pose proof (internet_okb_sound _ _ Hiob) as Hio.
  unfold tree_fromb in H. repeat (apply andb_prop in H; destruct H as [H ?]).
  rename H into H1, H3 into H2, H2 into H3, H1 into H4, H0 into H5.
  constructor.
  - apply Nat.eqb_eq. assumption.
  - intros L Hinh Hlv. rewrite forallb_forall in H2. specialize (H2 L (inhabited_key _ _ _ Hio Hinh)).
    apply andb_prop in H2. destruct H2 as [H2 _]. rewrite Hlv in H2. cbn in H2. apply N.eqb_eq in H2. assumption.
  - intros L Hinh. rewrite forallb_forall in H2. specialize (H2 L (inhabited_key _ _ _ Hio Hinh)).
    apply andb_prop in H2. destruct H2 as [_ H2]. apply Nat.ltb_lt in H2. assumption.
  - intros who w Hw Hr. rewrite forallb_forall in H3.
    specialize (H3 who (nth_error_in_seq _ _ _ Hw)). rewrite Hw, (shapeb_router _ _ _ _ Hiob Hw Hr) in H3. cbn [negb orb] in H3.
    unfold router_fromb in H3. destruct (nth_error (w_ports w) (up who)) as [[lu mu]|] eqn:Eu; [|discriminate].
    exists lu, mu. split; [reflexivity|]. exact (ports_levels_sound lv (w_ports w) (up who) lu H3).
  - intros L Hinh Hlv. rewrite forallb_forall in H4.
    apply (parent_okb_sound lns ns lv up par L); [|assumption]. apply H4. eapply inhabited_key; eauto.
  - intros L x w Hx Hw Hr Hne.
    destruct (lan_members_entry lns L) as [E|E]; [rewrite E in Hx; contradiction|].
    rewrite forallb_forall in H5. specialize (H5 L (in_map fst _ _ E)). cbn [fst] in H5.
    rewrite forallb_forall in H5. specialize (H5 x Hx). rewrite Hw, (shapeb_router _ _ _ _ Hiob Hw Hr) in H5.
    cbn [negb orb] in H5. destruct (Nat.eqb_spec (snd x) (up (fst x))); [contradiction|]. cbn in H5.
    apply pair_eqb_eq. assumption.
Qed.

(* how the harness writes the certificates lv, par (association lists) and up (a list) in the terms it evaluates *)
Fixpoint assoc_nat (l : list (N * nat)) (dflt : nat) (k : N) : nat :=
  match l with [] => dflt | (a, v) :: r => if a =? k then v else assoc_nat r dflt k end.
Fixpoint assoc_pair (l : list (N * (nat * nat))) (k : N) : nat * nat :=
  match l with [] => (0, 0)%nat | (a, v) :: r => if a =? k then v else assoc_pair r k end.
Definition nth_nat (l : list nat) (i : nat) : nat := nth i l 0%nat.

Definition warm_to (ns : list wnode) (d : N) (lv : N -> nat) (up : nat -> nat) (par : N -> nat * nat) : Prop :=
  forall who w lu mu, nth_error ns who = Some w -> router_shape w ->
    nth_error (w_ports w) (up who) = Some (lu, mu) -> lv lu <> 0%nat ->
    exists pm, port_mac ns (par lu) = Some pm /\ find_path (w_node w) d = Some (up who, pm).

Theorem loop_free_warm_tree_to : forall lns ns d lv up par,
  tree_from lns ns d lv up par -> warm_to ns d lv up par -> tree_to lns ns d lv up par.
Proof.
  intros lns ns d lv up par Htf Hw. constructor.
  - apply (tf_root Htf).
  - intros who w Hwn Hr. destruct (tf_router Htf _ _ Hwn Hr) as (lu & mu & Hup & Hchild).
    exists lu, mu. split; [assumption|]. split; [|split; [assumption|]].
    + intro E. apply (tf_zero Htf lu); [|assumption].
      exists (who, up who), mu. exact (port_of_intro Hwn Hup).
    + intro Hne. apply (Hw who w lu mu); assumption.
  - apply (tf_parent Htf).
Qed.
