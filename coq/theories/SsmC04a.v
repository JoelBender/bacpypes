(* SsmC04a.v — C04 on the client transaction, handler by handler: every handler of ClientSSM emits at most one application
   outcome, exactly when the transaction leaves the table; a transaction that left has no timer, one that stays has its
   timer armed.  Also the tactics and equations that run a handler symbolically (used for the server handlers and the other
   properties as well).

   A handler is run in one of three ways, by the kind of statement:
   - what one run guarantees, path by path (post, post_srv, idle_spec, a budget step): destruct the record (start_handler,
     destruct_ssm), unfold the handler and the sub-handlers it calls, then `path_split; finish_post`.  To look at a clause
     that fails: `path_split. all: try finish_post.` leaves the open paths, each with its decided tests in the context.
   - a property that every primitive in the text preserves (a field never written, a key, a bound on deadlines):
     `inv_auto prim` of SsmFrame.v on the folded state.
   - one path, under hypotheses that decide every test: `run_m` up to a test, rewrite the test with its hypothesis, pass
     set_state / an abort with the run equations below (set_state_run, _final, _armed, s_abort_run, c_abort_run,
     fill_loop_run); a dispatcher with its case lemma (SsmFrame.c_confirmation_cases, s_indication_cases,
     s_indication_idle, s_idle_not_request, SsmC04.c_process_task_cases). *)
From Bac Require Import Base PyRt Ssm.
Open Scope Z_scope.

Definition is_toapp (o : out) : bool := match o with ToApp _ => true | Tx _ => false end.
Definition ntoapp (l : list out) : Z := zlen (filter is_toapp l).
Definition terminal (s : ssm) : bool := (s_state s =? COMPLETED) || (s_state s =? ABORTED).

Definition same_cfg (s s' : ssm) : Prop :=
  s_peer s' = s_peer s /\ s_retries s' = s_retries s /\ s_apdu_to s' = s_apdu_to s /\ s_seg_to s' = s_seg_to s /\
  s_propwin s' = s_propwin s /\ s_app_to s' = s_app_to s /\ s_segsupp s' = s_segsupp s /\ s_dinfo s' = s_dinfo s.

(* two clauses speak of the timer of a transaction that stays: armed if the handler did not raise, and armed if it was
   armed before (also when it raises; the serving side carries this one through whole histories, SsmC04s.post_srv) *)
Definition post (st : hst) (r : hst * option err) : Prop :=
  let st' := fst r in
  h_now st' = h_now st /\ h_ctr st <= h_ctr st' /\
  same_cfg (h_s st) (h_s st') /\
  ntoapp (h_outs st') <= 1 /\
  (ntoapp (h_outs st') = 1 <-> h_live st' = false) /\
  (h_live st' = false <-> terminal (h_s st') = true) /\
  (h_live st' = false -> s_timer (h_s st') = None) /\
  (h_live st' = true -> snd r = None -> s_timer (h_s st') <> None) /\
  (h_live st' = true -> s_timer (h_s st) <> None -> s_timer (h_s st') <> None) /\
  (* the outcome is the last thing the handler emits (h_outs is newest first) *)
  (h_live st' = false -> match h_outs st' with ToApp _ :: _ => True | _ => False end).

Definition pre (st : hst) : Prop :=
  h_live st = true /\ h_outs st = [] /\ terminal (h_s st) = false /\ 0 < s_apdu_to (h_s st) /\ 0 < s_seg_to (h_s st).

Lemma terminal_false : forall s, s_state s <> COMPLETED -> s_state s <> ABORTED -> terminal s = false.
Proof. intros s H1 H2. unfold terminal. apply Z.eqb_neq in H1, H2. rewrite H1, H2. reflexivity. Qed.

Ltac destruct_ssm s :=
  destruct s as [x_peer x_inv x_state x_ctx x_segsz x_segcnt x_rty x_srty x_sall x_lsq x_isq x_awin
                 x_rts x_ato x_sto x_ssup x_msegs x_mapdu x_sra x_tmr x_dinf x_pwin x_appto].

Definition only_tx (l : list out) : Prop := forall o, In o l -> is_toapp o = false.

Definition filled (st0 st : hst) : Prop :=
  h_ctr st = h_ctr st0 /\ h_now st = h_now st0 /\ h_live st = h_live st0 /\
  (exists b, h_s st = set_sentall_f b (h_s st0)) /\
  (exists txs, h_outs st = txs ++ h_outs st0 /\ only_tx txs).

Lemma fill_loop_run : forall n seqNum ix st, exists frames b e,
  fill_loop n seqNum ix st =
    (mkH (set_sentall_f b (h_s st)) (rev (map Tx frames) ++ h_outs st) (h_ctr st) (h_now st) (h_live st), e) /\
  (length frames <= n)%nat /\
  forall j a, nth_error frames j = Some a -> get_segment (h_s st) (seqNum + ix + Z.of_nat j) = Ok a.
Proof.
  assert (Stop : forall n seqNum ix (st : hst) (e : option err), exists frames b e',
            (st, e) = (mkH (set_sentall_f b (h_s st)) (rev (map Tx frames) ++ h_outs st) (h_ctr st) (h_now st) (h_live st), e') /\
            (length frames <= n)%nat /\
            forall j a, nth_error frames j = Some a -> get_segment (h_s st) (seqNum + ix + Z.of_nat j) = Ok a).
  { intros n seqNum ix [[] ? ? ? ?] e. exists [], s_sentall, e.
    split; [reflexivity | split; [apply Nat.le_0_l | intros [|j] a H; discriminate H]]. }
  induction n as [|n IH]; intros seqNum ix st; cbn [fill_loop]; [apply Stop|].
  unfold withs. destruct (get_segment (h_s st) (seqNum + ix)) as [a|err] eqn:Eg; [|apply Stop].
  unfold mseq, emit. destruct (a_mor a).
  - destruct (IH seqNum (ix + 1) (mkH (h_s st) (Tx a :: h_outs st) (h_ctr st) (h_now st) (h_live st))) as (fr & b & e & H1 & H2 & H3).
    exists (a :: fr), b, e. rewrite H1. cbn [h_s h_outs h_ctr h_now h_live map rev length]. rewrite <- app_assoc.
    split; [reflexivity | split; [lia|]]. intros [|j] x Hj; cbn [nth_error] in Hj.
    + injection Hj as <-. rewrite <- Eg. f_equal. lia.
    + rewrite <- (H3 j x Hj). f_equal. lia.
  - exists [a], true, None. split; [reflexivity | split; [cbn; lia|]].
    intros [|[|j]] x Hj; try discriminate Hj. injection Hj as <-. rewrite <- Eg. f_equal. lia.
Qed.

Lemma fill_window_effect : forall seqNum st st' e, fill_window seqNum st = (st', e) -> filled st st'.
Proof.
  intros seqNum st st' e H. unfold fill_window, withs in H.
  assert (Stop : forall e0, (st, e0) = (st', e) -> filled st st').
  { intros e0 [= <- _]. repeat split; [exists (s_sentall (h_s st)); destruct st as [[] ? ? ? ?]; reflexivity|].
    exists []. split; [reflexivity | intros o []]. }
  destruct (s_actwin (h_s st)) as [w|]; [|exact (Stop _ H)].
  destruct (fill_loop_run (Z.to_nat w) seqNum 0 st) as (fr & b & e' & H1 & _). rewrite H1 in H. injection H as <- _.
  repeat split; [exists b; reflexivity | exists (rev (map Tx fr)); split; [reflexivity|]].
  intros o Ho. apply in_rev, in_map_iff in Ho. destruct Ho as (x & <- & _). reflexivity.
Qed.

Lemma ntoapp_only_tx : forall txs l, only_tx txs -> ntoapp (txs ++ l) = ntoapp l.
Proof.
  intros txs l H. unfold ntoapp. rewrite filter_app.
  replace (filter is_toapp txs) with (@nil out); [reflexivity|].
  induction txs as [|o r IH]; [reflexivity|]. cbn [filter].
  rewrite (H o (or_introl eq_refl)). apply IH. intros o' Ho'. apply H. right. exact Ho'.
Qed.

(* a handler goes through set_state at most once on a path *)
Lemma set_state_run : forall new timer st, terminal (h_s st) = false ->
  set_state new timer st =
    (mkH (set_timer_f (if timer =? 0 then None else Some (h_now st + timer, h_ctr st)) (set_state_f new (h_s st)))
         (h_outs st) (if timer =? 0 then h_ctr st else h_ctr st + 1) (h_now st)
         (if (new =? COMPLETED) || (new =? ABORTED) then false else h_live st), None).
Proof.
  intros new timer st H. unfold set_state, withs. unfold terminal in H. rewrite H.
  destruct (timer =? 0), ((new =? COMPLETED) || (new =? ABORTED)); reflexivity.
Qed.

Lemma s_abort_run : forall r k st, terminal (h_s st) = false ->
  s_abort r k st = k (mk_abort true (s_invoke (h_s st)) r)
                     (mkH (set_timer_f None (set_state_f ABORTED (h_s st))) (h_outs st) (h_ctr st) (h_now st) false).
Proof. intros r k st T. unfold s_abort, mseq. rewrite set_state_run by exact T. reflexivity. Qed.

Lemma c_abort_run : forall r k st, terminal (h_s st) = false ->
  c_abort r k st = k (mk_abort false (s_invoke (h_s st)) r)
                     (mkH (set_timer_f None (set_state_f ABORTED (h_s st))) (h_outs st) (h_ctr st) (h_now st) false).
Proof. intros r k st T. unfold c_abort, mseq. rewrite set_state_run by exact T. reflexivity. Qed.

(* the two instances a handler's text nearly always decides *)
Lemma set_state_final : forall n st, terminal (h_s st) = false -> (n =? COMPLETED) || (n =? ABORTED) = true ->
  set_state n 0 st = (mkH (set_state_f n (set_timer_f None (h_s st))) (h_outs st) (h_ctr st) (h_now st) false, None).
Proof. intros n st H Hn. rewrite set_state_run by exact H. rewrite Hn. reflexivity. Qed.

Lemma set_state_armed : forall n t st, terminal (h_s st) = false -> (n =? COMPLETED) || (n =? ABORTED) = false -> t <> 0 ->
  set_state n t st = (mkH (set_state_f n (set_timer_f (Some (h_now st + t, h_ctr st)) (h_s st))) (h_outs st) (h_ctr st + 1)
                          (h_now st) (h_live st), None).
Proof. intros n t st H Hn Ht. rewrite set_state_run by exact H. apply Z.eqb_neq in Ht. rewrite Hn, Ht. reflexivity. Qed.

(* the normal form of a handler applied to a state; mcbn0 leaves set_state folded *)
Ltac mcbn0 := cbv beta iota zeta delta
                 [mseq upd emit withs raise ret start_timer stop_timer unlist send_seg
                  h_s h_outs h_ctr h_now h_live fst snd
                  s_peer s_invoke s_state s_ctx s_segsize s_segcount s_retry s_segretry s_sentall s_lastseq s_initseq s_actwin
                  s_retries s_apdu_to s_seg_to s_segsupp s_maxsegs s_maxapdu s_sra s_timer s_dinfo s_propwin s_app_to
                  set_state_f set_timer_f set_invoke_f set_ctx_f set_seg_f set_retry_f set_segretry_f set_sentall_f
                  set_lastseq_f set_initseq_f set_actwin_f set_limits_f].
Ltac mcbn := mcbn0; unfold set_state; mcbn0.
(* the same on a state that is a variable: only the combinators run, up to the next test; the record and its setters stay
   folded, so that a hypothesis about `h_s st` still rewrites *)
Ltac run_m := cbv beta iota zeta delta [mseq upd emit withs raise ret]; cbn [h_s h_outs h_ctr h_now h_live fst snd].

(* closes one path: after normalising, each clause of `post` is an equation between closed record fields, a count over a
   literal outbox (frames of fill_window dropped by ntoapp_only_tx) or follows from a test in the context *)
Ltac finish_post :=
  unfold post, same_cfg, terminal; mcbn; cbn [app];
  rewrite ?ntoapp_only_tx by assumption;
  unfold ntoapp, zlen; cbn;
  repeat split; intros; first [exact I | reflexivity | discriminate | assumption | congruence | lia | auto].

(* runs a handler on a destructed record down to its paths: set_state goes by the equation whose side conditions the
   context proves (unfolded if none applies), fill_window by its effect; then splits on the first test left, dropping a
   branch whose test is a closed contradiction *)
Ltac path_split :=
  repeat (mcbn0;
    lazymatch goal with
    | |- context [set_state ?n ?t ?st] =>
        first [ rewrite (set_state_final n st) by first [assumption | reflexivity]
              | rewrite (set_state_armed n t st) by first [assumption | reflexivity | lia]
              | unfold set_state ]
    | |- context [fill_window ?n ?st] =>
        let st' := fresh "st'" in let e := fresh "e" in let Hfw := fresh "Hfw" in
        let b := fresh "b" in let txs := fresh "txs" in let Htx := fresh "Htx" in
        destruct (fill_window n st) as [st' e] eqn:Hfw;
        apply fill_window_effect in Hfw;
        destruct st' as [? ? ? ? ?]; cbv beta iota delta [filled h_s h_outs h_ctr h_now h_live] in Hfw;
        destruct Hfw as (-> & -> & -> & (b & ->) & (txs & -> & Htx));
        destruct e
    | |- context [if ?b then _ else _] => let E := fresh "E" in destruct b eqn:E; try (cbn in E; discriminate E)
    | |- context [match ?x with Some _ => _ | None => _ end] => let E := fresh "E" in destruct x eqn:E
    | |- context [match ?x with Ok _ => _ | Err _ => _ end] => let E := fresh "E" in destruct x eqn:E
    end).

Ltac start_handler :=
  intros [s outs ctr now live] (Hl & Ho & Ht & Ha & Hs); cbn [h_s h_outs h_live] in *; subst live outs;
  destruct_ssm s; unfold terminal in Ht; cbn [s_state s_apdu_to s_seg_to s_timer] in *.

Lemma c_await_confirmation_post : forall a st, pre st -> post st (c_await_confirmation a st).
Proof.
  intros a. start_handler.
  unfold c_await_confirmation, c_abort.
  path_split; finish_post.
Qed.

Lemma c_segmented_request_post : forall a st, pre st -> post st (c_segmented_request a st).
Proof.
  intros a. start_handler.
  unfold c_segmented_request, c_abort.
  path_split; finish_post.
Qed.

Lemma c_segmented_confirmation_post : forall a st, pre st -> post st (c_segmented_confirmation a st).
Proof.
  intros a. start_handler.
  unfold c_segmented_confirmation, c_abort, append_segment, actwin_z.
  path_split; finish_post.
Qed.

Lemma c_indication_post : forall a st, pre st -> post st (c_indication a st).
Proof.
  intros a. start_handler.
  unfold c_indication, c_abort.
  path_split; finish_post.
Qed.

Lemma c_segmented_request_timeout_post : forall st, pre st -> post st (c_segmented_request_timeout st).
Proof.
  start_handler.
  unfold c_segmented_request_timeout, c_abort.
  path_split; finish_post.
Qed.

Lemma post_then_retry : forall st st0 (m : M) v, post st (m st0) -> post st ((m ;; upd (set_retry_f v)) st0).
Proof.
  intros st st0 m v H. unfold mseq. destruct (m st0) as [[s' outs' ctr' now' live'] [e|]]; [exact H|].
  unfold post, same_cfg, terminal in *. destruct_ssm s'. revert H. mcbn. exact (fun H => H).
Qed.

Lemma c_segmented_confirmation_timeout_post : forall st, pre st -> post st (c_segmented_confirmation_timeout st).
Proof.
  start_handler.
  unfold c_segmented_confirmation_timeout, c_abort.
  path_split; finish_post.
Qed.

Lemma c_await_confirmation_timeout_eq : forall st,
  c_await_confirmation_timeout st =
  if s_retry (h_s st) <? s_retries (h_s st)
  then let st1 := mkH (set_retry_f (s_retry (h_s st) + 1) (h_s st)) (h_outs st) (h_ctr st) (h_now st) (h_live st) in
       match s_ctx (h_s st) with
       | Some c => (c_indication c ;; upd (set_retry_f (s_retry (h_s st) + 1))) st1
       | None => (st1, Some AttrErr)
       end
  else c_segmented_confirmation_timeout st.
Proof.
  intros st. unfold c_await_confirmation_timeout, withs.
  destruct (_ <? _); [|reflexivity]. destruct (s_ctx (h_s st)); reflexivity.
Qed.

Lemma c_await_confirmation_timeout_post : forall st, pre st -> post st (c_await_confirmation_timeout st).
Proof.
  intros st Hpre. rewrite c_await_confirmation_timeout_eq.
  destruct (_ <? _); [|apply c_segmented_confirmation_timeout_post; exact Hpre].
  (* the retry count is read by no clause of pre and post *)
  cbv zeta. set (st1 := mkH _ _ _ _ _). destruct (s_ctx (h_s st)) as [c|].
  - change (post st1 ((c_indication c ;; upd (set_retry_f (s_retry (h_s st) + 1))) st1)).
    apply post_then_retry. apply c_indication_post. exact Hpre.
  - subst st1. revert st Hpre. start_handler. finish_post.
Qed.
