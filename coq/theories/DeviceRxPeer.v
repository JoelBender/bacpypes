(* DeviceRxPeer.v — the key under which DeviceRx.v files a transaction (Ssm.s_peer : Z) determines the station. *)
From Coq Require Import ZifyBool ZifyN.
From Bac Require Import Base DeviceRx.
Open Scope Z_scope.

Definition mstep (acc : Z) (b : N) : Z := acc * 256 + Z.of_N b.

Lemma fold_mstep_ge m : forall c0, 1 <= c0 -> 1 <= fold_left mstep m c0.
Proof. induction m as [|b r IH]; intros c0 H; cbn [fold_left]; [exact H|]. apply IH. unfold mstep. lia. Qed.

Lemma mac_decode_one fuel l : mac_decode fuel 1 l = l.
Proof. destruct fuel; reflexivity. Qed.

(* mac_decode peels the LAST octet first, hence the induction from the right *)
Lemma mac_decode_fold m : forall fuel acc c0, 1 <= c0 -> bytes_ok m = true -> (length m <= fuel)%nat ->
  mac_decode fuel (fold_left mstep m c0) acc = mac_decode (fuel - length m) c0 (m ++ acc).
Proof.
  induction m as [|b r IH] using rev_ind; intros fuel acc c0 Hc Hb Hl.
  - cbn [fold_left length app]. rewrite Nat.sub_0_r. reflexivity.
  - rewrite fold_left_app. cbn [fold_left]. rewrite app_length in Hl. cbn [length] in Hl.
    unfold bytes_ok in Hb. rewrite forallb_app in Hb. apply andb_true_iff in Hb. destruct Hb as (Hr & Hb1).
    cbn [forallb] in Hb1. unfold byte_ok in Hb1.
    pose proof (fold_mstep_ge r c0 Hc) as Hge. set (c' := fold_left mstep r c0) in *.
    destruct fuel as [|fuel]; [lia|]. cbn [mac_decode]. unfold mstep at 1.
    replace (c' * 256 + Z.of_N b <=? 1) with false by lia.
    unfold mstep.
    replace ((c' * 256 + Z.of_N b) / 256) with c' by lia.
    replace (Z.to_N ((c' * 256 + Z.of_N b) mod 256)) with b by lia.
    subst c'. rewrite (IH fuel (b :: acc) c0 Hc Hr ltac:(lia)). rewrite app_length. cbn [length].
    rewrite <- app_assoc. cbn [app]. f_equal. lia.
Qed.

Lemma peer_decode_code net m : bytes_ok m = true -> (length m <= 300)%nat ->
  match net with Some n => (n < 65536)%N | None => True end ->
  peer_decode (peer_code net m) = (net, m).
Proof.
  intros Hb Hl Hn. unfold peer_decode, peer_code, mac_code.
  change (fun (acc : Z) (b : N) => acc * 256 + Z.of_N b) with mstep.
  pose proof (fold_mstep_ge m 1 ltac:(lia)) as Hge. set (mc := fold_left mstep m 1) in *.
  set (k := match net with None => 0 | Some n => Z.of_N n + 1 end).
  assert (Hk : 0 <= k < 131072) by (subst k; destruct net; lia).
  replace ((mc * 131072 + k) mod 131072) with k by lia.
  replace ((mc * 131072 + k) / 131072) with mc by lia.
  subst mc. rewrite (mac_decode_fold m 300 [] 1 ltac:(lia) Hb Hl), mac_decode_one, app_nil_r.
  f_equal. subst k. destruct net as [n|]; [|reflexivity].
  replace (Z.of_N n + 1 =? 0) with false by lia. f_equal. lia.
Qed.
