(* ScheduleFacts.v — lemmas about the interpreter model (ScheduleEval.v) against ScheduleSpec.v *)
From Bac Require Import Base ListFacts PyRt Calendar CalendarFacts ScheduleEval ScheduleSpec.
From BacGen Require Import ScheduleFns.
Open Scope Z_scope.

Lemma res_decides : forall (r : res bool) (P : Prop), (exists b, r = Ok b) -> (r = Ok true <-> P) ->
  exists b, r = Ok b /\ (b = true <-> P).
Proof. intros r P [b Hb] H. exists b. split; [exact Hb|]. rewrite <- H, Hb. split; congruence. Qed.

Lemma Forall2_nth_error : forall (A : Type) (R : A -> A -> Prop) (s s' : list A), length s = length s' ->
  (forall j a b, nth_error s j = Some a -> nth_error s' j = Some b -> R a b) -> Forall2 R s s'.
Proof.
  intros A R s. induction s as [|x r IH]; intros [|y r'] Hl H; try discriminate; constructor.
  - apply (H 0%nat); reflexivity.
  - apply IH; [now inversion Hl|]. intros j a b Ha Hb. apply (H (S j)); assumption.
Qed.

(* the order on times: take the times and the comparisons apart, the rest is linear arithmetic *)
Ltac t4_order :=
  intros;
  repeat match goal with x : T4 |- _ => destruct x as [[[? ?] ?] ?] end;
  unfold t4_min, t4_le, t4_lt, next_day, valid_time in *;
  repeat match goal with
         | |- context [if ?c then _ else _] => destruct c eqn:?
         | H : context [if ?c then _ else _] |- _ => destruct c eqn:?
         end;
  lia.

Lemma t4_le_refl : forall a : T4, t4_le a a = true. Proof. t4_order. Qed.
Lemma t4_le_trans : forall a b c : T4, t4_le a b = true -> t4_le b c = true -> t4_le a c = true.
Proof. t4_order. Qed.
Lemma t4_lt_le_trans : forall a b c : T4, t4_lt a b = true -> t4_le b c = true -> t4_lt a c = true.
Proof. t4_order. Qed.
Lemma t4_le_lt_trans : forall a b c : T4, t4_le a b = true -> t4_lt b c = true -> t4_lt a c = true.
Proof. t4_order. Qed.
Lemma t4_le_false_lt : forall a b : T4, t4_le a b = false -> t4_lt b a = true.
Proof. t4_order. Qed.
Lemma t4_lt_not_le : forall a b : T4, t4_lt a b = true -> t4_le b a = false.
Proof. t4_order. Qed.
Lemma t4_lt_min : forall t a b : T4, t4_lt t (t4_min a b) = true <-> t4_lt t a = true /\ t4_lt t b = true.
Proof. t4_order. Qed.
Lemma t4_min_le_l : forall a b : T4, t4_le (t4_min a b) a = true. Proof. t4_order. Qed.
Lemma t4_lt_next_day : forall t : T4, valid_time t -> t4_lt t next_day = true. Proof. t4_order. Qed.
Lemma t4_lt_le : forall a b : T4, t4_lt a b = true -> t4_le a b = true. Proof. t4_order. Qed.

Lemma upd_length : forall i f s, length (upd i f s) = length s.
Proof. intros i f s. revert i. induction s as [|x r IH]; intros [|k]; cbn; auto. Qed.
Lemma upd_upd : forall i f g s, upd i f (upd i g s) = upd i (fun x => f (g x)) s.
Proof. intros i f g s. revert i. induction s as [|x r IH]; intros [|k]; cbn; auto. now rewrite IH. Qed.
Lemma upd_id : forall i f s, (forall x, f x = x) -> upd i f s = s.
Proof. intros i f s H. revert i. induction s as [|x r IH]; intros [|k]; cbn; auto; now (rewrite H || rewrite IH). Qed.
Lemma nth_error_upd_same : forall i f s x, nth_error s i = Some x -> nth_error (upd i f s) i = Some (f x).
Proof. intros i f s. revert i. induction s as [|y r IH]; intros [|k] x H; cbn in *; try discriminate; auto. now inversion H. Qed.
Lemma nth_error_upd_other : forall i j f s, i <> j -> nth_error (upd i f s) j = nth_error s j.
Proof. intros i j f s. revert i j. induction s as [|y r IH]; intros [|k] [|j] H; cbn in *; auto; try congruence. Qed.

Fixpoint tv_slot (tvs : list TV) (t : T4) (x : slot) : slot :=
  match tvs with
  | [] => x
  | (tv, v) :: r =>
      if t4_le tv t then tv_slot r t (match v with None => (None, None) | Some y => (Some y, Some next_day) end)
      else (fst x, Some tv)
  end.

Lemma tv_loop_upd : forall tvs t i s, tv_loop tvs t i s = upd i (tv_slot tvs t) s.
Proof.
  induction tvs as [|[tv v] r IH]; intros t i s; cbn [tv_loop tv_slot].
  - symmetry. now apply upd_id.
  - destruct (t4_le tv t).
    + rewrite IH, upd_upd. reflexivity.
    + reflexivity.
Qed.

Lemma cur_from_later : forall tvs t acc, (forall x, In x tvs -> t4_le (fst x) t = false) -> cur_from acc tvs t = acc.
Proof.
  induction tvs as [|[tv v] r IH]; intros t acc H; cbn; auto.
  pose proof (H (tv, v) (or_introl eq_refl)) as H0. cbn [fst] in H0. rewrite H0. apply IH. intros x Hx. apply H. now right.
Qed.

Lemma sorted_later : forall tv (r : list TV) t, (forall x, In x r -> t4_le tv (fst x) = true) -> t4_le tv t = false ->
  forall y, In y r -> t4_le (fst y) t = false.
Proof.
  intros tv r t Hle E y Hy. apply t4_lt_not_le. apply (t4_lt_le_trans _ tv); [now apply t4_le_false_lt|now apply Hle].
Qed.

Lemma tv_slot_value : forall tvs t x, sorted_tvs tvs -> fst (tv_slot tvs t x) = cur_from (fst x) tvs t.
Proof.
  induction tvs as [|[tv v] r IH]; intros t x Hs; cbn [tv_slot cur_from]; auto.
  destruct Hs as [Hle Hs]. destruct (t4_le tv t) eqn:E.
  - rewrite IH by assumption. destruct v; reflexivity.
  - cbn [fst]. symmetry. apply cur_from_later. now apply (sorted_later tv).
Qed.

Lemma tv_slot_cur : forall tvs t, sorted_tvs tvs -> fst (tv_slot tvs t (None, None)) = cur_val tvs t.
Proof. intros tvs t Hs. now rewrite (tv_slot_value tvs t (None, None) Hs). Qed.

Lemma tv_slot_stable : forall tvs t t' x, t4_le t t' = true ->
  (forall q, snd (tv_slot tvs t x) = Some q -> t4_lt t' q = true) ->
  fst (tv_slot tvs t' x) = fst (tv_slot tvs t x).
Proof.
  induction tvs as [|[tv v] r IH]; intros t t' x Hle H; cbn [tv_slot] in *; auto.
  destruct (t4_le tv t) eqn:E.
  - rewrite (t4_le_trans _ _ _ E Hle). apply IH; assumption.
  - cbn [snd fst] in *. specialize (H tv eq_refl). now rewrite (t4_lt_not_le _ _ H).
Qed.

Lemma date_in_centry_denotes : forall d c, valid_date d -> wf_centry c ->
  exists b, date_in_centry d c = Ok b /\ (b = true <-> centry_denotes c d).
Proof.
  intros d c Hd Hwf. destruct c as [p | r | w |]; cbn in *; try contradiction; apply res_decides.
  - now apply match_date_total. - now apply match_date_denotes.
  - apply match_date_range_total. - now apply match_date_range_denotes.
  - now apply match_weeknday_total. - now apply match_weeknday_denotes.
Qed.

Lemma match_any_denotes : forall d l, valid_date d -> (forall c, In c l -> wf_centry c) ->
  exists b, match_any d l = Ok b /\ (b = true <-> exists c, In c l /\ centry_denotes c d).
Proof.
  intros d l Hd. induction l as [|c r IH]; intros Hwf; cbn [match_any].
  - exists false. split; auto. split; [discriminate | intros (c & [] & _)].
  - destruct (date_in_centry_denotes d c Hd (Hwf c (or_introl eq_refl))) as (b & Hb & Hbd).
    rewrite Hb. cbn [bind]. destruct b.
    + exists true. split; auto. split; auto. intros _. exists c. split; [now left | now apply Hbd].
    + destruct IH as (b' & Hb' & Hbd'); [intros; apply Hwf; now right|].
      exists b'. split; auto. rewrite Hbd'. split.
      * intros (c' & Hin & Hc'). exists c'. split; [now right | auto].
      * intros (c' & [Heq | Hin] & Hc'); [subst c'; apply Hbd in Hc'; discriminate | exists c'; auto].
Qed.

Lemma match_period_denotes : forall d p, valid_date d -> wf_period p ->
  exists b, match_period d p = Ok b /\ (b = true <-> period_denotes p d).
Proof.
  intros d p Hd Hwf. destruct p as [| c | [l|]]; cbn in *; try contradiction.
  - now apply date_in_centry_denotes.
  - now apply match_any_denotes.
Qed.

Lemma wf_sched_event : forall c d e, wf_sched c d -> In e (excs c) -> wf_event e.
Proof. intros c d e (_ & Hev & _). now apply Forall_forall. Qed.
Lemma wf_sched_weekly : forall c d, wf_sched c d -> wf_weekly (weekly c).
Proof. intros c d (_ & _ & _ & Hw). exact Hw. Qed.

Definition ev_slot (e : sevent) : nat := Z.to_nat (prio_of e - 1).
Definition in_forceb (d : D4) (e : sevent) : bool :=
  match match_period d (se_period e) with Ok true => true | _ => false end.
Definition active_events (d : D4) (evs : list sevent) : list sevent := filter (in_forceb d) evs.
Definition apply_event (t : T4) (s : slots) (e : sevent) : slots := upd (ev_slot e) (tv_slot (se_tvs e) t) s.

Lemma in_forceb_spec : forall d e, valid_date d -> wf_event e -> (in_forceb d e = true <-> in_force d e).
Proof.
  intros d e Hd (Hp & _ & _). unfold in_forceb, in_force.
  destruct (match_period_denotes d _ Hd Hp) as (b & Hb & Hbd). rewrite Hb, <- Hbd.
  destruct b; split; congruence.
Qed.

Lemma slot_index_ok : forall p, 1 <= p <= 16 -> slot_index p = Ok (Z.to_nat (p - 1)).
Proof.
  intros p H. unfold slot_index.
  replace (p - 1 <? 0) with false by lia.
  replace ((p - 1 <? 0) || (16 <=? p - 1)) with false by lia. reflexivity.
Qed.

Lemma ev_loop_fold : forall d t evs s, valid_date d -> Forall wf_event evs ->
  ev_loop d t evs s = Ok (fold_left (apply_event t) (active_events d evs) s).
Proof.
  intros d t evs s Hd H. revert s.
  induction H as [|e r He Hr IH]; intros s; cbn [ev_loop active_events filter fold_left]; auto.
  pose proof He as (Hp & (p & Hpe & Hpr) & Hs).
  unfold in_forceb at 1.
  destruct (match_period_denotes d _ Hd Hp) as (b & Hb & _). rewrite Hb. cbn [bind].
  destruct b; cbn [negb].
  - rewrite Hpe. cbn [bind fold_left].
    assert (Hidx : ev_slot e = Z.to_nat (p - 1)) by (unfold ev_slot, prio_of; now rewrite Hpe).
    unfold apply_event at 2. rewrite Hidx.
    destruct (se_tvs e) as [|tv0 tvr] eqn:Etv.
    + cbn [bind]. rewrite upd_id by reflexivity. apply IH.
    + rewrite (slot_index_ok p Hpr). cbn [bind]. rewrite tv_loop_upd. apply IH.
  - apply IH.
Qed.

Lemma fold_apply_event_length : forall t evs s, length (fold_left (apply_event t) evs s) = length s.
Proof.
  intros t evs. induction evs as [|e r IH]; intros s; cbn [fold_left]; auto.
  rewrite IH. apply upd_length.
Qed.

Definition find_ev_slot (j : nat) (evs : list sevent) : option sevent := find (fun e => Nat.eqb (ev_slot e) j) evs.

Lemma fold_apply_event_nth : forall t evs s,
  (forall e, In e evs -> nth_error s (ev_slot e) = Some (None, None)) -> NoDup (map ev_slot evs) ->
  forall j, nth_error (fold_left (apply_event t) evs s) j =
            match find_ev_slot j evs with
            | Some e => Some (tv_slot (se_tvs e) t (None, None))
            | None => nth_error s j
            end.
Proof.
  intros t evs. induction evs as [|e r IH]; intros s Hs Hnd j; cbn [fold_left find_ev_slot find]; auto.
  inversion Hnd as [|? ? Hnotin Hnd']; subst.
  rewrite IH; auto.
  - fold (find_ev_slot j r). destruct (Nat.eqb (ev_slot e) j) eqn:E.
    + apply Nat.eqb_eq in E. subst j.
      destruct (find_ev_slot (ev_slot e) r) as [e'|] eqn:F.
      * exfalso. apply find_some in F. destruct F as [Hin Heq]. apply Nat.eqb_eq in Heq.
        apply Hnotin. rewrite <- Heq. now apply in_map.
      * unfold apply_event. apply nth_error_upd_same. apply Hs. now left.
    + destruct (find_ev_slot j r); auto. unfold apply_event. apply nth_error_upd_other.
      now apply Nat.eqb_neq.
  - intros e' Hin. unfold apply_event. rewrite nth_error_upd_other.
    + apply Hs. now right.
    + intro Heq. apply Hnotin. rewrite Heq. now apply in_map.
Qed.

Lemma nth_error_empty_slots : forall j, (j < 16)%nat -> nth_error empty_slots j = Some (None, None).
Proof.
  intros j H. do 16 (destruct j as [|j]; [reflexivity|]). lia.
Qed.
Lemma nth_error_empty_inv : forall j sl, nth_error empty_slots j = Some sl -> sl = (None, None).
Proof. intros j sl H. apply nth_error_In in H. now apply repeat_spec in H. Qed.

Lemma ev_slot_prio : forall e, wf_event e -> Z.of_nat (ev_slot e) = prio_of e - 1 /\ 1 <= prio_of e <= 16.
Proof. intros e (_ & (p & Hp & Hr) & _). unfold ev_slot, prio_of. rewrite Hp. lia. Qed.

Lemma active_events_in : forall d evs e, In e (active_events d evs) <-> In e evs /\ in_forceb d e = true.
Proof. intros. unfold active_events. apply filter_In. Qed.

Lemma active_events_nodup : forall d evs, valid_date d -> Forall wf_event evs -> distinct_priorities d evs ->
  NoDup (map ev_slot (active_events d evs)).
Proof.
  intros d evs Hd H. induction H as [|e r He Hr IH]; intros Hdp; cbn [active_events filter map].
  - constructor.
  - destruct Hdp as [Hhead Hdp]. destruct (in_forceb d e) eqn:M; [|now apply IH].
    cbn [map]. constructor; [|now apply IH].
    intro Hin. apply in_map_iff in Hin. destruct Hin as (e' & Heq & Hin').
    apply active_events_in in Hin'. destruct Hin' as [Hin' M'].
    assert (He' : wf_event e') by (rewrite Forall_forall in Hr; now apply Hr).
    apply (Hhead (proj1 (in_forceb_spec d e Hd He) M) e' Hin' (proj1 (in_forceb_spec d e' Hd He') M')).
    pose proof (ev_slot_prio e He). pose proof (ev_slot_prio e' He'). lia.
Qed.

Definition final_slots (c : sched) (d : D4) (t : T4) : slots :=
  fold_left (apply_event t) (active_events d (excs c)) empty_slots.
Definition slot_owner (c : sched) (d : D4) (j : nat) : option sevent :=
  find_ev_slot j (active_events d (excs c)).

Lemma sched_slots_distinct : forall c d, valid_date d -> wf_sched c d ->
  NoDup (map ev_slot (active_events d (excs c))).
Proof. intros c d Hd (_ & Hev & Hdp & _). now apply active_events_nodup. Qed.

Lemma final_slots_nth : forall c d t j, valid_date d -> wf_sched c d ->
  nth_error (final_slots c d t) j =
    match slot_owner c d j with
    | Some e => Some (tv_slot (se_tvs e) t (None, None))
    | None => nth_error empty_slots j
    end.
Proof.
  intros c d t j Hd Hwf. apply fold_apply_event_nth; [|now apply sched_slots_distinct].
  intros x Hx. apply active_events_in in Hx. pose proof (ev_slot_prio x (wf_sched_event c d x Hwf (proj1 Hx))).
  apply nth_error_empty_slots. lia.
Qed.

Lemma slot_owner_spec : forall c d j e, valid_date d -> wf_sched c d ->
  (slot_owner c d j = Some e <-> In e (excs c) /\ in_force d e /\ ev_slot e = j).
Proof.
  intros c d j e Hd Hwf.
  assert (A : forall x, In x (active_events d (excs c)) <-> In x (excs c) /\ in_force d x).
  { intro x. rewrite active_events_in.
    split; intros [Hin H]; (split; [exact Hin|]);
      now apply (in_forceb_spec d x Hd (wf_sched_event c d x Hwf Hin)). }
  unfold slot_owner, find_ev_slot. split.
  - intro F. apply find_some in F as [Hin Heq]. apply Nat.eqb_eq in Heq. apply A in Hin. tauto.
  - intros (Hin & Hf & <-). pose proof (proj2 (A e) (conj Hin Hf)) as Hact.
    destruct (find _ _) as [e'|] eqn:F.
    + apply find_some in F as [Hin' Heq]. apply Nat.eqb_eq in Heq.
      f_equal. exact (nodup_map_inj ev_slot _ e' e (sched_slots_distinct c d Hd Hwf) Hin' Hact Heq).
    + apply (find_none _ _ F) in Hact. now rewrite Nat.eqb_refl in Hact.
Qed.

Lemma final_slots_cur : forall c d t e, valid_date d -> wf_sched c d -> In e (excs c) -> in_force d e ->
  exists q, nth_error (final_slots c d t) (ev_slot e) = Some (cur_val (se_tvs e) t, q).
Proof.
  intros c d t e Hd Hwf Hin Hf. rewrite (final_slots_nth c d t _ Hd Hwf).
  rewrite (proj2 (slot_owner_spec c d _ e Hd Hwf) (conj Hin (conj Hf eq_refl))).
  destruct (wf_sched_event c d e Hwf Hin) as (_ & _ & Hsorted).
  rewrite <- (tv_slot_cur (se_tvs e) t Hsorted). destruct (tv_slot _ _ _) as [v q]. now exists q.
Qed.

Lemma final_slots_inv : forall c d t j sl, valid_date d -> wf_sched c d ->
  nth_error (final_slots c d t) j = Some sl ->
  sl = (None, None) \/
  exists e, In e (excs c) /\ in_force d e /\ ev_slot e = j /\ sl = tv_slot (se_tvs e) t (None, None).
Proof.
  intros c d t j sl Hd Hwf H. rewrite (final_slots_nth c d t j Hd Hwf) in H.
  destruct (slot_owner c d j) as [e|] eqn:O.
  - right. exists e. apply slot_owner_spec in O as (A & B & C); auto. inversion H. auto.
  - left. now apply nth_error_empty_inv in H.
Qed.

Lemma scan_some : forall s e0 v n, scan s e0 = (Some v, n) ->
  exists i q, nth_error s i = Some (Some v, q) /\
              forall j, (j < i)%nat -> exists y, nth_error s j = Some (None, y).
Proof.
  induction s as [|[v0 n0] r IH]; intros e0 v n H; cbn [scan] in H; [discriminate|].
  destruct v0 as [x|].
  - inversion H; subst. exists 0%nat, n0. split; auto. intros j Hj; lia.
  - apply IH in H. destruct H as (i & q & Hi & Hlt). exists (S i), q. split; auto.
    intros [|j] Hj; [exists n0; reflexivity | apply Hlt; lia].
Qed.

Lemma scan_none : forall s e0 n, scan s e0 = (None, n) -> forall j sl, nth_error s j = Some sl -> fst sl = None.
Proof.
  induction s as [|[v0 n0] r IH]; intros e0 n H j sl Hj; cbn [scan] in H.
  - destruct j; discriminate.
  - destruct v0 as [x|]; [discriminate|]. destruct j as [|j]; cbn in Hj.
    + now inversion Hj.
    + eapply IH; eauto.
Qed.

Lemma scan_snd_lt : forall s e0 t', t4_lt t' (snd (scan s e0)) = true -> t4_lt t' e0 = true.
Proof.
  induction s as [|[v0 n0] r IH]; intros e0 t' H; cbn [scan] in H; auto.
  assert (Hm : t4_lt t' (match n0 with Some x => t4_min e0 x | None => e0 end) = true)
    by (destruct v0; [exact H | now apply IH in H]).
  destruct n0; auto. now apply t4_lt_min in Hm.
Qed.

(* Never stale.  a is a slot at the evaluated time, b the same slot at a later time t': if t' is before the slot's
   own next transition the value is the same (tv_slot_stable).  The scan folds the next transition of every slot it
   passes into the running minimum, so a t' before the reported minimum meets this premise for all the slots
   passed (scan_stable). *)
Definition slot_rel (t' : T4) (a b : slot) : Prop :=
  (forall q, snd a = Some q -> t4_lt t' q = true) -> fst b = fst a.

Lemma scan_stable : forall t' s s' e0 e0' ov n, Forall2 (slot_rel t') s s' ->
  scan s e0 = (ov, n) -> t4_lt t' n = true -> fst (scan s' e0') = ov.
Proof.
  intros t' s s' e0 e0' ov n H. revert e0 e0' ov n.
  induction H as [|[v0 n0] [v0' n0'] r r' Hrel Hr IH]; intros e0 e0' ov n Hs Hlt; cbn [scan] in *.
  - now inversion Hs.
  - set (e1 := match n0 with Some x => t4_min e0 x | None => e0 end) in *.
    assert (He1 : t4_lt t' e1 = true).
    { destruct v0; [inversion Hs; subst; exact Hlt |].
      apply (scan_snd_lt r e1). now rewrite Hs. }
    assert (Hv : v0' = v0).
    { apply Hrel. cbn [snd]. intros q Hq. subst n0. subst e1. now apply t4_lt_min in He1. }
    subst v0'. destruct v0.
    + inversion Hs; subst. reflexivity.
    + eapply IH; eauto.
Qed.

Lemma scan_le : forall s e0, t4_le (snd (scan s e0)) e0 = true.
Proof.
  induction s as [|[v0 n0] r IH]; intros e0; cbn [scan].
  - apply t4_le_refl.
  - assert (He1 : t4_le (match n0 with Some x => t4_min e0 x | None => e0 end) e0 = true)
      by (destruct n0; [apply t4_min_le_l | apply t4_le_refl]).
    destruct v0; auto. eapply t4_le_trans; eauto.
Qed.

Definition value_or (df : Z) (o : option Z) : Z := match o with Some x => x | None => df end.

Lemma day_loop_value : forall tvs t acc df e, sorted_tvs tvs ->
  fst (day_loop tvs t (value_or df acc) df e) = value_or df (cur_from acc tvs t).
Proof.
  induction tvs as [|[tv v] r IH]; intros t acc df e Hs; cbn [day_loop cur_from]; auto.
  destruct Hs as [Hle Hs]. destruct (t4_le tv t) eqn:E.
  - change (match v with Some x => x | None => df end) with (value_or df v). now apply IH.
  - cbn [fst]. f_equal. symmetry. apply cur_from_later. now apply (sorted_later tv).
Qed.

Lemma day_loop_stable : forall tvs t t' dv df e e' v n, t4_le t t' = true ->
  day_loop tvs t dv df e = (v, n) -> t4_lt t' n = true -> fst (day_loop tvs t' dv df e') = v.
Proof.
  induction tvs as [|[tv x] r IH]; intros t t' dv df e e' v n Hle H Hlt; cbn [day_loop] in *.
  - now inversion H.
  - destruct (t4_le tv t) eqn:E.
    + rewrite (t4_le_trans _ _ _ E Hle). eapply IH; eauto.
    + inversion H; subst. apply t4_lt_min in Hlt. destruct Hlt as [_ Hlt].
      now rewrite (t4_lt_not_le _ _ Hlt).
Qed.

Lemma day_loop_le : forall tvs t dv df e, t4_le (snd (day_loop tvs t dv df e)) e = true.
Proof.
  induction tvs as [|[tv x] r IH]; intros t dv df e; cbn [day_loop].
  - apply t4_le_refl.
  - destruct (t4_le tv t); auto. apply t4_min_le_l.
Qed.

Lemma weekly_day_in : forall c d, weekly_day c d = [] \/ exists w, weekly c = Some w /\ In (weekly_day c d) w.
Proof.
  intros c [[[y m] dd] dow]. unfold weekly_day. destruct (weekly c) as [w|]; [|now left].
  destruct (nth_in_or_default (Z.to_nat (dow - 1)) w []) as [Hin | ->]; [right; eauto|now left].
Qed.

Lemma weekly_day_sorted : forall c d, wf_weekly (weekly c) -> sorted_tvs (weekly_day c d).
Proof.
  intros c d Hw. destruct (weekly_day_in c d) as [-> | (w & E & Hin)]; [exact I|]. rewrite E in Hw. now apply Hw.
Qed.

Lemma weekly_get_ok : forall w dow, length w = 7%nat -> 1 <= dow <= 7 ->
  weekly_get w dow = Ok (nth (Z.to_nat (dow - 1)) w []).
Proof.
  intros w dow Hl Hd. unfold weekly_get, zlen. rewrite Hl.
  replace ((dow <? 0) || (Z.of_nat 7 <? dow)) with false by lia.
  replace (dow =? 0) with false by lia.
  destruct (nth_error w (Z.to_nat (dow - 1))) eqn:E.
  - now rewrite (nth_error_nth _ _ _ E).
  - apply nth_error_None in E. lia.
Qed.

Definition in_effectb (c : sched) (d : D4) : bool :=
  match match_date_range d (eff c) with Ok true => true | _ => false end.

Lemma in_effectb_spec : forall c d, valid_date d -> wf_sched c d -> (in_effectb c d = true <-> in_effect c d).
Proof.
  intros c d Hd (Hr & _). unfold in_effectb, in_effect. rewrite <- (match_date_range_denotes d (eff c) Hd Hr).
  destruct (match_date_range_total d (eff c)) as [[|] ->]; split; congruence.
Qed.

Lemma eval_shape : forall c d t, valid_date d -> wf_sched c d ->
  eval c d t =
  if in_effectb c d then
    match scan (final_slots c d t) next_day with
    | (Some v, e) => Ok (Some (v, e))
    | (None, e) => Ok (Some (day_loop (weekly_day c d) t (dflt c) (dflt c) e))
    end
  else Ok None.
Proof.
  intros c d t Hd (_ & Hev & _ & Hw). unfold eval, in_effectb.
  destruct (match_date_range_total d (eff c)) as [b ->]. cbn [bind].
  destruct b; cbn [negb]; auto.
  rewrite (ev_loop_fold d t (excs c) empty_slots Hd Hev). cbn [bind]. fold (final_slots c d t).
  destruct (scan (final_slots c d t) next_day) as [[v|] e]; auto.
  unfold weekly_day. destruct (weekly c) as [w|]; [|reflexivity].
  destruct Hw as [Hl Hsorted]. destruct d as [[[y m] dd] dow]. destruct Hd as (_ & _ & _ & Hdow).
  destruct w as [|w0 wr]; [discriminate Hl|].
  rewrite (weekly_get_ok (w0 :: wr) dow Hl Hdow). reflexivity.
Qed.

Theorem eval_spec : forall c d t v n, valid_date d -> wf_sched c d ->
  eval c d t = Ok (Some (v, n)) -> in_effect c d /\ spec_value c d t v.
Proof.
  intros c d t v n Hd Hwf H. rewrite (eval_shape c d t Hd Hwf) in H.
  destruct (in_effectb c d) eqn:Eb; [|discriminate]. split; [now apply (in_effectb_spec c d Hd Hwf)|].
  destruct (scan (final_slots c d t) next_day) as [[v0|] e0] eqn:Hscan.
  - inversion H; subst v0 e0. clear H. left.
    apply scan_some in Hscan. destruct Hscan as (i & q & Hi & Hbefore).
    destruct (final_slots_inv c d t i _ Hd Hwf Hi) as [Hc | (e & Hin & Hf & Hidx & _)]; [discriminate Hc|].
    exists e. repeat split; auto.
    + destruct (final_slots_cur c d t e Hd Hwf Hin Hf) as [q' Hq']. rewrite Hidx, Hi in Hq'. now inversion Hq'.
    + intros e' Hin' Hf' Hcur.
      pose proof (ev_slot_prio e (wf_sched_event c d e Hwf Hin)). pose proof (ev_slot_prio e' (wf_sched_event c d e' Hwf Hin')).
      destruct (Nat.le_gt_cases (ev_slot e) (ev_slot e')) as [Hle | Hgt]; [lia|]. exfalso.
      rewrite Hidx in Hgt. destruct (Hbefore _ Hgt) as [y Hy].
      destruct (final_slots_cur c d t e' Hd Hwf Hin' Hf') as [q' Hq']. rewrite Hy in Hq'. apply Hcur.
      now inversion Hq'.
  - right. split.
    + intros e Hin Hf. destruct (final_slots_cur c d t e Hd Hwf Hin Hf) as [q Hq].
      exact (scan_none _ _ _ Hscan _ _ Hq).
    + inversion H as [Hdl].
      pose proof (weekly_day_sorted c d (wf_sched_weekly c d Hwf)) as Hsorted.
      pose proof (day_loop_value (weekly_day c d) t None (dflt c) e0 Hsorted) as Hv.
      cbn [value_or] in Hv. rewrite Hdl in Hv. cbn [fst] in Hv. exact Hv.
Qed.

Lemma eval_total : forall c d t, valid_date d -> wf_sched c d ->
  (in_effect c d -> exists v n, eval c d t = Ok (Some (v, n))) /\
  (~ in_effect c d -> eval c d t = Ok None).
Proof.
  intros c d t Hd Hwf. rewrite (eval_shape c d t Hd Hwf), <- (in_effectb_spec c d Hd Hwf).
  destruct (in_effectb c d); split; intro Hin; try congruence.
  destruct (scan (final_slots c d t) next_day) as [[v0|] e0]; [now eauto|].
  destruct (day_loop (weekly_day c d) t (dflt c) (dflt c) e0) as [v n]. eauto.
Qed.

Lemma final_slots_rel : forall c d t t', valid_date d -> wf_sched c d -> t4_le t t' = true ->
  Forall2 (slot_rel t') (final_slots c d t) (final_slots c d t').
Proof.
  intros c d t t' Hd Hwf Hle. apply Forall2_nth_error.
  - unfold final_slots. now rewrite !fold_apply_event_length.
  - intros j a b Ha Hb.
    rewrite (final_slots_nth c d t j Hd Hwf) in Ha. rewrite (final_slots_nth c d t' j Hd Hwf) in Hb.
    destruct (slot_owner c d j) as [e|].
    + inversion Ha; inversion Hb; subst. intro Hq. now apply tv_slot_stable.
    + assert (a = b) by congruence. subst b. intro. reflexivity.
Qed.

Theorem eval_stable : forall c d t t' v n, valid_date d -> wf_sched c d ->
  eval c d t = Ok (Some (v, n)) -> t4_le t t' = true -> t4_lt t' n = true ->
  exists n', eval c d t' = Ok (Some (v, n')).
Proof.
  intros c d t t' v n Hd Hwf H Hle Hlt.
  pose proof (final_slots_rel c d t t' Hd Hwf Hle) as Hrel.
  rewrite (eval_shape c d t Hd Hwf) in H. rewrite (eval_shape c d t' Hd Hwf).
  destruct (in_effectb c d); [|discriminate].
  destruct (scan (final_slots c d t) next_day) as [[v0|] e0] eqn:Hscan.
  - inversion H; subst v0 e0.
    pose proof (scan_stable t' _ _ next_day next_day _ _ Hrel Hscan Hlt) as Hs'.
    destruct (scan (final_slots c d t') next_day) as [ov' e'] eqn:Hscan'. cbn [fst] in Hs'. subst ov'. eauto.
  - inversion H as [Hdl].
    assert (Hlt0 : t4_lt t' e0 = true).
    { eapply t4_lt_le_trans; [exact Hlt|].
      pose proof (day_loop_le (weekly_day c d) t (dflt c) (dflt c) e0) as Hle0. now rewrite Hdl in Hle0. }
    pose proof (scan_stable t' _ _ next_day next_day _ _ Hrel Hscan Hlt0) as Hs'.
    destruct (scan (final_slots c d t') next_day) as [ov' e'] eqn:Hscan'. cbn [fst] in Hs'. subst ov'.
    pose proof (day_loop_stable _ t t' (dflt c) (dflt c) e0 e' v n Hle Hdl Hlt) as Hv.
    destruct (day_loop (weekly_day c d) t' (dflt c) (dflt c) e') as [v' n'] eqn:Hdl'. cbn [fst] in Hv. subst v'.
    eauto.
Qed.

(* The reported transition is the minimum of next_day and of entries later than t, so any P that next_day has,
   that those entries have and that min preserves holds of it *)
Section Inherited.
Context (P : T4 -> Prop).
Context (P_next_day : P next_day).
Context (P_min : forall a b, P a -> P b -> P (t4_min a b)).

Lemma tv_slot_inherits : forall tvs t x q, (forall tv, In tv tvs -> t4_le (fst tv) t = false -> P (fst tv)) ->
  snd (tv_slot tvs t x) = Some q -> P q \/ snd x = Some q.
Proof.
  induction tvs as [|[tv v] r IH]; intros t x q Hl H; cbn [tv_slot] in *; auto.
  destruct (t4_le tv t) eqn:E.
  - apply IH in H; [|intros tv' Hin; apply Hl; now right]. destruct H as [H | H]; auto. left.
    destruct v; cbn in H; try discriminate. inversion H; subst. exact P_next_day.
  - cbn in H. inversion H; subst. left. exact (Hl (q, v) (or_introl eq_refl) E).
Qed.

Lemma scan_inherits : forall s e0, P e0 -> (forall sl q, In sl s -> snd sl = Some q -> P q) -> P (snd (scan s e0)).
Proof.
  induction s as [|[v0 n0] r IH]; intros e0 H0 Hs; cbn [scan]; auto.
  assert (He1 : P (match n0 with Some x => t4_min e0 x | None => e0 end)).
  { destruct n0 as [x|]; auto. apply P_min; auto. apply (Hs (v0, Some x)); [now left | reflexivity]. }
  destruct v0; auto. apply IH; auto. intros sl q Hin. apply Hs. now right.
Qed.

Lemma day_loop_inherits : forall tvs t dv df e, (forall tv, In tv tvs -> t4_le (fst tv) t = false -> P (fst tv)) ->
  P e -> P (snd (day_loop tvs t dv df e)).
Proof.
  induction tvs as [|[tv x] r IH]; intros t dv df e Hl He; cbn [day_loop]; auto.
  destruct (t4_le tv t) eqn:E.
  - apply IH; auto. intros tv' Hin. apply Hl. now right.
  - cbn [snd]. apply P_min; auto. exact (Hl (tv, x) (or_introl eq_refl) E).
Qed.

Lemma eval_inherits : forall c d t v n, valid_date d -> wf_sched c d ->
  (forall e, In e (excs c) -> forall tv, In tv (se_tvs e) -> t4_le (fst tv) t = false -> P (fst tv)) ->
  (forall tv, In tv (weekly_day c d) -> t4_le (fst tv) t = false -> P (fst tv)) ->
  eval c d t = Ok (Some (v, n)) -> P n.
Proof.
  intros c d t v n Hd Hwf Hex Hday H. rewrite (eval_shape c d t Hd Hwf) in H.
  destruct (in_effectb c d); [|discriminate].
  assert (Hslots : forall sl q, In sl (final_slots c d t) -> snd sl = Some q -> P q).
  { intros sl q Hin Hq. apply In_nth_error in Hin as [j Hj].
    destruct (final_slots_inv c d t j sl Hd Hwf Hj) as [-> | (e & Hin & _ & _ & ->)]; [discriminate|].
    destruct (tv_slot_inherits _ t _ q (Hex e Hin) Hq) as [H1 | H1]; [exact H1|discriminate]. }
  pose proof (scan_inherits (final_slots c d t) next_day P_next_day Hslots) as Hsa.
  destruct (scan (final_slots c d t) next_day) as [[v0|] e0]; cbn [snd] in *; inversion H as [Hdl]; subst; auto.
  pose proof (day_loop_inherits (weekly_day c d) t (dflt c) (dflt c) e0 Hday Hsa) as Ha. now rewrite Hdl in Ha.
Qed.
End Inherited.

Theorem eval_next_ahead : forall c d t v n, valid_date d -> wf_sched c d -> valid_time t ->
  eval c d t = Ok (Some (v, n)) -> t4_lt t n = true /\ t4_le n next_day = true.
Proof.
  intros c d t v n Hd Hwf Ht H. split.
  - apply (eval_inherits (fun q => t4_lt t q = true) (t4_lt_next_day t Ht)
             (fun a b Ha Hb => proj2 (t4_lt_min t a b) (conj Ha Hb)) c d t v n Hd Hwf); auto;
      intros; now apply t4_le_false_lt.
  - rewrite (eval_shape c d t Hd Hwf) in H.
    destruct (in_effectb c d); [|discriminate].
    pose proof (scan_le (final_slots c d t) next_day) as Hsl.
    destruct (scan (final_slots c d t) next_day) as [[v0|] e0]; cbn [snd] in *; inversion H as [Hdl]; subst; auto.
    pose proof (day_loop_le (weekly_day c d) t (dflt c) (dflt c) e0) as Hl. rewrite Hdl in Hl.
    eapply t4_le_trans; eauto.
Qed.

(* what the timer is armed for: 24:00 or a time of day in whole seconds (datetime_to_time drops the hundredths,
   so a transition with hundredths would be armed for an instant before it) *)
Definition arm_ok (n : T4) : Prop := n = next_day \/ (valid_time n /\ let '(_, _, _, h) := n in h = 0).
Definition good_tvs (l : list TV) : Prop := Forall (fun tv => valid_time (fst tv) /\ whole_tv tv) l.

Lemma arm_ok_min : forall a b, arm_ok a -> arm_ok b -> arm_ok (t4_min a b).
Proof. intros a b Ha Hb. unfold t4_min. destruct (t4_lt b a); assumption. Qed.

Definition good_sched (c : sched) : Prop :=
  (forall e, In e (excs c) -> good_tvs (se_tvs e)) /\
  (forall w, weekly c = Some w -> forall day, In day w -> good_tvs day).

Lemma weekly_day_good : forall c d, good_sched c -> good_tvs (weekly_day c d).
Proof.
  intros c d [_ Hg]. destruct (weekly_day_in c d) as [-> | (w & E & Hin)]; [constructor|exact (Hg w E _ Hin)].
Qed.

Lemma eval_arm : forall c d t v n, valid_date d -> wf_sched c d -> good_sched c ->
  eval c d t = Ok (Some (v, n)) -> arm_ok n.
Proof.
  intros c d t v n Hd Hwf Hg.
  assert (G : forall tvs, good_tvs tvs -> forall tv, In tv tvs -> t4_le (fst tv) t = false -> arm_ok (fst tv)).
  { intros tvs H tv Hin _. unfold good_tvs in H. rewrite Forall_forall in H. right. exact (H tv Hin). }
  apply (eval_inherits arm_ok (or_introl eq_refl) arm_ok_min c d t v n Hd Hwf).
  - intros e Hin. apply G, Hg, Hin.
  - apply G, weekly_day_good, Hg.
Qed.

Lemma normalise_arm : forall d n, arm_ok n ->
  has255 n = false /\ ((n = next_day /\ normalise d n = (next_date d, (0, 0, 0, 0))) \/ (n <> next_day /\ normalise d n = (d, n))).
Proof.
  intros d n [H | [Hv Hw]].
  - subst n. split; [reflexivity|]. left. split; reflexivity.
  - destruct n as [[[h m] s] x]. subst x. unfold valid_time in Hv.
    split; [unfold has255; lia|]. right. split; [unfold next_day; intro E; inversion E; lia|].
    unfold normalise.
    replace ((h * 3600 + m * 60 + s) / 86400) with 0 by (Z.div_mod_to_equations; lia).
    replace ((h * 3600 + m * 60 + s) mod 86400) with (h * 3600 + m * 60 + s) by (Z.div_mod_to_equations; lia).
    cbn [Z.to_nat nth_date]. repeat f_equal; Z.div_mod_to_equations; lia.
Qed.

(* what step and step_z share: one firing up to the point where the reported transition is turned into the
   instant to arm *)
Lemma firing_spec : forall c d t pv, valid_date d -> valid_time t -> wf_sched c d -> good_sched c ->
  exists r pv' n, eval c d t = Ok r /\
    match r with None => (pv, next_day) | Some (v, n) => (v, n) end = (pv', n) /\
    arm_ok n /\ t4_lt t n = true /\ (in_effect c d -> spec_value c d t pv') /\ (~ in_effect c d -> pv' = pv).
Proof.
  intros c d t pv Hd Ht Hwf Hg. destruct (eval_total c d t Hd Hwf) as [Hin Hout].
  pose proof (in_effectb_spec c d Hd Hwf) as Hbd. destruct (in_effectb c d).
  - destruct (Hin (proj1 Hbd eq_refl)) as (v & n & E). exists (Some (v, n)), v, n.
    split; [exact E|]. split; [reflexivity|]. split; [exact (eval_arm c d t v n Hd Hwf Hg E)|].
    split; [exact (proj1 (eval_next_ahead c d t v n Hd Hwf Ht E))|].
    split; [intros _; exact (proj2 (eval_spec c d t v n Hd Hwf E))|]. intro Hc. now destruct Hc, (proj1 Hbd).
  - assert (Hc : ~ in_effect c d) by (intro Hc; now apply Hbd in Hc). exists None, pv, next_day.
    split; [exact (Hout Hc)|]. split; [reflexivity|]. split; [now left|].
    split; [exact (t4_lt_next_day t Ht)|]. split; [intro Hc'; now destruct Hc|reflexivity].
Qed.

Theorem step_rearms : forall c d t pv, valid_date d -> valid_time t -> wf_sched c d -> good_sched c ->
  exists pv' d' t', step c d t pv = Ok (pv', (d', t')) /\
    ((d' = d /\ t4_lt t t' = true /\ valid_time t') \/ (d' = next_date d /\ t' = (0, 0, 0, 0))) /\
    (in_effect c d -> spec_value c d t pv') /\ (~ in_effect c d -> pv' = pv).
Proof.
  intros c d t pv Hd Ht Hwf Hg.
  destruct (firing_spec c d t pv Hd Ht Hwf Hg) as (r & pv' & n & E & M & Harm & Hah & Hs & Hk).
  unfold step. rewrite E. cbn [bind]. rewrite M.
  destruct (normalise_arm d n Harm) as [H255 [[Hn Hnorm] | [Hn Hnorm]]]; rewrite H255, Hnorm.
  - exists pv', (next_date d), (0, 0, 0, 0). auto.
  - exists pv', d, n. split; [reflexivity|]. split; [left|auto].
    repeat split; auto. destruct Harm as [Hc | [Hv _]]; [contradiction | exact Hv].
Qed.

Theorem run_across_days : forall fuel c d t pv,
  (forall k, (k <= fuel)%nat -> valid_date (nth_date k d) /\ wf_sched c (nth_date k d)) ->
  valid_time t -> good_sched c ->
  length (run fuel c d t pv) = fuel /\ Forall (fun r => exists x, r = Ok x) (run fuel c d t pv).
Proof.
  induction fuel as [|k IH]; intros c d t pv H Ht Hg; cbn [run]; [split; [reflexivity | constructor]|].
  destruct (H 0%nat (Nat.le_0_l _)) as [Hd Hwf]. cbn [nth_date] in Hd, Hwf.
  destruct (step_rearms c d t pv Hd Ht Hwf Hg) as (pv' & d' & t' & Hstep & Hcase & _). rewrite Hstep.
  assert (Hnext : forall j, (j <= k)%nat -> valid_date (nth_date j d') /\ wf_sched c (nth_date j d')).
  { intros j Hj. destruct Hcase as [(-> & _) | (-> & _)].
    - apply H. lia.
    - apply (H (S j)). lia. }
  assert (Ht' : valid_time t').
  { destruct Hcase as [(_ & _ & Hv) | (_ & ->)]; [exact Hv | unfold valid_time; lia]. }
  destruct (IH c d' t' pv' Hnext Ht' Hg) as [Hlen Hall].
  split; [cbn [length]; now rewrite Hlen | constructor; eauto].
Qed.

Definition eq_prio_sched : sched :=
  Build_sched ((255, 255, 255, 255), (255, 255, 255, 255)) None
    [Build_sevent (PEntry (CDate (255, 255, 255, 255))) (Some 5) [((9, 0, 0, 0), Some 4)];
     Build_sevent (PEntry (CDate (255, 255, 255, 255))) (Some 5) [((10, 0, 0, 0), Some 1)]] 0.

Lemma eval_stable_refuted : exists c d t t' v n,
  valid_date d /\ eval c d t = Ok (Some (v, n)) /\ t4_le t t' = true /\ t4_lt t' n = true /\
  forall n', eval c d t' <> Ok (Some (v, n')).
Proof.
  exists eq_prio_sched, (120, 1, 1, 3), (8, 30, 0, 0), (9, 0, 0, 0), 0, (10, 0, 0, 0).
  split; [apply valid_dateb_spec; vm_compute; reflexivity|].
  split; [vm_compute; reflexivity|]. split; [reflexivity|]. split; [reflexivity|].
  intros n' H. vm_compute in H. discriminate H.
Qed.

Definition ex_sched : sched :=
  Build_sched ((120, 1, 1, 255), (255, 255, 255, 255))
    (Some [[((8, 0, 0, 0), Some 3); ((17, 0, 0, 0), None)]; []; []; []; []; []; []])
    [Build_sevent (PEntry (CWnd (255, 6, 1))) (Some 2) [((7, 0, 0, 0), Some 7); ((12, 0, 0, 0), None)];
     Build_sevent (PRef (Some [CDate (255, 13, 32, 255); CRange ((120, 1, 1, 255), (120, 1, 31, 255))])) (Some 9)
                  [((0, 0, 0, 0), Some 5)]] 1.

Lemma ex_sched_wf : forall d, wf_sched ex_sched d.
Proof.
  intro d. unfold wf_sched, ex_sched. cbn [eff excs weekly].
  split; [|split; [|split]].
  - split; cbn; [right | left]; lia.
  - constructor; [|constructor; [|constructor]]; unfold wf_event; cbn [se_period se_prio se_tvs]; (split; [|split]).
    + cbn. lia.
    + exists 2. split; [reflexivity | lia].
    + cbn. split; [intros x [<- | []]; reflexivity | split; [intros x [] | exact I]].
    + intros c [<- | [<- | []]]; cbn; auto. split; cbn; right; lia.
    + exists 9. split; [reflexivity | lia].
    + cbn. split; [intros x [] | exact I].
  - cbn. repeat split; auto. intros _ e' [<- | []] _. cbn. lia.
  - split; [reflexivity|]. intros day [<- | Hin].
    + cbn. repeat split; auto. intros ? [<- | []]. reflexivity.
    + repeat (destruct Hin as [<- | Hin]; [exact I|]). destruct Hin.
Qed.

Lemma ex_sched_good : good_sched ex_sched.
Proof.
  split.
  - intros e [<- | [<- | []]]; repeat constructor; cbn; lia.
  - intros w Hw. inversion Hw; subst. intros day [<- | Hin].
    + repeat constructor; cbn; lia.
    + repeat (destruct Hin as [<- | Hin]; [constructor|]). destruct Hin.
Qed.
