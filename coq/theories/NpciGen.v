(* NpciGen.v — the codec as the SOURCE says it now (BacGen.NpciFns, regenerated on every run) packaged as
   functions of the same types as the hand model, the equalities gen_* = model, and the main C08 facts
   restated directly on the translated functions.

   gen_enc_npci h       = NPCI().encode(PDU()) with the header fields h            -> octets in the PDU
   gen_dec_npci bs      = NPCI().decode(PDU(bs))                                   -> (npduControl, fields, octets left in the PDU)
   gen_enc_npdu h data  = NPDU(data).encode(PDU()),  gen_dec_npdu bs = NPDU().decode(PDU(bs)) (payload in self.pduData)
   gen_enc_msg m        = <Class>(params).encode(NPDU())                           -> npdu.pduData
   gen_dec_msg t bs     = dispatch on the translated <Class>.messageType constants, <Class>().decode(NPDU(bs))
   gen_enc_frame / gen_dec_frame = message.encode(npdu); npdu.encode(pdu) / NPDU.decode(pdu); npdu_types[t]().decode(npdu)
   (the NPCI.update copy between message object and NPDU is on the translator's skip list and is with_msg here). *)
From Bac Require Import Base BytesFacts Npci NpciRt NpciFacts NpciMsgFacts NpciGenFacts NpciGenEnc NpciGenDec.
From BacGen Require Import NpciFns.
Open Scope N_scope.

Lemma NPDU_encode_is_model o p :
  NPDU_encode o p =
  do b <- enc_npdu (npci_of o) (pduData o);
  Ok (set_npduControl (Some (control_of (npci_of o))) o,
      set_pduNetworkPriority (pduNetworkPriority o) (set_pduExpectingReply (pduExpectingReply o) (app_data b p))).
Proof.
  unfold NPDU_encode, enc_npdu. rewrite NPCI_encode_is_model.
  destruct (enc_npci (npci_of o)) as [hd|]; [|reflexivity]. cbn [bind].
  destruct o, p; unfold py_put_data, app_data; cbn. rewrite <- app_assoc. reflexivity.
Qed.

Lemma NPDU_decode_is_model o p :
  NPDU_decode o p =
  do (ch, r) <- dec_npdu (pduData p); Ok (set_pduData r (obj_after o (fst ch) (snd ch)), set_pduData [] p).
Proof.
  unfold NPDU_decode, dec_npdu. rewrite NPCI_decode_is_model.
  destruct (dec_npci (pduData p)) as [[ch r]|]; [|reflexivity]. cbn [bind].
  unfold py_get_data. cbn [pduData set_pduData]. rewrite get_data_all. reflexivity.
Qed.

Definition gen_enc_npci (h : npci) : res (list N) := out (NPCI_encode (obj_of_npci h []) (buf [])).
Definition gen_enc_npdu (h : npci) (payload : list N) : res (list N) :=
  out (NPDU_encode (obj_of_npci h payload) (buf [])).
Definition gen_dec_npci (bs : list N) : res (N * npci * list N) :=
  do (o, p) <- NPCI_decode (buf []) (buf bs); do c <- req (npduControl o); Ok (c, npci_of o, pduData p).
Definition gen_dec_npdu (bs : list N) : res (N * npci * list N) :=
  do (o, p) <- NPDU_decode (buf []) (buf bs); do c <- req (npduControl o); Ok (c, npci_of o, pduData o).

Definition gen_enc_msg (m : msg) : res (list N) :=
  match m with
  | WhoIsRouter n => out (WhoIsRouterToNetwork_encode (mk_WhoIsRouterToNetwork n) (buf []))
  | IAmRouter l => out (IAmRouterToNetwork_encode (mk_IAmRouterToNetwork l) (buf []))
  | ICouldBeRouter n pf => out (ICouldBeRouterToNetwork_encode (mk_ICouldBeRouterToNetwork n pf) (buf []))
  | RejectMessage x n => out (RejectMessageToNetwork_encode (mk_RejectMessageToNetwork x n) (buf []))
  | RouterBusy l => out (RouterBusyToNetwork_encode (mk_RouterBusyToNetwork l) (buf []))
  | RouterAvailable l => out (RouterAvailableToNetwork_encode (mk_RouterAvailableToNetwork l) (buf []))
  | InitRT t => out (InitializeRoutingTable_encode (mk_InitializeRoutingTable t) (buf []))
  | InitRTAck t => out (InitializeRoutingTableAck_encode (mk_InitializeRoutingTableAck t) (buf []))
  | EstablishConn n x => out (EstablishConnectionToNetwork_encode (mk_EstablishConnectionToNetwork n x) (buf []))
  | DisconnectConn n => out (DisconnectConnectionToNetwork_encode (mk_DisconnectConnectionToNetwork n) (buf []))
  | WhatIsNetNum => out (WhatIsNetworkNumber_encode mk_WhatIsNetworkNumber (buf []))
  | NetNumIs n f => out (NetworkNumberIs_encode (mk_NetworkNumberIs n f) (buf []))
  end.

(* npdu_types[t]().decode(NPDU(bs)); the argument-less constructors (None / [] parameters; a number
   where the model has no None) — the result does not depend on them *)
Definition gen_dec_msg (t : N) (bs : list N) : res (msg * list N) :=
  if t =? WhoIsRouterToNetwork_messageType then view msg_of_whois (WhoIsRouterToNetwork_decode (mk_WhoIsRouterToNetwork None) (buf bs))
  else if t =? IAmRouterToNetwork_messageType then view msg_of_iam (IAmRouterToNetwork_decode (mk_IAmRouterToNetwork []) (buf bs))
  else if t =? ICouldBeRouterToNetwork_messageType then view msg_of_icb (ICouldBeRouterToNetwork_decode (mk_ICouldBeRouterToNetwork 0 0) (buf bs))
  else if t =? RejectMessageToNetwork_messageType then view msg_of_rej (RejectMessageToNetwork_decode (mk_RejectMessageToNetwork 0 0) (buf bs))
  else if t =? RouterBusyToNetwork_messageType then view msg_of_busy (RouterBusyToNetwork_decode (mk_RouterBusyToNetwork []) (buf bs))
  else if t =? RouterAvailableToNetwork_messageType then view msg_of_avail (RouterAvailableToNetwork_decode (mk_RouterAvailableToNetwork []) (buf bs))
  else if t =? InitializeRoutingTable_messageType then view msg_of_irt (InitializeRoutingTable_decode (mk_InitializeRoutingTable []) (buf bs))
  else if t =? InitializeRoutingTableAck_messageType then view msg_of_irta (InitializeRoutingTableAck_decode (mk_InitializeRoutingTableAck []) (buf bs))
  else if t =? EstablishConnectionToNetwork_messageType then view msg_of_est (EstablishConnectionToNetwork_decode (mk_EstablishConnectionToNetwork 0 0) (buf bs))
  else if t =? DisconnectConnectionToNetwork_messageType then view msg_of_disc (DisconnectConnectionToNetwork_decode (mk_DisconnectConnectionToNetwork 0) (buf bs))
  else if t =? WhatIsNetworkNumber_messageType then view msg_of_what (WhatIsNetworkNumber_decode mk_WhatIsNetworkNumber (buf bs))
  else if t =? NetworkNumberIs_messageType then view msg_of_nni (NetworkNumberIs_decode (mk_NetworkNumberIs 0 0) (buf bs))
  else Err KeyErr.

Definition gen_enc_frame (h : npci) (m : msg) : res (list N) :=
  do b <- gen_enc_msg m; gen_enc_npdu (with_msg h (msg_type m)) b.
Definition gen_dec_frame (bs : list N) : res (N * npci * msg * list N) :=
  do (ch, r) <- gen_dec_npdu bs;
  match nmsg (snd ch) with
  | None => Err KeyErr
  | Some t => do (m, r') <- gen_dec_msg t r; Ok (fst ch, snd ch, m, r')
  end.

Lemma npci_of_obj h d : npci_of (obj_of_npci h d) = h.
Proof. destruct h; reflexivity. Qed.

Lemma gen_enc_npci_is_model h : gen_enc_npci h = enc_npci h.
Proof.
  unfold gen_enc_npci. rewrite NPCI_encode_is_model, npci_of_obj.
  destruct (enc_npci h); reflexivity.
Qed.

Lemma gen_enc_npdu_is_model h payload : gen_enc_npdu h payload = enc_npdu h payload.
Proof.
  unfold gen_enc_npdu. rewrite NPDU_encode_is_model, npci_of_obj. cbn [obj_of_npci pduData].
  destruct (enc_npdu h payload); reflexivity.
Qed.

Lemma keep_none {A} (o : option A) : keep o None = o.
Proof. destruct o; reflexivity. Qed.

Lemma gen_dec_npci_is_model bs : gen_dec_npci bs = dec_npci bs.
Proof.
  unfold gen_dec_npci. rewrite NPCI_decode_is_model. cbn [buf pduData].
  destruct (dec_npci bs) as [[[c h] r]|]; [|reflexivity]. cbn [bind fst snd obj_after npduControl req].
  unfold npci_of; cbn [buf npduVersion pduExpectingReply pduNetworkPriority npduDADR npduSADR npduHopCount
                          npduNetMessage npduVendorID pduData set_pduData obj_after].
  rewrite !keep_none. destruct h; reflexivity.
Qed.

Lemma gen_dec_npdu_is_model bs : gen_dec_npdu bs = dec_npdu bs.
Proof.
  unfold gen_dec_npdu. rewrite NPDU_decode_is_model. cbn [buf pduData]. unfold dec_npdu.
  destruct (dec_npci bs) as [[[c h] r]|]; [|reflexivity]. cbn [bind fst snd obj_after npduControl req set_pduData].
  unfold npci_of; cbn [buf npduVersion pduExpectingReply pduNetworkPriority npduDADR npduSADR npduHopCount
                          npduNetMessage npduVendorID pduData set_pduData obj_after].
  rewrite !keep_none. destruct h; reflexivity.
Qed.

Lemma out_app {O} (o : O) (r : res (list N)) :
  out (do b <- r; Ok (o, app_data b (buf []))) = r.
Proof. destruct r; reflexivity. Qed.

Lemma gen_enc_msg_is_model m : gen_enc_msg m = enc_msg m.
Proof.
  destruct m; cbn [gen_enc_msg];
    rewrite ?WhoIsRouterToNetwork_encode_is_model, ?IAmRouterToNetwork_encode_is_model,
      ?ICouldBeRouterToNetwork_encode_is_model, ?RejectMessageToNetwork_encode_is_model,
      ?RouterBusyToNetwork_encode_is_model, ?RouterAvailableToNetwork_encode_is_model,
      ?InitializeRoutingTable_encode_is_model, ?InitializeRoutingTableAck_encode_is_model,
      ?EstablishConnectionToNetwork_encode_is_model, ?DisconnectConnectionToNetwork_encode_is_model,
      ?WhatIsNetworkNumber_encode_is_model, ?NetworkNumberIs_encode_is_model;
    apply out_app.
Qed.

Lemma gen_dec_msg_is_model t bs : gen_dec_msg t bs = dec_msg t bs.
Proof.
  unfold gen_dec_msg.
  rewrite WhoIsRouterToNetwork_decode_is_model, IAmRouterToNetwork_decode_is_model,
    ICouldBeRouterToNetwork_decode_is_model, RejectMessageToNetwork_decode_is_model,
    RouterBusyToNetwork_decode_is_model, RouterAvailableToNetwork_decode_is_model,
    InitializeRoutingTable_decode_is_model, InitializeRoutingTableAck_decode_is_model,
    EstablishConnectionToNetwork_decode_is_model, DisconnectConnectionToNetwork_decode_is_model,
    WhatIsNetworkNumber_decode_is_model, NetworkNumberIs_decode_is_model.
  cbn [buf pduData].
  repeat match goal with |- (if t =? ?k then _ else _) = _ =>
    destruct (N.eqb_spec t k) as [->|?]; [reflexivity|] end.
  symmetry. apply dec_msg_unregistered.
  unfold WhoIsRouterToNetwork_messageType, IAmRouterToNetwork_messageType, ICouldBeRouterToNetwork_messageType,
    RejectMessageToNetwork_messageType, RouterBusyToNetwork_messageType, RouterAvailableToNetwork_messageType,
    InitializeRoutingTable_messageType, InitializeRoutingTableAck_messageType, EstablishConnectionToNetwork_messageType,
    DisconnectConnectionToNetwork_messageType, WhatIsNetworkNumber_messageType, NetworkNumberIs_messageType in *.
  cbn [registered_types In]. intros H. repeat destruct H as [H|H]; try (symmetry in H; contradiction). exact H.
Qed.

Lemma gen_enc_frame_is_model h m : gen_enc_frame h m = enc_frame h m.
Proof.
  unfold gen_enc_frame, enc_frame. rewrite gen_enc_msg_is_model.
  destruct (enc_msg m); [|reflexivity]. cbn [bind]. apply gen_enc_npdu_is_model.
Qed.

Lemma gen_dec_frame_is_model bs : gen_dec_frame bs = dec_frame bs.
Proof.
  unfold gen_dec_frame, dec_frame. rewrite gen_dec_npdu_is_model. unfold dec_npdu.
  destruct (dec_npci bs) as [[ch r]|]; [|reflexivity]. cbn [bind].
  destruct (nmsg (snd ch)); [|reflexivity]. rewrite gen_dec_msg_is_model. reflexivity.
Qed.

Lemma gen_npci_roundtrip h payload : wf_npci h = true ->
  exists bs, gen_enc_npci h = Ok bs /\ gen_dec_npci (bs ++ payload) = Ok (control_of h, h, payload).
Proof. intros H. rewrite gen_enc_npci_is_model. setoid_rewrite gen_dec_npci_is_model. exact (npci_roundtrip h payload H). Qed.

Lemma gen_frame_roundtrip h m :
  wf_npci (with_msg h (msg_type m)) = true -> wf_msg m = true ->
  exists bs, gen_enc_frame h m = Ok bs
    /\ gen_dec_frame bs = Ok (control_of (with_msg h (msg_type m)), with_msg h (msg_type m), m, []).
Proof. rewrite gen_enc_frame_is_model. setoid_rewrite gen_dec_frame_is_model. apply frame_roundtrip. Qed.
