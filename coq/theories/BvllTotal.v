(* BvllTotal.v — refusals and totality of the BVLL decoder, what an accepted datagram looks like (model Bvll.v). *)
From Bac Require Import Base BytesFacts Bvll BvllFacts.
Open Scope N_scope.

Lemma dec_frame_type bs : hd_error bs <> Some 129 -> dec_frame bs = Err DecodingError.
Proof.
  intros H. rewrite dec_frame_eq. destruct bs as [|t [|f [|hi [|lo body]]]]; try reflexivity.
  destruct (t =? 129) eqn:T; [|reflexivity]. exfalso. apply H. cbn [hd_error]. f_equal. lia.
Qed.

Lemma dec_frame_unknown f hi lo body : 12 <= f -> dec_frame (129 :: f :: hi :: lo :: body) = Err DecodingError.
Proof. intros H. rewrite dec_frame_eq, dec_msg_unknown by exact H. now destruct (_ && _). Qed.

(* nth reads absent octets as 0 *)
Lemma dec_frame_length_any bs :
  nth 2 bs 0 * 256 + nth 3 bs 0 <> lenN bs -> dec_frame bs = Err DecodingError.
Proof.
  intros H. rewrite dec_frame_eq. destruct bs as [|t [|f [|hi [|lo body]]]]; try reflexivity.
  cbn [nth] in H. rewrite !lenN_cons in H. replace (_ && _) with false by lia. reflexivity.
Qed.

(* <=: the classes with fixed parameters ignore trailing octets *)
Lemma dec_body_spec k body :
  match dec_body k body with
  | Ok m => kind_of m = k /\ frame_len m <= lenN body + 4 /\ (bytes_ok body = true -> wf_msg m = true)
  | Err e => e = DecodingError
  end.
Proof.
  destruct k; cbn [dec_body].
  (* Result, RegisterForeignDevice *)
  1, 6: pose proof (get_short_spec body) as H; destruct (get_short body) as [[v r]|]; cbn [bind]; [|exact H];
    destruct H as (a & b & -> & ->); cbn [kind_of frame_len wf_msg wf_short];
    rewrite !lenN_cons, !bytes_ok_cons_andb; repeat split; lia.
  (* WriteBroadcastDistributionTable, ReadBroadcastDistributionTableAck *)
  1, 3: unfold dec_bdt; rewrite dec_bdt_fuel_rows;
    pose proof (rows_spec dec_bdte wf_bdte dec_bdte_spec (length body) body (le_n _)) as H;
    destruct (rows dec_bdte _ body) as [t|]; cbn [bind]; [|exact H];
    destruct H as (L & W); cbn [kind_of frame_len wf_msg]; repeat split; [lia | exact W].
  (* the two Read requests and the three NPDU carriers *)
  1, 3, 6, 7, 8: cbn [kind_of frame_len wf_msg]; repeat split; auto; lia.
  (* ForwardedNPDU, DeleteForeignDeviceTableEntry *)
  1, 3: pose proof (dec_addr_spec body) as H; destruct (dec_addr body) as [[a r]|]; cbn [bind]; [|exact H];
    destruct H as (l & -> & -> & Hl); cbn [kind_of frame_len wf_msg wf_addr];
    rewrite lenN_app, bytes_ok_app, Hl; cbn [N.eqb Pos.eqb andb]; repeat split; try lia;
    intros B; apply andb_true_iff in B as [-> B]; auto.
  (* ReadForeignDeviceTableAck *)
  unfold dec_fdt. rewrite dec_fdt_fuel_rows.
  pose proof (rows_spec dec_fdte wf_fdte dec_fdte_spec (length body) body (le_n _)) as H.
  destruct (rows dec_fdte _ body) as [t|]; cbn [bind]; [|exact H].
  destruct H as (L & W). cbn [kind_of frame_len wf_msg]. repeat split; [lia | exact W].
Qed.

Lemma dec_frame_total bs :
  (exists m, dec_frame bs = Ok m) \/ dec_frame bs = Err DecodingError.
Proof.
  rewrite dec_frame_eq. destruct bs as [|t [|f [|hi [|lo body]]]]; auto. destruct (_ && _); auto.
  destruct (dec_msg_cases f body) as [(k & _ & ->)| ->]; auto.
  pose proof (dec_body_spec k body) as H. destruct (dec_body k body); [eauto | subst; auto].
Qed.

Lemma dec_frame_ok bs m : dec_frame bs = Ok m ->
  exists hi lo body, bs = 129 :: fn_of m :: hi :: lo :: body /\ hi * 256 + lo = lenN bs /\
    frame_len m <= lenN bs /\ (bytes_ok bs = true -> wf_msg m = true).
Proof.
  intros H. apply dec_frame_inv in H as (f & hi & lo & body & -> & L & H).
  destruct (dec_msg_cases f body) as [(k & K & E)|E]; rewrite E in H; [|discriminate].
  pose proof (dec_body_spec k body) as S. rewrite H in S. destruct S as (Hk & Hl & Hw).
  exists hi, lo, body. unfold fn_of. rewrite Hk, K. repeat split; [exact L | rewrite !lenN_cons; lia |].
  rewrite !bytes_ok_cons_andb. intros B. apply Hw. repeat (apply andb_true_iff in B as [_ B]). exact B.
Qed.

Lemma dec_frame_accepts bs m : dec_frame bs = Ok m ->
  exists hi lo body, bs = 129 :: fn_of m :: hi :: lo :: body /\ hi * 256 + lo = lenN bs.
Proof. intros H. apply dec_frame_ok in H as (hi & lo & body & E & L & _). eauto. Qed.

Lemma bytes_ok_repeat0 n : bytes_ok (repeat 0 n) = true.
Proof. induction n; cbn [repeat bytes_ok forallb]; [reflexivity|]. exact IHn. Qed.

Lemma length_field_bound_tight :
  exists m bs, wf_msg m = true /\ enc_frame m = Ok bs /\ lenN bs = 65536 /\
               nth 2 bs 0 * 256 + nth 3 bs 0 = 0.
Proof.
  set (d := repeat 0 (N.to_nat 65532)).
  assert (Hd: lenN d = 65532) by (unfold lenN, d; rewrite repeat_length; lia).
  exists (OrigUnicast d). eexists. split; [apply bytes_ok_repeat0|].
  split; [apply (enc_frame_ok _ d); [reflexivity | cbn [frame_len]; lia]|].
  rewrite lenN_frame_of. unfold frame_of. rewrite Hd. split; reflexivity.
Qed.
