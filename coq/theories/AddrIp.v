(* AddrIp.v — the IP helper values of Addr.v (pdu.py:195-201) in arithmetic terms:
   mask = 2^32 - 2^k, subnet = ip - ip mod 2^k, host = ip mod 2^k,
   directed broadcast = subnet + 2^k - 1, where k = 32 - mask length; and ip_denoted, what ip_from_text
   stores for a dotted quad, in these terms. *)
From Bac Require Import Base Addr AddrFacts AddrParse.
Open Scope Z_scope.

Definition mask_k (k : Z) : Z := Z.land (Z.shiftl M32 k) M32.

Lemma mask_bits k i : 0 <= k <= 32 -> 0 <= i -> Z.testbit (mask_k k) i = (k <=? i) && (i <? 32).
Proof.
  intros Hk Hi. unfold mask_k. change M32 with (Z.ones 32). rewrite Z.land_spec, (Z.shiftl_spec _ _ _ Hi).
  rewrite !Z.testbit_ones by lia.
  destruct (k <=? i) eqn:E1, (i <? 32) eqn:E2, (0 <=? i - k) eqn:E3, (i - k <? 32) eqn:E4, (0 <=? i) eqn:E5;
    try reflexivity; lia.
Qed.

Lemma high_bits ipz i : 0 <= ipz < 2 ^ 32 -> 32 <= i -> Z.testbit ipz i = false.
Proof.
  intros H Hi. rewrite <- (Z.mod_small ipz (2 ^ 32)) by exact H.
  rewrite <- Z.land_ones by lia. rewrite Z.land_spec, Z.ones_spec_high by lia. apply andb_false_r.
Qed.

Lemma host_arith ipz k : 0 <= ipz < 2 ^ 32 -> 0 <= k <= 32 ->
  Z.land ipz (Z.lnot (mask_k k)) = ipz mod 2 ^ k.
Proof.
  intros H Hk. rewrite <- Z.land_ones by lia. apply Z.bits_inj'. intros i Hi.
  rewrite !Z.land_spec, (Z.lnot_spec _ _ Hi), (mask_bits k i Hk Hi), Z.testbit_ones_nonneg by lia.
  destruct (k <=? i) eqn:E1, (i <? 32) eqn:E2, (i <? k) eqn:E3; cbn [andb negb]; try reflexivity; try lia.
  (* left: k <= i and 32 <= i, where ipz has no bit *)
  rewrite andb_true_r, andb_false_r. apply (high_bits ipz i H). lia.
Qed.

(* the address is its subnet part plus its host part, and the two share no bit *)
Lemma subnet_arith ipz k : 0 <= ipz < 2 ^ 32 -> 0 <= k <= 32 ->
  Z.land ipz (mask_k k) = ipz - ipz mod 2 ^ k.
Proof.
  intros H Hk. rewrite <- (host_arith ipz k H Hk), <- Z.ldiff_land.
  assert (D : Z.land (Z.ldiff ipz (mask_k k)) (Z.land ipz (mask_k k)) = 0)
    by (rewrite (Z.land_comm ipz), Z.land_assoc, Z.land_ldiff; apply Z.land_0_l).
  pose proof (Z.lor_ldiff_and ipz (mask_k k)) as E.
  rewrite <- (Z.lxor_lor _ _ D), <- (Z.add_nocarry_lxor _ _ D) in E. lia.
Qed.

Lemma mask_in_M32 k : Z.land (mask_k k) M32 = mask_k k.
Proof. unfold mask_k. now rewrite <- Z.land_assoc, Z.land_diag. Qed.

Lemma M32_mod k : 0 <= k <= 32 -> M32 mod 2 ^ k = 2 ^ k - 1.
Proof.
  intro Hk. assert (P : 2 ^ 32 = 2 ^ (32 - k) * 2 ^ k) by (rewrite <- Z.pow_add_r by lia; f_equal; lia).
  assert (Hp : 0 < 2 ^ k) by (apply Z.pow_pos_nonneg; lia).
  change M32 with (2 ^ 32 - 1). rewrite P.
  replace (2 ^ (32 - k) * 2 ^ k - 1) with (2 ^ k - 1 + (2 ^ (32 - k) - 1) * 2 ^ k) by ring.
  rewrite Z_mod_plus_full. apply Z.mod_small. lia.
Qed.

(* the mask is the subnet part of 255.255.255.255 *)
Lemma mask_arith k : 0 <= k <= 32 -> mask_k k = 2 ^ 32 - 2 ^ k.
Proof.
  intro Hk. rewrite <- (mask_in_M32 k), Z.land_comm, (subnet_arith M32 k), (M32_mod k Hk) by (unfold M32; lia).
  unfold M32. ring.
Qed.

(* the directed broadcast is the subnet part plus the host part of 255.255.255.255: again no common bit *)
Lemma bcast_arith ipz k : 0 <= ipz < 2 ^ 32 -> 0 <= k <= 32 ->
  Z.land (Z.lor (Z.land ipz (mask_k k)) (Z.lnot (mask_k k))) M32 = ipz - ipz mod 2 ^ k + (2 ^ k - 1).
Proof.
  intros H Hk. rewrite Z.land_lor_distr_l, <- Z.land_assoc, (mask_in_M32 k), (Z.land_comm (Z.lnot _)).
  assert (D : Z.land (Z.land ipz (mask_k k)) (Z.land M32 (Z.lnot (mask_k k))) = 0).
  { rewrite (Z.land_comm M32), Z.land_assoc, <- (Z.land_assoc ipz), Z.land_lnot_diag, Z.land_0_r. apply Z.land_0_l. }
  rewrite <- (Z.lxor_lor _ _ D), <- (Z.add_nocarry_lxor _ _ D), (subnet_arith ipz k H Hk), (host_arith M32 k), (M32_mod k Hk)
    by (unfold M32; lia).
  reflexivity.
Qed.

Lemma ip_fields_arith ipz len : 0 <= ipz < 2 ^ 32 -> 0 <= len <= 32 ->
  let k := 32 - len in
  let mask := mask_k k in
  mask = 2 ^ 32 - 2 ^ k /\
  Z.land ipz mask = ipz - ipz mod 2 ^ k /\
  Z.land ipz (Z.lnot mask) = ipz mod 2 ^ k /\
  Z.land (Z.lor (Z.land ipz mask) (Z.lnot mask)) M32 = ipz - ipz mod 2 ^ k + (2 ^ k - 1).
Proof.
  intros H Hl k mask. assert (Hk : 0 <= k <= 32) by (unfold k; lia). subst mask.
  repeat split; [now apply mask_arith|now apply subnet_arith|now apply host_arith|now apply bcast_arith].
Qed.

Lemma ip_denoted_arith ipv len port h : (ipv < 2 ^ 32)%N -> (len <= 32)%N ->
  let ipz := Z.of_N ipv in
  let k := 32 - Z.of_N len in
  ip_denoted ipv len port h =
    mkIp ipz (2 ^ 32 - 2 ^ k) (Some (ipz mod 2 ^ k)) (Some (ipz - ipz mod 2 ^ k)) (Z.of_N port) h
         (inet_ntoa (be4 (Z.to_N (ipz - ipz mod 2 ^ k + (2 ^ k - 1))))).
Proof.
  intros Hv Hl ipz k. assert (Hz : 0 <= ipz < 2 ^ 32) by (change (2 ^ 32) with (Z.of_N (2 ^ 32)); lia).
  pose proof (ip_fields_arith ipz (Z.of_N len) Hz ltac:(lia)) as F. cbv zeta in F. fold k in F.
  destruct F as (M & Sn & Ho & B). unfold ip_denoted. fold ipz k (mask_k k). now rewrite B, Ho, Sn, M.
Qed.

(* the parts of a dotted quad that inet_aton accepts are octets, so the address is below 2^32 *)
Lemma aton_part_bound s v : aton_part s = Some v -> (v <= 255)%N.
Proof.
  assert (G : forall w, (if (w <=? 255)%N then Some w else None) = Some v -> (v <= 255)%N).
  { intros w H. destruct (w <=? 255)%N eqn:E; [|discriminate]. injection H as <-. now apply N.leb_le. }
  unfold aton_part. destruct s as [|z [|y r]]; cbv zeta; try apply G.
  destruct (z =? 48)%N; [|apply G]. destruct (forallb is_octal (y :: r)); [apply G|discriminate].
Qed.

Lemma be_val4_bound a b c d : (a <= 255 -> b <= 255 -> c <= 255 -> d <= 255 -> be_val [a; b; c; d] < 2 ^ 32)%N.
Proof. intros. unfold be_val. cbn [fold_left]. change (2 ^ 32)%N with 4294967296%N. lia. Qed.

Lemma ip_from_text_arith a b c d m p a' b' c' d' :
  digits a = true -> digits b = true -> digits c = true -> digits d = true ->
  aton_part a = Some a' -> aton_part b = Some b' -> aton_part c = Some c' -> aton_part d = Some d' ->
  (dec_val (odefault s47808 p) <= 65535)%N -> (dec_val (odefault s32 m) <= 32)%N ->
  let ipz := Z.of_N (be_val [a'; b'; c'; d']) in
  let k := 32 - Z.of_N (dec_val (odefault s32 m)) in
  let port := dec_val (odefault s47808 p) in
  ip_from_text (quad a b c d) m p =
    Ok ([a'; b'; c'; d'] ++ be2 port,
        mkIp ipz (2 ^ 32 - 2 ^ k) (Some (ipz mod 2 ^ k)) (Some (ipz - ipz mod 2 ^ k)) (Z.of_N port) (quad a b c d)
             (inet_ntoa (be4 (Z.to_N (ipz - ipz mod 2 ^ k + (2 ^ k - 1)))))).
Proof.
  intros Ha Hb Hc Hd A B C D Hp Hm. cbv zeta. rewrite (ip_from_text_ok a b c d m p a' b' c' d') by assumption.
  rewrite ip_denoted_arith; [reflexivity| |exact Hm].
  apply be_val4_bound; eapply aton_part_bound; eassumption.
Qed.
