(* NetAnn.v — a relayed I-Am-Router-To-Network announcement terminates on a loop-free internetwork, every LAN
   carrying at most one copy (contrast: C06_cycle_discovery_refuted): the wave of NetFlood.v with the announcement
   as the copy on every LAN.  Lemmas about Net.v (property C06). *)
From Bac Require Import Base ListFacts Net NetFacts NetOnce NetRoute NetArrive NetLocal NetTree NetFlood NetCert.
Open Scope N_scope.

(* the origin relays nothing more: its own copy is the one in flight *)
Definition kidsA (ns : list wnode) (up : nat -> nat) (x0 x : nat * nat) : list N :=
  if pair_eqb x x0 then [] else kids ns up x.

Lemma pair_eqb_refl : forall x, pair_eqb x x = true.
Proof. intros [a b]. unfold pair_eqb. cbn. rewrite !Nat.eqb_refl. reflexivity. Qed.

Lemma pair_eqb_neq : forall x y, x <> y -> pair_eqb x y = false.
Proof. intros x y H. destruct (pair_eqb x y) eqn:E; [apply pair_eqb_eq in E; contradiction|reflexivity]. Qed.

Definition frame_lans (os : list obs) : list N :=
  flat_map (fun o => match o with OFrame f => [f_lan f] | _ => [] end) os.

Lemma frame_lans_oframes : forall os, frame_lans os = map f_lan (oframes os).
Proof.
  induction os as [|o os IH]; [reflexivity|]. unfold frame_lans, oframes in *. cbn [flat_map]. rewrite map_app, IH.
  destruct o; reflexivity.
Qed.

(* C06_announcements_terminate on loop-free internetworks: a broadcast I-Am-Router-To-Network in flight on LAN L0
   (sent by the member x0 of L0), nothing parked anywhere: the relays stop, no LAN carries more than one copy,
   nothing is handed to any application *)
Theorem announcement_terminates_on_tree : forall w L0 lv up par x0 m0 nets,
  internet_ok (lans w) (nodes w) -> tree_from (lans w) (nodes w) L0 lv up par ->
  In x0 (lan_members (lans w) L0) -> port_of (nodes w) x0 = Some (L0, m0) ->
  Forall (fun d => d < 65536) nets ->
  (forall who wn, nth_error (nodes w) who = Some wn -> pending (w_node wn) = []) ->
  queue w = [mkFrame L0 m0 LBcast (i_am nets)] ->
  exists k osn, queue (run k w) = [] /\ trace (run k w) = osn ++ trace w /\
                hearers osn = [] /\ NoDup (frame_lans osn).
Proof.
  intros w L0 lv up par x0 m0 nets Hio Htf Hx0 Hp0 Hn Hpend Hq.
  destruct (wave_runs (lans w) (nodes w) L0 lv up par Hio Htf x0 m0 Hx0 Hp0 (fun _ => i_am nets)
              (kidsA (nodes w) up x0) ltac:(unfold kidsA; rewrite pair_eqb_refl; reflexivity)
              ltac:(intros x Hx; unfold kidsA; rewrite (pair_eqb_neq _ _ Hx); reflexivity)
              (fun _ => []) eq_refl (fun _ _ _ _ => eq_refl) (fun n => pending n = [])) with (w := w)
    as (k & done & osn & Hk & Htr & Hnd & _ & _ & Hhe & Hfr).
  - (* a router with nothing parked learns, and relays on every other port *)
    intros L x m w0 w1 _ _ Hr Hport _ Hns Hpw. pose proof Hns as (Hp1 & _).
    pose proof (router_shape_node_shape _ _ Hns Hr) as Hr'. rewrite <- Hp1 in Hport.
    eexists. exists Tx, (i_am nets). split; [left; reflexivity|]. split.
    { rewrite (process_npdu_i_am_none_parked _ _ _ _ LBcast nets (router_nth_adapter _ _ _ _ Hr' Hport) (router_modelled _ Hr') Hpw Hn).
      rewrite (router_is_router _ Hr'). reflexivity. }
    split; [exact Hns|]. split; reflexivity.
  - (* a station with nothing parked learns, and says nothing *)
    intros L x m w0 w1 a _ _ _ [_ _ Ha _ _] Hns Hpw. pose proof Hns as (_ & Hp2 & _). rewrite <- Hp2 in Ha.
    destruct (station_config _ a Ha) as (_ & Ena & Emc & Er & _).
    eexists. exists [], []. split.
    { rewrite (process_npdu_i_am_none_parked _ _ _ _ LBcast nets Ena Emc Hpw Hn), Er. reflexivity. }
    split; [reflexivity|]. split; [reflexivity|]. split; [exact Hns|reflexivity].
  - reflexivity.
  - split; [apply shape_refl|exact Hpend].
  - rewrite Hq. unfold wave_frame, sender_mac. rewrite N.eqb_refl. reflexivity.
  - exists k, osn. split; [assumption|]. split; [assumption|]. split.
    + rewrite Hhe, (flat_map_nil _ done (fun L _ => flat_map_nil _ _ (fun _ _ => eq_refl))). reflexivity.
    + rewrite frame_lans_oframes, Hfr, map_map. cbn [wave_frame f_lan]. rewrite map_id. apply NoDup_rev. assumption.
Qed.
