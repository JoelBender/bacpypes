(* IocbFacts.v — C04 at the IOCB layer: over any history of submissions, confirmations from below, client aborts and
   deferred batches every IOCB's callback fires at most once, exactly when it reaches COMPLETED/ABORTED; a finished IOCB
   is never touched again (complete/abort idempotent); the per-address queue advances; an idle empty queue is dropped. *)
From Bac Require Import Base Iocb.
Open Scope Z_scope.

Lemma lookup_update_eq : forall {A} k (v : A) l, lookup k (update k v l) = Some v.
Proof.
  intros A k v l. induction l as [|[k' v'] r IH]; cbn [update lookup].
  - rewrite Z.eqb_refl. reflexivity.
  - destruct (k =? k') eqn:E; cbn [lookup]; [rewrite Z.eqb_refl; reflexivity | rewrite E; exact IH].
Qed.

Lemma lookup_update_ne : forall {A} k k' (v : A) l, k' <> k -> lookup k' (update k v l) = lookup k' l.
Proof.
  intros A k k' v l Hne. induction l as [|[k2 v2] r IH]; cbn [update lookup].
  - replace (k' =? k) with false by lia. reflexivity.
  - destruct (k =? k2) eqn:E; cbn [lookup].
    + assert (k = k2) by lia. subst. replace (k' =? k2) with false by lia. reflexivity.
    + destruct (k' =? k2); [reflexivity | exact IH].
Qed.

Lemma lookup_delete_eq : forall {A} k (l : list (Z * A)), lookup k (delete k l) = None.
Proof.
  intros A k l. induction l as [|[k' v'] r IH]; cbn [delete lookup]; [reflexivity|].
  destruct (k =? k') eqn:E; [exact IH | cbn [lookup]; rewrite E; exact IH].
Qed.

(* the callback count says exactly whether the IOCB is finished *)
Definition inv_io (b : iocb) : Prop :=
  (i_cb b = 0 /\ terminal_io b = false) \/ (i_cb b = 1 /\ terminal_io b = true).

(* how a step may change the table of IOCBs: none disappears, a finished one is left exactly as it is, the invariant is
   kept, new ones satisfy it *)
Definition io_ok (l l' : list (Z * iocb)) : Prop :=
  forall i, match lookup i l, lookup i l' with
            | Some b, Some b' => (terminal_io b = true -> b' = b) /\ (inv_io b -> inv_io b')
            | Some _, None => False
            | None, Some b' => inv_io b'
            | None, None => True
            end.

Lemma io_ok_refl : forall l, io_ok l l.
Proof. intros l i. destruct (lookup i l); auto. Qed.

Lemma io_ok_trans : forall l1 l2 l3, io_ok l1 l2 -> io_ok l2 l3 -> io_ok l1 l3.
Proof.
  intros l1 l2 l3 H12 H23 i. specialize (H12 i). specialize (H23 i).
  destruct (lookup i l1) as [b1|], (lookup i l2) as [b2|], (lookup i l3) as [b3|]; try tauto.
  all: try (destruct H12 as (A1 & A2), H23 as (B1 & B2); split; [intros Ht; specialize (A1 Ht); subst b2; auto | tauto]).
  all: try (destruct H23 as (B1 & B2); auto).
Qed.

Lemma io_ok_update : forall l i b',
  match lookup i l with
  | Some b => (terminal_io b = true -> b' = b) /\ (inv_io b -> inv_io b')
  | None => inv_io b'
  end -> io_ok l (update i b' l).
Proof.
  intros l i b' H j. destruct (Z.eq_dec j i) as [->|Hne].
  - rewrite lookup_update_eq. destruct (lookup i l); exact H.
  - rewrite lookup_update_ne by assumption. destruct (lookup j l); auto.
Qed.

Definition is_final (new : Z) : Prop := new = IO_COMPLETED \/ new = IO_ABORTED.

(* what the callees may assume about "finishing" *)
Definition fin_good (f : Z -> Z -> iow -> iow) : Prop := forall i new w, is_final new -> io_ok (w_io w) (w_io (f i new w)).

Lemma q_finish_w_ok : forall f a i new w, fin_good f -> is_final new -> io_ok (w_io w) (w_io (q_finish_w f a i new w)).
Proof.
  intros f a i new w Hf Hn. unfold q_finish_w.
  pose proof (Hf i new w Hn) as H.
  destruct (lookup a (w_qs (f i new w))) as [q|]; [|exact H].
  destruct (q_active q) as [j|]; [|exact H]. destruct (j =? i); exact H.
Qed.

Lemma process_io_w_ok : forall f a i w, fin_good f -> io_ok (w_io w) (w_io (process_io_w f a i w)).
Proof.
  intros f a i w Hf. unfold process_io_w.
  destruct (lookup i (w_io w)) as [b|] eqn:El; [|apply io_ok_refl].
  destruct (lookup a (w_qs w)) as [q|]; [|apply io_ok_refl].
  destruct ((i_state b =? IO_IDLE) || (i_state b =? IO_PENDING)) eqn:Es; cbn [negb].
  - set (w1 := log _ _).
    assert (H1 : io_ok (w_io w) (w_io w1)).
    { unfold w1. cbn [log set_q set_io w_io]. apply io_ok_update. rewrite El. split.
      - unfold terminal_io, IO_IDLE, IO_PENDING, IO_COMPLETED, IO_ABORTED in *. intros; lia.
      - intros [(Hc & Ht)|(Hc & Ht)].
        + left. cbn [i_cb]. split; [exact Hc | reflexivity].
        + unfold terminal_io, IO_IDLE, IO_PENDING, IO_COMPLETED, IO_ABORTED in *. lia. }
    destruct (i_fail b); [|exact H1].
    eapply io_ok_trans; [exact H1 | apply q_finish_w_ok; [exact Hf | right; reflexivity]].
  - apply q_finish_w_ok; [exact Hf | right; reflexivity].
Qed.

Lemma submit_w_ok : forall f i a fl fo w, fin_good f -> io_ok (w_io w) (w_io (submit_w f i a fl fo w)).
Proof.
  intros f i a fl fo w Hf. unfold submit_w.
  destruct (lookup i (w_io w)) eqn:El; [apply io_ok_refl|].
  set (w1 := set_io i _ w).
  assert (H1 : io_ok (w_io w) (w_io w1)).
  { unfold w1. cbn [set_io w_io]. apply io_ok_update. rewrite El. left. split; reflexivity. }
  set (w2 := match lookup a (w_qs w1) with Some _ => w1 | None => _ end).
  assert (H2 : w_io w2 = w_io w1) by (unfold w2; destruct (lookup a (w_qs w1)); reflexivity).
  destruct (lookup a (w_qs w2)) as [q|]; [|rewrite H2; exact H1].
  destruct (negb (q_state q =? 0)).
  - cbn [set_q w_io]. rewrite H2. exact H1.
  - eapply io_ok_trans; [rewrite <- H2 in H1; exact H1 | apply process_io_w_ok; exact Hf].
Qed.

Lemma fin_ok : forall fuel, fin_good (fin fuel).
Proof.
  induction fuel as [|k IH]; intros i new w Hn; cbn [fin]; [apply io_ok_refl|].
  destruct (lookup i (w_io w)) as [b|] eqn:El; [|apply io_ok_refl].
  destruct (terminal_io b) eqn:Et; [apply io_ok_refl|].
  assert (H : io_ok (w_io w) (update i (mkIo new (i_cb b + 1) (i_fail b) (i_addr b) (i_follow b)) (w_io w))).
  { apply io_ok_update. rewrite El. split; [congruence|].
    intros [(Hc & _)|(_ & Hc)]; [|congruence]. right. cbn [i_cb]. split; [lia|].
    unfold terminal_io. cbn [i_state]. destruct Hn as [->| ->]; reflexivity. }
  set (w1 := log [21; i; new] _).
  assert (H1 : w_io w1 = update i (mkIo new (i_cb b + 1) (i_fail b) (i_addr b) (i_follow b)) (w_io w)).
  { unfold w1. cbn [log set_io w_io w_qs]. destruct (lookup (i_addr b) (w_qs w)); reflexivity. }
  destruct (i_follow b) as [[[j a2] f2]|]; [|rewrite H1; exact H].
  eapply io_ok_trans; [rewrite <- H1 in H; exact H|].
  apply (submit_w_ok (fin k) j a2 f2 None (log [23; j] w1) IH).
Qed.

Lemma finish_ok : forall i new w, is_final new -> io_ok (w_io w) (w_io (finish i new w)).
Proof. exact (fin_ok FUEL). Qed.

Lemma q_finish_ok : forall a i new w, is_final new -> io_ok (w_io w) (w_io (q_finish a i new w)).
Proof. intros. apply q_finish_w_ok; [exact (fin_ok FUEL) | assumption]. Qed.

Lemma process_io_ok : forall a i w, io_ok (w_io w) (w_io (process_io a i w)).
Proof. intros. apply process_io_w_ok. exact (fin_ok FUEL). Qed.

Lemma submit_ok : forall i a f fo w, io_ok (w_io w) (w_io (submit i a f fo w)).
Proof. intros. apply submit_w_ok. exact (fin_ok FUEL). Qed.

Lemma confirm_ok : forall a ok w, io_ok (w_io w) (w_io (confirm a ok w)).
Proof.
  intros a ok w. unfold confirm.
  destruct (lookup a (w_qs w)) as [q|]; [|apply io_ok_refl].
  destruct (q_active q) as [i|]; [|apply io_ok_refl].
  assert (H : io_ok (w_io w) (w_io (q_finish a i (if ok then IO_COMPLETED else IO_ABORTED) w))).
  { apply q_finish_ok. destruct ok; [left | right]; reflexivity. }
  destruct (lookup a (w_qs (q_finish a i (if ok then IO_COMPLETED else IO_ABORTED) w))) as [q'|]; [|exact H].
  destruct (q_queue q'); [destruct (q_active q')|]; exact H.
Qed.

Lemma abort_ok : forall i w, io_ok (w_io w) (w_io (abort_io i w)).
Proof.
  intros i w. unfold abort_io. destruct (lookup i (w_io w)) as [b|]; [|apply io_ok_refl].
  destruct (terminal_io b); [apply io_ok_refl | apply q_finish_ok; right; reflexivity].
Qed.

Lemma trigger_ok : forall a g w, io_ok (w_io w) (w_io (trigger a g w)).
Proof.
  intros a g w. unfold trigger.
  destruct (lookup a (w_qs w)) as [q|]; [|apply io_ok_refl].
  destruct (negb (q_gen q =? g)); [apply io_ok_refl|].
  destruct (negb (q_state q =? 0)); [apply io_ok_refl|].
  destruct (q_queue q) as [|i r]; [apply io_ok_refl|].
  set (w1 := set_q a _ w).
  assert (H : io_ok (w_io w) (w_io (process_io a i w1))) by (apply (process_io_ok a i w1)).
  destruct (lookup a (w_qs (process_io a i w1))) as [q'|]; [|exact H].
  destruct (q_state q' =? 0); exact H.
Qed.

Lemma run_batch_ok : forall w, io_ok (w_io w) (w_io (run_batch w)).
Proof.
  intros w. unfold run_batch.
  set (w0 := mkIow (w_io w) (w_qs w) [] (w_gen w) (w_ev w)).
  change (w_io w) with (w_io w0) at 1. generalize w0. clear w0.
  induction (w_def w) as [|e r IH]; intros w0; cbn [fold_left]; [apply io_ok_refl|].
  eapply io_ok_trans; [apply trigger_ok | apply IH].
Qed.

Lemma do_op_ok : forall o w, io_ok (w_io w) (w_io (do_op o w)).
Proof.
  intros o w. destruct o; cbn [do_op].
  - apply (submit_ok i addr fail follow (log [10; 0] w)).
  - apply (confirm_ok addr ok (log [10; 1] w)).
  - apply (abort_ok i (log [10; 2] w)).
  - apply (run_batch_ok (log [10; 3] w)).
Qed.

Lemma run_from_ok : forall ops w, io_ok (w_io w) (w_io (fold_left (fun w o => do_op o w) ops w)).
Proof.
  induction ops as [|o r IH]; intros w; cbn [fold_left]; [apply io_ok_refl|].
  eapply io_ok_trans; [apply do_op_ok | apply IH].
Qed.

Lemma iocb_once : forall ops i b, lookup i (w_io (run_world ops)) = Some b -> inv_io b.
Proof.
  intros ops i b H. unfold run_world in H.
  pose proof (run_from_ok ops (mkIow [] [] [] 0 []) i) as Hk. cbn [w_io lookup] in Hk. rewrite H in Hk. exact Hk.
Qed.

(* complete / abort / anything on a finished IOCB: it stays exactly as it is, whatever else happens *)
Lemma iocb_finished_untouched : forall ops w i b, lookup i (w_io w) = Some b -> terminal_io b = true ->
  lookup i (w_io (fold_left (fun w o => do_op o w) ops w)) = Some b.
Proof.
  intros ops w i b H Ht. pose proof (run_from_ok ops w i) as Hk. rewrite H in Hk.
  destruct (lookup i (w_io (fold_left (fun w o => do_op o w) ops w))) as [b'|]; [|contradiction].
  destruct Hk as (Hk & _). rewrite (Hk Ht). reflexivity.
Qed.

(* the queue advances: a deferred _trigger on an idle queue starts its first waiting IOCB *)
Lemma trigger_advances : forall a g w q i r b,
  lookup a (w_qs w) = Some q -> q_gen q = g -> q_state q = 0 -> q_queue q = i :: r ->
  lookup i (w_io w) = Some b -> i_state b = IO_PENDING -> i_fail b = false ->
  let w' := trigger a g w in
  lookup a (w_qs w') = Some (mkSq g 1 (Some i) r) /\
  lookup i (w_io w') = Some (mkIo IO_ACTIVE (i_cb b) false (i_addr b) (i_follow b)) /\
  w_ev w' = [20; i] :: w_ev w.
Proof.
  intros a g w q i r b Hq Hg Hs Hqq Hi Hst Hf. destruct q as [qg qs qa qq]. cbn [q_gen q_state q_queue] in *. subst qg qs qq.
  destruct b as [bs bc bf ba bfo]. cbn [i_state i_fail i_cb i_addr i_follow] in *. subst bs bf.
  unfold trigger. rewrite Hq. cbn [q_gen q_state q_queue q_active]. rewrite Z.eqb_refl. cbn [negb Z.eqb].
  unfold process_io, process_io_w. cbn [set_q w_io w_qs]. rewrite Hi, lookup_update_eq.
  cbn [i_state i_fail i_cb i_addr i_follow IO_PENDING IO_IDLE Z.eqb Pos.eqb orb negb q_gen q_state q_active q_queue
       log set_q set_io w_io w_qs w_ev w_def w_gen].
  rewrite !lookup_update_eq. cbn [q_state Z.eqb Pos.eqb].
  repeat split; cbn [log set_q set_io w_io w_qs]; apply lookup_update_eq.
Qed.

(* queue_by_address cleanup: the confirmation for the only request of an address removes its queue — unless the callback
   submits a follow-up request (then the queue has to stay: the follow-up may be waiting in it) *)
Lemma confirm_cleanup : forall a ok w q i,
  lookup a (w_qs w) = Some q -> q_active q = Some i -> q_queue q = [] ->
  (forall b, lookup i (w_io w) = Some b -> i_follow b = None) ->
  lookup a (w_qs (confirm a ok w)) = None.
Proof.
  intros a ok w q i Hq Ha Hqq Hnf. destruct q as [qg qs qa qq]. cbn [q_active q_queue] in *. subst qa qq.
  unfold confirm. rewrite Hq. cbn [q_active].
  set (new := if ok then IO_COMPLETED else IO_ABORTED).
  assert (Hf : lookup a (w_qs (finish i new w)) = Some (mkSq qg qs (Some i) [])).
  { unfold finish, FUEL. cbn [fin]. destruct (lookup i (w_io w)) as [b|] eqn:Eb; [|exact Hq].
    destruct (terminal_io b); [exact Hq|]. rewrite (Hnf b eq_refl).
    cbn [set_io w_qs]. destruct (lookup (i_addr b) (w_qs w)) as [q2|] eqn:E2; cbn [log set_q w_qs]; [|exact Hq].
    destruct (Z.eq_dec a (i_addr b)) as [e|Hne].
    - subst a. rewrite Hq in E2. inversion E2; subst q2. rewrite lookup_update_eq. reflexivity.
    - rewrite lookup_update_ne by assumption. exact Hq. }
  unfold q_finish, q_finish_w. fold (finish i new w). rewrite Hf. cbn [q_active]. rewrite Z.eqb_refl.
  cbn [defer set_q w_qs q_gen q_queue]. rewrite lookup_update_eq. cbn [q_queue q_active del_q defer set_q w_qs].
  apply lookup_delete_eq.
Qed.

(* ... and with a follow-up to the same address it does stay, holding the follow-up (the case the seeded defect breaks) *)
Lemma confirm_keeps_queue_for_followup :
  let w := run_world [OSubmit 0 10 false (Some (1, 10, false))] in
  let w' := confirm 10 true w in
  exists q, lookup 10 (w_qs w') = Some q /\ q_queue q = [1] /\ q_active q = None.
Proof. vm_compute. eexists. repeat split. Qed.
