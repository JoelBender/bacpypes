(* IpNetFacts.v — a finite family of concrete worlds of the network model IpNet.v, and the
   exactly-once predicate bcast_ok on one world and one originating node.  That every member of the
   family satisfies it is evaluated in BipDelivTie.v, together with the comparison against the
   delivery tree; for worlds of any size the statement is CascadeStep.do_event_broadcast_once. *)
From Bac Require Import Base Bip BipFacts IpNet.
Open Scope N_scope.

(* subnet k (k = 0..) is 10.(k+1).(k+1).0/24; its BBMD is host .2, ordinary nodes .10.., foreign
   devices live on the BBMD-less subnet 10.200.0.0/24 as hosts .40.. *)
Definition sub_ip (k : nat) : N := 167772160 + (N.of_nat k + 1) * 65536 + (N.of_nat k + 1) * 256.
Definition m24 : N := 4294967040.
Definition m32 : N := 4294967295.
Definition port : N := 47808.
Definition fsub : N := 180879360.    (* 10.200.0.0 *)

Record cfg := mkCfg { c_simple : list nat;      (* per BBMD subnet: number of ordinary nodes *)
                      c_onehop : list bool;     (* per peer BBMD: listed with its subnet mask (one-hop) or /32 (two-hop) *)
                      c_foreign : nat }.        (* foreign devices, device j registered with BBMD (j mod n) *)

Definition bbmd_addr (k : nat) : addr := (sub_ip k + 2, port).
Definition cfg_bdt (c : cfg) : list bdte :=
  map (fun k => mkBdte (bbmd_addr k) (if nth k (c_onehop c) false then m24 else m32))
      (seq 0 (length (c_simple c))).

Definition cfg_lans (c : cfg) : list lan :=
  map (fun k => mkLan (sub_ip k) m24 port) (seq 0 (length (c_simple c))) ++ [mkLan fsub m24 port].

Fixpoint subnet_nodes (c : cfg) (k : nat) (ss : list nat) : list node :=
  match ss with
  | [] => []
  | s :: r =>
      mkNode k (bbmd_addr k) true (KBbmd (mkBbmd (bbmd_addr k) (cfg_bdt c) [] true))
      :: map (fun j => mkNode k (sub_ip k + 10 + N.of_nat j, port) true KSimple) (seq 0 s)
      ++ subnet_nodes c (S k) r
  end.
Definition foreign_nodes (c : cfg) : list node :=
  map (fun j => mkNode (length (c_simple c)) (fsub + 40 + N.of_nat j, port) true
                       (KForeign (mkForeign (-1) None None None None)))
      (seq 0 (c_foreign c)).

Definition cfg_world0 (c : cfg) : world :=
  mkWorld (cfg_lans c) (subnet_nodes c 0 (c_simple c) ++ foreign_nodes c) 0.

(* registrations: device j (node index base + j) registers with BBMD (j mod n), ttl 30 s, one
   every 100 ms starting at t = 150 ms *)
Fixpoint register_all (w : world) (base n : nat) (js : list nat) : res world :=
  match js with
  | [] => Ok w
  | j :: r =>
      do x <- step w (150 + 100 * Z.of_nat j)%Z (ERegister (base + j) (bbmd_addr (Nat.modulo j n)) 30);
      register_all (fst x) base n r
  end.
Definition cfg_world (c : cfg) : res world :=
  let w := cfg_world0 c in
  register_all w (length (subnet_nodes c 0 (c_simple c))) (length (c_simple c)) (seq 0 (c_foreign c)).

Definition ups (log : list obs) : list (nat * addr * dest * npdu) :=
  flat_map (fun o => match o with ODeliver i (Up s d p) => [(i, s, d, p)] | _ => [] end) log.

Definition dest_is_bcast (d : dest) : bool := match d with DBcast => true | _ => false end.

(* node o broadcasts payload 777 at t = 900 ms: every other node gets exactly one copy, as a
   broadcast, showing o's address; o gets none *)
Definition bcast_ok (w : world) (o : nat) : bool :=
  match nth_error (w_nodes w) o with
  | None => false
  | Some no =>
      match step w 900%Z (EBcast o 777) with
      | Err _ => false
      | Ok (_, log) =>
          let u := ups log in
          forallb (fun x => match x with (_, s, d, p) => addr_eqb s (n_addr no) && dest_is_bcast d && (p =? 777) end) u
          && forallb (fun i => Nat.eqb (length (filter (fun x => match x with (j, _, _, _) => Nat.eqb i j end) u))
                                       (if Nat.eqb i o then 0 else 1))
                     (seq 0 (length (w_nodes w)))
      end
  end.

(* the swept family: 1..3 BBMD subnets, 0..2 ordinary nodes each, every per-peer choice of
   one-hop / two-hop entries, 0..2 registered foreign devices *)
Fixpoint lists {A} (xs : list A) (n : nat) : list (list A) :=
  match n with
  | O => [[]]
  | S k => flat_map (fun l => map (fun x => x :: l) xs) (lists xs k)
  end.
Definition family : list cfg :=
  flat_map (fun n =>
    flat_map (fun ss =>
      flat_map (fun hs =>
        map (fun f => mkCfg ss hs f) [0; 1; 2]%nat)
        (lists [false; true] n))
      (lists [0; 1; 2]%nat n))
    [1; 2; 3]%nat.

Lemma family_size : length family = 774%nat.
Proof. vm_compute. reflexivity. Qed.

Theorem bcast_ok_spec : forall w o, bcast_ok w o = true ->
  exists no w' log, nth_error (w_nodes w) o = Some no /\ step w 900%Z (EBcast o 777) = Ok (w', log) /\
    (forall i s d p, In (i, s, d, p) (ups log) -> s = n_addr no /\ d = DBcast /\ p = 777) /\
    (forall i, (i < length (w_nodes w))%nat ->
       length (filter (fun x => match x with (j, _, _, _) => Nat.eqb i j end) (ups log))
       = if Nat.eqb i o then 0%nat else 1%nat).
Proof.
  intros w o H. unfold bcast_ok in H.
  destruct (nth_error (w_nodes w) o) as [no|] eqn:E; [|discriminate].
  destruct (step w 900%Z (EBcast o 777)) as [[w' log]|] eqn:S; [|discriminate].
  apply andb_true_iff in H. destruct H as [H1 H2].
  exists no, w', log. split; [reflexivity|]. split; [reflexivity|]. split.
  - intros i s d p I. pose proof (proj1 (forallb_forall _ _) H1 _ I) as X. cbn in X.
    apply andb_true_iff in X. destruct X as [X Xp]. apply andb_true_iff in X. destruct X as [Xs Xd].
    split; [apply addr_eqb_eq; exact Xs|]. split; [destruct d; [reflexivity | discriminate] | apply N.eqb_eq; exact Xp].
  - intros i L. pose proof (proj1 (forallb_forall _ _) H2 i) as X.
    apply Nat.eqb_eq. apply X. apply in_seq. split; [apply Nat.le_0_l | exact L].
Qed.

(* a member of the family with every feature: 3 subnets, mixed table styles, 2 foreign devices *)
Example family_member :
  In (mkCfg [2; 0; 1]%nat [true; false; true] 2) family /\
  exists w, cfg_world (mkCfg [2; 0; 1]%nat [true; false; true] 2) = Ok w /\ length (w_nodes w) = 8%nat.
Proof.
  split.
  - apply (nth_error_In family 407). vm_compute. reflexivity.       (* 407: its position, read off the evaluated list *)
  - eexists. split; [vm_compute; reflexivity | reflexivity].
Qed.
