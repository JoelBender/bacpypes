(* SsmFrame.v — what a handler never changes (`inv`), and what it never reads (`blind`).  A handler is built with ret /
   raise / ;; / withs / tests from a dozen primitives (upd (set_X_f v), emit, start_timer, unlist), so a property that every
   primitive has and the combinators pass on is proved by recursion on the handler's text: the work is the sum of the
   branches, not the product of the tests.
   `inv I m`: m preserves I whether or not it raises; a primitive that writes a field I does not read preserves I by
   conversion.  `blind m`: two runs of m from states that differ in the timer entry and the TaskManager counter only end in
   two such states with the same outcome.  Each has a rule per combinator and they share none: where a handler reads its
   record, `inv_withs` hands the reader a fact (the record satisfies I) while `blind_withs` asks for one (the continuation
   is the same function of both records).
   Before them: the case lemmas of the dispatchers, and the state a handler is started in (fresh_h). *)
From Coq Require Import Lia.
From Bac Require Import Base PyRt Ssm.
Open Scope Z_scope.

Lemma c_confirmation_cases : forall (P : hst * option err -> Prop) a st,
  P (c_segmented_request a st) -> P (c_await_confirmation a st) -> P (c_segmented_confirmation a st) ->
  P (st, Some RuntimeErr) -> P (c_confirmation a st).
Proof.
  intros P a st H1 H2 H3 H4. unfold c_confirmation, withs.
  destruct (_ =? SEGMENTED_REQUEST); [exact H1|]. destruct (_ =? AWAIT_CONFIRMATION); [exact H2|].
  destruct (_ =? SEGMENTED_CONFIRMATION); [exact H3 | exact H4].
Qed.

Lemma s_indication_cases : forall (P : hst * option err -> Prop) a st,
  (s_state (h_s st) = IDLE -> P (s_idle a st)) -> P (s_segmented_request a st) -> P (s_await_response a st) ->
  P (s_segmented_response a st) -> P (st, None) -> P (s_indication a st).
Proof.
  intros P a st H0 H1 H2 H3 H4. unfold s_indication, withs.
  destruct (s_state (h_s st) =? IDLE) eqn:E; [apply H0; lia|].
  destruct (_ =? SEGMENTED_REQUEST); [exact H1|]. destruct (_ =? AWAIT_RESPONSE); [exact H2|].
  destruct (_ =? SEGMENTED_RESPONSE); [exact H3 | exact H4].
Qed.

Lemma s_indication_idle : forall a st, s_state (h_s st) = IDLE -> s_indication a st = s_idle a st.
Proof. intros a st H. unfold s_indication, withs. rewrite H. reflexivity. Qed.

Lemma s_idle_not_request : forall a st, a_type a <> 0 -> s_idle a st = (st, Some RuntimeErr).
Proof. intros a st H. unfold s_idle. apply Z.eqb_neq in H. rewrite H. reflexivity. Qed.

(* the state in which StateMachineAccessPoint and the TaskManager hand a listed transaction to a handler: nothing emitted
   yet.  For a time-out the timer entry has been popped first: fresh_h (set_timer_f None s) ctr now. *)
Definition fresh_h (s : ssm) (ctr now : Z) : hst := mkH s [] ctr now true.

Definition inv (I : hst -> Prop) (m : M) : Prop := forall st, I st -> I (fst (m st)).

Lemma inv_ret : forall (I : hst -> Prop), inv I ret.
Proof. intros I st H. exact H. Qed.

Lemma inv_raise : forall (I : hst -> Prop) e, inv I (raise e).
Proof. intros I e st H. exact H. Qed.

Lemma inv_mseq : forall (I : hst -> Prop) m1 m2, inv I m1 -> inv I m2 -> inv I (m1 ;; m2).
Proof.
  intros I m1 m2 H1 H2 st H. unfold mseq. specialize (H1 st H).
  destruct (m1 st) as [st' [e|]]; [exact H1 | exact (H2 st' H1)].
Qed.

Lemma inv_withs : forall (I : hst -> Prop) k, (forall st0, I st0 -> inv I (k (h_s st0))) -> inv I (withs k).
Proof. intros I k H st Hi. exact (H st Hi st Hi). Qed.

Lemma inv_fill_loop : forall (I : hst -> Prop) n sq,
  (forall s i a, get_segment s i = Ok a -> inv I (emit (Tx a))) -> inv I (upd (set_sentall_f true)) ->
  forall ix, inv I (fill_loop n sq ix).
Proof.
  intros I n sq He Hs. induction n as [|n IH]; intros ix; cbn [fill_loop]; [apply inv_ret|].
  apply inv_withs. intros st0 _. destruct (get_segment (h_s st0) (sq + ix)) as [a|e] eqn:E; [|apply inv_raise].
  apply inv_mseq; [exact (He _ _ _ E)|]. destruct (a_mor a); [apply IH | exact Hs].
Qed.

Lemma inv_set_state : forall (I : hst -> Prop) n t,
  inv I stop_timer -> inv I (upd (set_state_f n)) -> (t <> 0 -> inv I (start_timer t)) -> inv I unlist -> inv I (set_state n t).
Proof.
  intros I n t H1 H2 H3 H4. unfold set_state. apply inv_withs. intros st0 _.
  destruct ((s_state (h_s st0) =? COMPLETED) || (s_state (h_s st0) =? ABORTED)); [apply inv_raise|].
  apply inv_mseq; [exact H1|]. apply inv_mseq; [exact H2|]. apply inv_mseq.
  - destruct (t =? 0) eqn:E; [apply inv_ret | apply H3; lia].
  - destruct ((n =? COMPLETED) || (n =? ABORTED)); [exact H4 | apply inv_ret].
Qed.

(* One step down the text of a handler (c_abort, s_abort, send_seg, fill_window, append_segment unfolded first).  At a
   primitive, `prim` is tried, then conversion; a primitive neither settles is left as a goal.  An Ltac passed as `prim`
   begins with `idtac;` so that it runs at the primitive and not where it is passed. *)
Ltac inv_step prim :=
  cbv beta zeta;
  lazymatch goal with
  | |- inv _ (mseq _ _) => apply inv_mseq
  | |- inv _ (withs _) => apply inv_withs; intros ? ?
  | |- inv _ ret => apply inv_ret
  | |- inv _ (raise _) => apply inv_raise
  (* third goal: `t <> 0 -> inv I (start_timer t)`, void when the handler's text passes the literal 0 *)
  | |- inv _ (set_state _ _) => apply inv_set_state; [ | | intros ?; try congruence | ]
  | |- inv _ (fill_loop _ _ _) => apply inv_fill_loop; [intros ? ? ? ?|]
  | |- inv _ (if ?b then _ else _) => destruct b
  | |- inv _ (match ?x with _ => _ end) => destruct x eqn:?
  | |- inv _ _ => first [prim | intros ? ?; assumption]
  end.
Ltac inv_auto prim := repeat (inv_step prim).

Definition erase (st : hst) : hst := mkH (set_timer_f None (h_s st)) (h_outs st) 0 (h_now st) (h_live st).

Definition blind (m : M) : Prop :=
  forall a b, erase a = erase b -> erase (fst (m a)) = erase (fst (m b)) /\ snd (m a) = snd (m b).

Lemma erase_eq a b : erase a = erase b <->
  set_timer_f None (h_s a) = set_timer_f None (h_s b) /\ h_outs a = h_outs b /\ h_now a = h_now b /\ h_live a = h_live b.
Proof.
  split.
  - intros H. exact (conj (f_equal h_s H) (conj (f_equal h_outs H) (conj (f_equal h_now H) (f_equal h_live H)))).
  - unfold erase. intros (-> & -> & -> & ->). reflexivity.
Qed.

Lemma blind_ret : blind ret.
Proof. intros a b H. split; [exact H | reflexivity]. Qed.

Lemma blind_raise e : blind (raise e).
Proof. intros a b H. split; [exact H | reflexivity]. Qed.

Lemma blind_mseq m1 m2 : blind m1 -> blind m2 -> blind (m1 ;; m2).
Proof.
  intros H1 H2 a b H. unfold mseq. destruct (H1 a b H) as (Hs & He).
  destruct (m1 a) as [a' [e|]], (m1 b) as [b' [e'|]]; cbn [fst snd] in *; try discriminate;
    [split; assumption | apply H2, Hs].
Qed.

Lemma blind_emit o : blind (emit o).
Proof. intros a b H. split; [|reflexivity]. apply erase_eq in H. apply erase_eq. cbn. intuition congruence. Qed.

Lemma blind_unlist : blind unlist.
Proof. intros a b H. split; [|reflexivity]. apply erase_eq in H. apply erase_eq. cbn. intuition congruence. Qed.

Lemma blind_upd f : (forall s, set_timer_f None (f s) = f (set_timer_f None s)) -> blind (upd f).
Proof.
  intros C a b H. split; [|reflexivity]. apply erase_eq in H. apply erase_eq.
  cbn [upd fst h_s h_outs h_now h_live]. rewrite !C. intuition congruence.
Qed.

Lemma blind_stop_timer : blind stop_timer.
Proof. intros a b H. split; [|reflexivity]. apply erase_eq in H. apply erase_eq. exact H. Qed.

Lemma blind_start_timer t : blind (start_timer t).
Proof. intros a b H. split; [|reflexivity]. apply erase_eq in H. apply erase_eq. exact H. Qed.

Lemma blind_withs k : (forall s, k (set_timer_f None s) = k s) -> (forall s, blind (k s)) -> blind (withs k).
Proof.
  intros Hk Hb a b H. unfold withs.
  replace (k (h_s a)) with (k (h_s b)); [apply Hb, H|].
  rewrite <- (Hk (h_s a)), <- (Hk (h_s b)). f_equal. symmetry. exact (f_equal h_s H).
Qed.

(* `auto with blind` walks a branch once its tests are decided, and `reflexivity` shows that a function of the record does
   not read the timer entry, every other projection of `set_timer_f None s` being the one of s *)
Create HintDb blind discriminated.
#[export] Hint Resolve blind_ret blind_raise blind_mseq blind_emit blind_unlist blind_stop_timer blind_start_timer : blind.
#[export] Hint Extern 1 (blind (upd _)) => apply blind_upd; reflexivity : blind.
#[export] Hint Extern 1 (blind (if _ then _ else _)) =>
  match goal with |- blind (if ?c then _ else _) => destruct c end : blind.

Lemma blind_set_state new timer : blind (set_state new timer).
Proof. apply blind_withs; [reflexivity|]. intros s. auto 7 with blind. Qed.

Lemma blind_s_abort r k : (forall ab, blind (k ab)) -> blind (s_abort r k).
Proof. intros Hk. apply blind_mseq; [apply blind_set_state|]. apply blind_withs; [reflexivity | intros s; apply Hk]. Qed.

Lemma blind_send_seg i : blind (send_seg i).
Proof. apply blind_withs; [reflexivity|]. intros s. destruct (get_segment s i); auto with blind. Qed.

#[export] Hint Resolve blind_set_state blind_s_abort blind_send_seg : blind.
