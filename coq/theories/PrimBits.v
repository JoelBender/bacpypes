(* PrimBits.v — BitString content octets: unused-bit count, MSB-first packing with zero padding, round trip. *)
From Bac Require Import Base BytesFacts Tag Prim.
Open Scope N_scope.

Lemma list_ind8 (P : list bool -> Prop) :
  P [] -> (forall l, (0 < length l < 8)%nat -> P l) ->
  (forall b7 b6 b5 b4 b3 b2 b1 b0 r, P r -> P (b7::b6::b5::b4::b3::b2::b1::b0::r)) ->
  forall l, P l.
Proof.
  intros H0 Hs H8. fix IH 1. intros l.
  destruct l as [|b7 [|b6 [|b5 [|b4 [|b3 [|b2 [|b1 [|b0 r]]]]]]]]; try (apply Hs; cbn [length]; lia).
  - apply H0.
  - apply H8. apply IH.
Qed.

Lemma byte_bits_oct b7 b6 b5 b4 b3 b2 b1 b0 :
  byte_bits (oct b7 b6 b5 b4 b3 b2 b1 b0) = [b7; b6; b5; b4; b3; b2; b1; b0].
Proof. destruct b7, b6, b5, b4, b3, b2, b1, b0; reflexivity. Qed.

Lemma oct_byte b7 b6 b5 b4 b3 b2 b1 b0 : oct b7 b6 b5 b4 b3 b2 b1 b0 < 256.
Proof. destruct b7, b6, b5, b4, b3, b2, b1, b0; reflexivity. Qed.

Lemma unused_bits_8 b7 b6 b5 b4 b3 b2 b1 b0 r :
  unused_bits (b7::b6::b5::b4::b3::b2::b1::b0::r) = unused_bits r.
Proof.
  unfold unused_bits, lenN. cbn [length].
  replace (N.of_nat (S (S (S (S (S (S (S (S (length r))))))))) mod 8) with (N.of_nat (length r) mod 8) by lia_div.
  reflexivity.
Qed.

(* the octets of a bit string: read most significant bit first they are the bits followed by zero padding;
   there are ceil(n/8) of them; each is an octet *)
Lemma pack_bits_spec l :
  flat_map byte_bits (pack_bits l) = l ++ repeat false (N.to_nat (unused_bits l)) /\
  lenN (pack_bits l) = (lenN l + 7) / 8 /\ bytes_ok (pack_bits l) = true.
Proof.
  induction l as [|l Hl|b7 b6 b5 b4 b3 b2 b1 b0 r (IH1 & IH2 & IH3)] using list_ind8.
  - repeat split.
  - destruct l as [|b7 [|b6 [|b5 [|b4 [|b3 [|b2 [|b1 [|b0 r]]]]]]]]; cbn [length] in Hl; try lia;
      (split; [unfold pack_bits, nth; cbn [flat_map]; rewrite byte_bits_oct; reflexivity|]); (split; [reflexivity|]);
      apply bytes_ok_cons; exact (conj (oct_byte _ _ _ _ _ _ _ _) eq_refl).
  - cbn [pack_bits flat_map]. rewrite byte_bits_oct, IH1, unused_bits_8. split; [reflexivity|]. split.
    + unfold lenN in *. cbn [length]. lia_div.
    + apply bytes_ok_cons. exact (conj (oct_byte _ _ _ _ _ _ _ _) IH3).
Qed.

Lemma pack_bits_bytes l : bytes_ok (pack_bits l) = true.
Proof. apply pack_bits_spec. Qed.

Lemma unused_bits_spec l : unused_bits l = (8 - lenN l mod 8) mod 8.
Proof. unfold unused_bits. destruct (lenN l mod 8 =? 0) eqn:E; lia_div. Qed.

Lemma bits_roundtrip l : dec_bits (enc_bits l) = Ok l.
Proof.
  unfold enc_bits, dec_bits. rewrite (proj1 (pack_bits_spec l)). f_equal.
  destruct (unused_bits l =? 0) eqn:E.
  - apply N.eqb_eq in E. rewrite E. cbn [N.to_nat repeat]. apply app_nil_r.
  - rewrite app_length, repeat_length.
    replace (length l + N.to_nat (unused_bits l) - N.to_nat (unused_bits l))%nat with (length l) by lia.
    rewrite firstn_app, Nat.sub_diag, firstn_all. cbn [firstn]. apply app_nil_r.
Qed.

Lemma unused_bits_lt l : unused_bits l < 8.
Proof. rewrite unused_bits_spec. lia_div. Qed.
