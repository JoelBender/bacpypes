(* CodecTotal.v — totality of the generic codec.
   (a) encode never refuses a well-typed value;
   (b) decode on ARBITRARY tag lists returns a suffix of its input, a non-nullable type consumes at least one
       tag when the input starts with a non-closing tag, hence the list loops never run out of fuel, and every
       failure is one of the exception classes of dec_err;
   and, from (a), the PDU round trip with no hypothesis on the encoder's outcome. *)
From Bac Require Import Base.
From Bac Require Import BytesFacts ListFacts.
From Bac Require Import Tag.
From Bac Require Import TagFacts.
From Bac Require Import Schema.
From Bac Require Import Codec.
From Bac Require Import CodecFacts.
From Bac Require Import CodecWf.
Open Scope N_scope.

Definition ENC (t : ty) : Prop := forall v, has_ty t v -> exists ts, encode t v = Ok ts.
Definition ENCe (e : elem) : Prop := forall f, has_el e f -> exists ts, enc_el encode e f = Ok ts.

Lemma enc_leaf_total k c x : leaf_ok k x -> exists ts, enc_leaf c x = Ok ts.
Proof.
  intros Hl. destruct c as [c|]; cbn [enc_leaf]; [|eauto].
  destruct (leaf_ctx_roundtrip k c x Hl) as (x' & Ha & _). rewrite Ha. cbn [bind]. eauto.
Qed.

Lemma el_enc t c o : ENC t -> ENCe (El t c o).
Proof.
  intros He f Hf. destruct f as [v|]; [|cbn [has_el] in Hf; subst o; cbn [enc_el]; eauto].
  cbn [has_el] in Hf. rewrite (enc_el_some t c o v Hf). destruct (is_atomic t) eqn:Hat.
  - destruct (atomic_inv t v Hat Hf) as (k & x & -> & Hx & _). exact (enc_leaf_total k c x Hx).
  - destruct (He v Hf) as [b Hb]. unfold enc_wrapped. rewrite Hb. cbn [bind]. eauto.
Qed.

Lemma els_enc els : Forall ENCe els -> forall fs, has_fields els fs -> exists ts, enc_els encode els fs = Ok ts.
Proof.
  induction 1 as [|e r He _ IH]; intros fs Hv.
  - destruct fs; [|contradiction]. cbn. eauto.
  - destruct fs as [|f fs]; [contradiction|]. destruct Hv as [Hf Hv].
    destruct (He f Hf) as [a Ha]. destruct (IH fs Hv) as [b Hb].
    cbn [enc_els]. rewrite Ha. cbn [bind]. fold (enc_els encode r fs). rewrite Hb. cbn [bind]. eauto.
Qed.

Lemma alts_enc els : Forall ENCe els -> forall i w, has_alt els i w -> exists ts, enc_nth encode els i w = Ok ts.
Proof.
  induction 1 as [|e r He _ IH]; intros i w Hv; [destruct i; contradiction|].
  destruct i as [|j]; cbn [has_alt enc_nth] in *; destruct Hv as [_ Hv]; [|exact (IH j w Hv)].
  rewrite (enc_alt_el e w Hv). exact (He (Some w) Hv).
Qed.

Lemma enc_list_total s : ENC s -> forall vs, Forall (has_ty s) vs -> exists ts, enc_list (encode s) vs = Ok ts.
Proof.
  intros He. induction 1 as [|v vs Hv _ [b Hb]]; [cbn; eauto|].
  destruct (He v Hv) as [a Ha]. cbn [enc_list]. rewrite Ha. cbn [bind]. rewrite Hb. cbn [bind]. eauto.
Qed.

Theorem encode_total : forall t, ENC t.
Proof.
  apply (ty_ind2 ENC ENCe).
  1-4: unfold ENC; intros until v; intros Hv; destruct v; try contradiction; cbn [encode]; eauto.
  - intros els Hall v Hv. destruct v as [| |fs| |]; try contradiction. exact (els_enc els Hall fs Hv).
  - intros els Hall v Hv. destruct v as [| | |i w|]; try contradiction. rewrite has_ty_choice in Hv.
    exact (alts_enc els Hall i w Hv).
  - intros s He v Hv. destruct v as [| | | |vs]; try contradiction. exact (enc_list_total s He vs Hv).
  - intros s f He v Hv. destruct v as [| | | |vs]; try contradiction. destruct Hv as [Hv Hl].
    cbn [encode]. destruct f as [n|]; [|apply enc_list_total; assumption].
    apply N.eqb_eq in Hl. rewrite Hl. apply enc_list_total; assumption.
  - intros v Hv. destruct (has_ty_namevalue v Hv) as (n & tail & Hn & Hf).
    destruct (leaf_ctx_roundtrip 7 0 n Hn) as (n' & Ha & _). rewrite (namevalue_enc n n' v tail Hf Ha). eauto.
  - exact el_enc.
Qed.

Definition dec_err (e : err) : bool :=
  match e with
  | DecodingError | InvalidTag | MissingRequired | InvalidParameterDatatype
  | ValueErr | IndexErr | AttrErr | StructErr | UnicodeErr | RuntimeErr | OtherErr => true
  | _ => false
  end.

Definition headnc (ts : list tag) : Prop :=
  match ts with x :: _ => (cls x =? 3) = false | [] => False end.

Definition dspec {A} (must : Prop) (ts : list tag) (r : res (A * list tag)) : Prop :=
  match r with
  | Ok (_, ts') => exists pre, ts = pre ++ ts' /\ (must -> pre <> [])
  | Err e => dec_err e = true
  end.

Definition SUF (t : ty) : Prop := forall ts, dspec (nullable t = false /\ headnc ts) ts (decode t ts).

Lemma dspec_weaken {A} (m1 m2 : Prop) ts (r : res (A * list tag)) :
  (m2 -> m1) -> dspec m1 ts r -> dspec m2 ts r.
Proof. intros H. destruct r as [[a ts']|e]; cbn [dspec]; [|auto]. intros (pre & Hp & Hm). exists pre. auto. Qed.

Lemma dspec_map {A B} (k : A -> B) (P : Prop) ts (r : res (A * list tag)) :
  dspec P ts r -> dspec P ts (do (a, r') <- r; Ok (k a, r')).
Proof. destruct r as [[a r']|e]; cbn [bind dspec]; auto. Qed.

Lemma dspec_bind {A B} (P : Prop) ts (r : res A) (k : A -> res (B * list tag)) :
  (forall e, r = Err e -> dec_err e = true) -> (forall a, dspec P ts (k a)) -> dspec P ts (bind r k).
Proof. intros He Hk. destruct r as [a|e]; cbn [bind dspec]; auto. Qed.

Lemma dspec_one {A} (P : Prop) x rest (a : A) : dspec P (x :: rest) (Ok (a, rest)).
Proof. exists [x]. split; [reflexivity|discriminate]. Qed.
Lemma dspec_none {A} (P : Prop) ts (a : A) : ~ P -> dspec P ts (Ok (a, ts)).
Proof. intros H. exists []. split; [reflexivity|]. intros HP. contradiction. Qed.

Lemma atom_check_err k t e : atom_check k t = Err e -> dec_err e = true.
Proof.
  unfold atom_check.
  repeat match goal with
         | |- context [if ?b then _ else _] => destruct b
         | |- context [match data t with _ => _ end] => destruct (data t)
         end; intros H; try discriminate; injection H as <-; reflexivity.
Qed.

Lemma context_to_app_err k t e : context_to_app k t = Err e -> dec_err e = true.
Proof.
  unfold context_to_app.
  repeat match goal with
         | |- context [if ?b then _ else _] => destruct b
         | |- context [match data t with _ => _ end] => destruct (data t) as [|? [|? ?]]
         end; intros H; try discriminate; injection H as <-; reflexivity.
Qed.

Lemma anyatomic_obj_err x e : anyatomic_obj x = Err e -> dec_err e = true.
Proof.
  unfold anyatomic_obj.
  destruct (negb (cls x =? 0)); [intros H; injection H as <-; reflexivity|].
  destruct (16 <=? num x); [intros H; injection H as <-; reflexivity|].
  destruct (13 <=? num x); [discriminate|].
  destruct (atom_check (num x) x) eqn:E; cbn [bind]; [discriminate|].
  intros H; injection H as <-. eapply atom_check_err; eauto.
Qed.

Lemma app_atom_spec {A} (P : Prop) k x rest (a : A) :
  dspec P (x :: rest) (do _ <- atom_check k x; Ok (a, rest)).
Proof. apply dspec_bind; [apply atom_check_err|]. intros _. apply dspec_one. Qed.
Lemma ctx_atom_spec {A} (P : Prop) k x rest (f : tag -> A) :
  dspec P (x :: rest) (do x' <- context_to_app k x; do _ <- atom_check k x'; Ok (f x', rest)).
Proof.
  apply dspec_bind; [apply context_to_app_err|]. intros x'.
  apply dspec_bind; [apply atom_check_err|]. intros _. apply dspec_one.
Qed.

Lemma any_take_spec : forall ts lvl,
  match any_take lvl ts with Ok (g, r) => ts = g ++ r | Err e => e = DecodingError end.
Proof.
  induction ts as [|t ts IH]; intros lvl.
  - cbn [any_take]. destruct lvl; reflexivity.
  - cbn [any_take]. destruct (cls t =? 2).
    + specialize (IH (S lvl)). destruct (any_take (S lvl) ts) as [[g r]|e]; cbn [bind]; [cbn [app]; f_equal|]; assumption.
    + destruct (cls t =? 3).
      * destruct lvl as [|l']; [reflexivity|].
        specialize (IH l'). destruct (any_take l' ts) as [[g r]|e]; cbn [bind]; [cbn [app]; f_equal|]; assumption.
      * specialize (IH lvl). destruct (any_take lvl ts) as [[g r]|e]; cbn [bind]; [cbn [app]; f_equal|]; assumption.
Qed.

(* closing a context-wrapped construct: the opening tag x has been consumed in any case *)
Lemma wrapped_spec {A} (P Q : Prop) (k : val -> A) (c : N) (x : tag) (rest : list tag) (r : dres) (eempty : err) :
  dspec P rest r -> dec_err eempty = true ->
  dspec Q (x :: rest)
    (do (v, ts1) <- r;
     match ts1 with
     | [] => Err eempty
     | y :: ts2 => if is_closing c y then Ok (k v, ts2) else Err InvalidTag
     end).
Proof.
  intros Hr He. destruct r as [[v ts1]|e]; cbn [bind dspec] in *; [|exact Hr].
  destruct Hr as (pre & -> & _). destruct ts1 as [|y ts2]; [exact He|].
  destruct (is_closing c y); [|reflexivity].
  exists (x :: pre ++ [y]). split; [|discriminate]. cbn [app]. rewrite <- app_assoc. reflexivity.
Qed.

Definition SUFe (e : elem) : Prop :=
  forall ts, dspec (nullable_el e = false /\ headnc ts) ts (dec_el decode e ts).

Lemma opt_skip t c (f : option val) ts : dspec (nullable_el (El t c true) = false /\ headnc ts) ts (Ok (f, ts)).
Proof. apply dspec_none. intros [H _]. destruct c; discriminate H. Qed.

Lemma struct_suf t c o x rest : SUF t ->
  dspec (nullable_el (El t c o) = false /\ headnc (x :: rest)) (x :: rest) (dec_el_struct decode t c o x rest).
Proof.
  intros Ht. unfold dec_el_struct. destruct c as [c|].
  - destruct ((cls x =? 2) && (num x =? c)).
    + exact (wrapped_spec _ _ Some c x rest (decode t rest) InvalidTag (Ht rest) eq_refl).
    + destruct o; [apply opt_skip|reflexivity].
  - pose proof (Ht (x :: rest)) as H. destruct (decode t (x :: rest)) as [[v ts1]|er]; cbn [dspec] in *.
    + destruct H as (pre & Hp & Hm). exists pre. split; [exact Hp|]. intros [Hn Hh]. apply Hm.
      cbn [nullable_el] in Hn. apply orb_false_iff in Hn as [_ Hn]. auto.
    + (* try / roll-back *)
      destruct (o && catchable er) eqn:Eo; [|exact H]. apply andb_true_iff in Eo as [-> _]. apply opt_skip.
Qed.

Lemma el_suf t c o : SUF t -> SUFe (El t c o).
Proof.
  intros Ht ts. cbn [dec_el].
  assert (Hend : ~ headnc ts -> dspec (nullable_el (El t c o) = false /\ headnc ts) ts (dec_el_end t o ts)).
  { intros Hn. unfold dec_el_end. destruct o; [|destruct (is_list t)]; try reflexivity; apply dspec_none; tauto. }
  destruct ts as [|x rest]; [apply Hend; cbn; tauto|].
  destruct (cls x =? 3) eqn:E3; [apply Hend; cbn [headnc]; rewrite E3; discriminate|].
  destruct t; try (apply struct_suf; exact Ht).
  - unfold dec_el_atom. destruct c as [c|].
    + destruct ((cls x =? 1) && (num x =? c)); [apply ctx_atom_spec|]. destruct o; [apply opt_skip|reflexivity].
    + destruct ((cls x =? 0) && (num x =? k)); [apply app_atom_spec|]. destruct o; [apply opt_skip|reflexivity].
  - unfold dec_el_anyatomic. destruct c as [c|]; [reflexivity|].
    destruct (cls x =? 0); [|destruct o; [apply opt_skip|reflexivity]].
    apply dspec_bind; [apply anyatomic_obj_err|]. intros ov. apply dspec_one.
  - unfold dec_el_list. destruct c as [c|].
    + destruct ((cls x =? 2) && (num x =? c)).
      * exact (wrapped_spec _ _ Some c x rest (decode (TSeqOf t) rest) AttrErr (Ht rest) eq_refl).
      * destruct o; [apply opt_skip|reflexivity].
    + apply (dspec_map Some). eapply dspec_weaken; [|apply Ht]. intros [H _]. destruct o; discriminate H.
Qed.

Lemma els_suf els : Forall (fun e => SUF (el_ty e)) els ->
  forall ts, dspec (forallb nullable_el els = false /\ headnc ts) ts (dec_els decode els ts).
Proof.
  induction 1 as [|[t c o] r He _ IH]; intros ts.
  - cbn [dec_els]. apply dspec_none. intros [H _]. discriminate.
  - cbn [dec_els]. pose proof (el_suf t c o He ts) as H1.
    destruct (dec_el decode (El t c o) ts) as [[f ts1]|er]; cbn [bind dspec] in *; [|exact H1].
    destruct H1 as (p1 & -> & Hm1). pose proof (IH ts1) as H2.
    destruct (dec_els decode r ts1) as [[fs ts2]|er]; cbn [bind dspec] in *; [|exact H2].
    destruct H2 as (p2 & -> & Hm2). exists (p1 ++ p2). split; [apply app_assoc|].
    intros [Hn Hh]. cbn [forallb] in Hn. destruct p1 as [|a p1]; [|discriminate].
    cbn [app] in *. apply andb_false_iff in Hn as [Hn|Hn].
    + exfalso. apply Hm1; auto.
    + apply Hm2; auto.
Qed.

Lemma alts_suf (P : Prop) alts : Forall (fun e => SUF (el_ty e)) alts ->
  forall i x rest, dspec P (x :: rest) (dec_alts decode alts i x rest).
Proof.
  induction 1 as [|[t c o] more He _ IH]; intros i x rest; [reflexivity|].
  cbn [el_ty] in He. cbn [dec_alts]. specialize (IH (S i) x rest).
  assert (Hst : dspec P (x :: rest) (dec_alt_struct decode t c i x rest (dec_alts decode more (S i) x rest))).
  { unfold dec_alt_struct. destruct c as [c|]; [|reflexivity].
    destruct ((cls x =? 2) && (num x =? c)); [|exact IH].
    exact (wrapped_spec _ _ (VChoice i) c x rest (decode t rest) AttrErr (He rest) eq_refl). }
  destruct t; try exact Hst.
  - unfold dec_alt_atom. destruct c as [c|].
    + destruct ((cls x =? 1) && (num x =? c)); [|exact IH].
      apply (ctx_atom_spec P k x rest (fun x' => VChoice i (VAtom x'))).
    + destruct ((cls x =? 0) && (num x =? k)); [apply app_atom_spec|exact IH].
  - destruct c as [c|]; [reflexivity|exact IH].
Qed.

(* progress of the item decoder bounds the iterations of a list loop *)
Lemma loop_suf s : SUF s -> nullable s = false ->
  forall fuel ts, (length ts <= fuel)%nat -> dspec False ts (dec_loop (decode s) fuel ts).
Proof.
  intros Hs Hn. induction fuel as [|f IH]; intros ts Hlen.
  - destruct ts as [|x r]; [|cbn [length] in Hlen; lia]. apply dspec_none. tauto.
  - destruct ts as [|x r]; [apply dspec_none; tauto|].
    cbn [dec_loop]. destruct (cls x =? 3) eqn:E3; [apply dspec_none; tauto|].
    pose proof (Hs (x :: r)) as H1.
    destruct (decode s (x :: r)) as [[v ts1]|er]; cbn [bind dspec] in *; [|exact H1].
    destruct H1 as (p1 & Hp & Hm1).
    assert (Hp1 : p1 <> []) by (apply Hm1; split; [exact Hn|exact E3]).
    assert (Hl1 : (length ts1 <= f)%nat).
    { assert (Hl : length (x :: r) = length (p1 ++ ts1)) by (rewrite Hp; reflexivity).
      rewrite app_length in Hl. destruct p1; [contradiction|]. cbn [length] in *. lia. }
    pose proof (IH ts1 Hl1) as H2.
    destruct (dec_loop (decode s) f ts1) as [[vs ts2]|er]; cbn [bind dspec] in *; [|exact H2].
    destruct H2 as (p2 & -> & _). exists (p1 ++ p2). split; [|tauto]. rewrite Hp. apply app_assoc.
Qed.

Lemma items_suf s ts : (wf_ty s = true -> SUF s) -> wf_ty (TSeqOf s) = true ->
  dspec False ts (dec_loop (decode s) (S (length ts)) ts).
Proof.
  intros Hs Hwf. cbn [wf_ty] in Hwf. split_andb.
  apply (loop_suf s); [auto|apply negb_true_iff; assumption|lia].
Qed.

Lemma namevalue_suf : SUF TNameValue.
Proof.
  intros ts. cbn [decode]. unfold dec_namevalue.
  destruct ts as [|x rest]; [reflexivity|].
  destruct ((cls x =? 1) && (num x =? 0)); [|reflexivity].
  apply dspec_bind; [apply context_to_app_err|]. intros n.
  apply dspec_bind; [apply atom_check_err|]. intros _.
  destruct rest as [|y rest2]; [apply dspec_one|].
  destruct (cls y =? 0); [|apply dspec_one].
  assert (Hobj : dspec (nullable TNameValue = false /\ headnc (x :: y :: rest2)) (x :: y :: rest2)
                   (do o <- anyatomic_obj y; Ok (VSeq [Some (VAtom n); o], rest2))).
  { apply dspec_bind; [apply anyatomic_obj_err|]. intros o. exists [x; y]. split; [reflexivity|discriminate]. }
  destruct rest2 as [|z rest3]; [exact Hobj|].
  destruct ((num y =? 10) && (cls z =? 0) && (num z =? 11)); [|exact Hobj].
  apply dspec_bind; [apply atom_check_err|]. intros _.
  apply dspec_bind; [apply atom_check_err|]. intros _.
  exists [x; y; z]. split; [reflexivity|discriminate].
Qed.

Theorem decode_spec : forall t, wf_ty t = true -> SUF t.
Proof.
  assert (Hany : forall ts, dspec (true = false /\ headnc ts) ts (do (g, r) <- any_decode ts; Ok (VTags g, r))).
  { intros ts. unfold any_decode. pose proof (any_take_spec ts 0) as H.
    destruct (any_take 0 ts) as [[g r]|e]; cbn [bind dspec]; [|subst e; reflexivity].
    exists g. split; [exact H|]. intros [Hn _]. discriminate. }
  apply (ty_ind2 (fun t => wf_ty t = true -> SUF t) (fun e => wf_el e = true -> SUF (el_ty e))).
  - intros k _ ts. cbn [decode]. destruct ts as [|x rest]; [reflexivity|]. apply app_atom_spec.
  - intros _ ts. cbn [decode]. destruct ts as [|x rest]; [reflexivity|].
    apply dspec_bind; [apply anyatomic_obj_err|]. intros [v|]; apply dspec_one.
  - intros _. exact Hany.
  - intros _. exact Hany.
  - intros els Hall Hwf ts. rewrite wf_ty_seq in Hwf. cbn [decode]. apply (dspec_map VSeq), els_suf.
    exact (Forall_forallb _ _ els Hall (wf_els_all els Hwf)).
  - intros els Hall Hwf ts. cbn [wf_ty] in Hwf. split_andb.
    cbn [decode]. destruct ts as [|x rest]; [reflexivity|]. destruct (cls x =? 3); [reflexivity|].
    apply alts_suf. exact (Forall_forallb _ _ els Hall ltac:(assumption)).
  - intros s Hs Hwf ts. cbn [decode]. apply (dspec_map VList).
    eapply dspec_weaken; [|exact (items_suf s ts Hs Hwf)]. intros [H _]. discriminate H.
  - intros s f Hs Hwf ts. cbn [decode]. pose proof (items_suf s ts Hs Hwf) as Hl.
    destruct (dec_loop (decode s) (S (length ts)) ts) as [[vs r]|e]; cbn [bind dspec] in *; [|exact Hl].
    destruct Hl as (pre & Hp & _).
    destruct f as [n|]; [destruct (lenN vs =? n)|]; cbn [dspec]; try reflexivity;
      (exists pre; split; [exact Hp|intros [H _]; discriminate H]).
  - intros _. exact namevalue_suf.
  - intros t c o Ht Hwf. cbn [wf_el] in Hwf. split_andb. exact (Ht ltac:(assumption)).
Qed.

(* OutOfFuel is not in dec_err: decode never runs out of fuel, whatever the input *)
Theorem decode_total t : wf_ty t = true -> forall ts,
  (exists v ts', decode t ts = Ok (v, ts') /\ exists pre, ts = pre ++ ts')
  \/ (exists e, decode t ts = Err e /\ dec_err e = true).
Proof.
  intros Hwf ts. pose proof (decode_spec t Hwf ts) as H.
  destruct (decode t ts) as [[v ts']|e]; cbn [dspec] in H.
  - left. destruct H as (pre & Hp & _). eauto.
  - right. eauto.
Qed.

Theorem decode_pdu_total els : wf_ty (TSeq els) = true -> forall bs,
  (exists v, decode_pdu (TSeq els) bs = Ok v)
  \/ (exists e, decode_pdu (TSeq els) bs = Err e /\ (dec_err e = true \/ e = TooManyArguments)).
Proof.
  intros Hwf bs. unfold decode_pdu.
  destruct (dec_tags_total bs) as [[ts ->]| ->]; cbn [bind]; [|right; eexists; split; [reflexivity|left; reflexivity]].
  pose proof (decode_spec (TSeq els) Hwf ts) as H. cbn [decode] in H.
  destruct (dec_els decode els ts) as [[fs r]|e]; cbn [bind dspec] in *.
  - destruct r; [left; eauto|right; eexists; split; [reflexivity|right; reflexivity]].
  - right. eauto.
Qed.

(* through APCISequence down to octets: the encoder accepts the value (a), the tags it emits are
   well formed (CodecWf), so C02 supplies the tag-list round trip *)
Theorem pdu_roundtrip_total els : supported (TSeq els) = true -> wf_ty (TSeq els) = true ->
  forall v, has_ty (TSeq els) v -> val_wf v ->
  exists bs, encode_pdu (TSeq els) v = Ok bs /\ decode_pdu (TSeq els) bs = Ok v /\
             forall v', decode_pdu (TSeq els) bs = Ok v' -> encode_pdu (TSeq els) v' = Ok bs.
Proof.
  intros Hs Hw v Hv Hvw. destruct (encode_total (TSeq els) v Hv) as [ts He].
  destruct (list_roundtrip ts (encode_tags_wf (TSeq els) Hw v ts Hv Hvw He)) as (bs & Hb & Hd).
  destruct (roundtrip_els els Hs Hw v ts [] Hv He I) as (fs & -> & Hrt). rewrite app_nil_r in Hrt.
  assert (Henc : encode_pdu (TSeq els) (VSeq fs) = Ok bs) by (unfold encode_pdu; rewrite He; exact Hb).
  assert (Hdec : decode_pdu (TSeq els) bs = Ok (VSeq fs)).
  { unfold decode_pdu. rewrite Hd. cbn [bind]. rewrite Hrt. reflexivity. }
  exists bs. split; [exact Henc|]. split; [exact Hdec|].
  intros v' Hd'. rewrite Hdec in Hd'. injection Hd' as <-. exact Henc.
Qed.

(* Any.cast_out; being a function of the tag list, it gives the value back any number of times *)
Theorem cast_out_roundtrip t : supported t = true -> wf_ty t = true ->
  forall v ts, has_ty t v -> encode t v = Ok ts -> cast_out t ts = Ok v.
Proof.
  intros Hs Hw v ts Hv He.
  pose proof (roundtrip t Hs Hw v ts [] Hv He I) as Hrt. rewrite app_nil_r in Hrt.
  destruct t; unfold cast_out; try (rewrite Hrt; reflexivity).
  - destruct (enc_inv _ _ _ Hv He) as (x & -> & -> & Hx). rewrite (leaf_check _ _ Hx). reflexivity.
  - destruct (enc_inv _ _ _ Hv He) as (x & -> & -> & H12 & Hx). rewrite (anyatomic_obj_leaf x H12 Hx). reflexivity.
Qed.
