(* write-then-read, the array index rules and the length invariant of ArrayOf values *)
From Bac Require Import Base PyRt Obj ObjFacts.
Open Scope Z_scope.

(* the items a value denotes, independently of any datatype descriptor *)
Definition raw_elem (e : elem) : res (list item) :=
  match e with
  | EAtom k c => Ok [IA k c] | EObj k c => Ok [IA k c] | ECons cid c => Ok [IC cid c]
  | EBad _ x => Err x
  end.
Fixpoint raw_elems (l : list elem) : res (list item) :=
  match l with
  | [] => Ok []
  | e :: r => do a <- raw_elem e; do b <- raw_elems r; Ok (a ++ b)
  end.
Definition raw_val (v : val) : res (list item) :=
  match v with
  | VS e => raw_elem e
  | VPyList l => raw_elems l | VLst l => raw_elems l | VArr _ l => raw_elems l
  | VNone => Err TypeErr
  end.

Lemma enc_elem_ok : forall s e, elem_ok s e = true -> enc_elem s e = raw_elem e.
Proof.
  intros s e H. destruct s as [k lo hi | | cid]; destruct e as [k' c | k' c | c' c | c' x]; cbn in H; try discriminate.
  - cbn. destruct (k' =? k) eqn:E; [| discriminate]. assert (k' = k) by lia. subst. reflexivity.
  - reflexivity.
  - cbn. rewrite H. assert (c' = cid) by lia. subst. reflexivity.
  - cbn. rewrite H. reflexivity.
Qed.
Lemma enc_elems_ok : forall s l, forallb (elem_ok s) l = true -> enc_elems s l = raw_elems l.
Proof.
  intros s l. induction l as [| e r IH]; intros H; cbn [enc_elems raw_elems forallb] in *; [reflexivity |].
  apply andb_prop in H. destruct H as [H1 H2]. rewrite (enc_elem_ok _ _ H1), (IH H2). reflexivity.
Qed.

Lemma replace_nth_length : forall l n x, length (replace_nth l n x) = length l.
Proof. induction l as [| a r IH]; intros [| n] x; cbn; auto. Qed.
Lemma replace_nth_same : forall l n x, (n < length l)%nat -> nth_error (replace_nth l n x) n = Some x.
Proof.
  induction l as [| a r IH]; intros [| n] x H; cbn in *; try lia; [reflexivity |]. apply IH. lia.
Qed.
Lemma py_set_index : forall l i x l', py_set l i x = Ok l' -> py_index l' i = Ok x.
Proof.
  intros l i x l' H. unfold py_set in H. unfold py_index.
  set (n := zlength l) in *. set (j := if i <? 0 then i + n else i) in *.
  destruct ((j <? 0) || (n <=? j)) eqn:E; [discriminate |]. inversion H; subst; clear H.
  rewrite replace_nth_length. fold (zlength l). fold n. fold j. rewrite E.
  rewrite replace_nth_same; [reflexivity |]. unfold n, zlength in *. lia.
Qed.

Definition wf_val (v : val) : Prop := match v with VArr n l => n = zlength l | _ => True end.

Lemma repeat_elem_length : forall e n, length (repeat_elem e n) = n.
Proof. induction n; cbn; auto. Qed.
Lemma fix_length_length : forall proto l m, 0 <= m -> zlength (fix_length proto l m) = m.
Proof.
  intros proto l m Hm. unfold fix_length, zlength. destruct (m <? Z.of_nat (length l)) eqn:E.
  - rewrite firstn_length. lia.
  - rewrite app_length, repeat_elem_length. lia.
Qed.

Lemma py_set_length : forall l i x l', py_set l i x = Ok l' -> zlength l' = zlength l.
Proof.
  intros l i x l' H. unfold py_set in H. destruct (_ || _); [discriminate |]. inversion H.
  unfold zlength. rewrite replace_nth_length. reflexivity.
Qed.

(* ArrayOf.__setitem__ / list assignment *)
Lemma arr_set_ok : forall fixed proto cur i x v',
  arr_set fixed proto cur i x = Ok v' -> (i = 0 -> exists m, x = EAtom 2 m /\ 0 <= m) ->
  index v' i = Ok x /\ (wf_val cur -> wf_val v').
Proof.
  intros fixed proto cur i x v' H H0. destruct cur as [| e | l | n l | l]; cbn [arr_set] in H; try discriminate.
  - destruct (py_set l i x) as [l' |] eqn:E; [| discriminate]. inversion H; subst.
    split; [apply (py_set_index _ _ _ _ E) | intros _; exact I].
  - destruct ((i <? 0) || (n <? i)) eqn:Eg; [discriminate |].
    destruct (i =? 0) eqn:Ei.
    + apply Z.eqb_eq in Ei. subst i. destruct (H0 eq_refl) as (m & -> & Hm).
      assert (Hix : forall l', index (VArr m l') 0 = Ok (EAtom 2 m)).
      { intros l'. cbn [index]. rewrite (proj2 (Z.ltb_ge m 0) Hm). reflexivity. }
      destruct fixed as [f |].
      * destruct (m =? n) eqn:En; [| discriminate]. apply Z.eqb_eq in En. inversion H; subst.
        split; [apply Hix | intros Hwf; exact Hwf].
      * inversion H; subst. split; [apply Hix | intros _; symmetry; apply fix_length_length; exact Hm].
    + destruct (py_set l (i - 1) x) as [l' |] eqn:E; [| discriminate]. inversion H; subst. split.
      * cbn [index]. rewrite Eg, Ei. apply (py_set_index _ _ _ _ E).
      * cbn [wf_val]. rewrite (py_set_length _ _ _ _ E). intros Hwf; exact Hwf.
Qed.

Definition cast_shape (cv : val) : Prop := (exists e, cv = VS e) \/ (exists l, cv = VPyList l).

Lemma cast_out_shape : forall dt w cv, cast_out dt w = Ok cv -> cast_shape cv.
Proof.
  intros dt w cv H. unfold cast_shape. destruct dt as [s | s fx pr | s]; cbn [cast_out] in H.
  - destruct (cast_scalar s w); inversion H; eauto.
  - destruct (cast_many s fx w); inversion H; eauto.
  - destruct (cast_many s None w); inversion H; eauto.
Qed.
Lemma cast_for_shape : forall dt idx w cv, cast_for dt idx w = Ok cv -> cast_shape cv.
Proof.
  intros dt idx w cv H. unfold cast_for in H. destruct (wire_is_null w); [apply (cast_out_shape _ _ _ H) |].
  destruct dt as [s | s fx pr | s]; try (apply (cast_out_shape _ _ _ H)).
  destruct idx as [i |]; [| apply (cast_out_shape _ _ _ H)].
  unfold cast_shape. destruct (i =? 0); [destruct (cast_atom 2 w) | destruct (cast_scalar s w)]; inversion H; eauto.
Qed.

Lemma is_valid_unsigned : forall e, is_valid (SAtom 2 0 None) e = true -> exists m, e = EAtom 2 m /\ 0 <= m.
Proof.
  intros e H. destruct e as [k c | | |]; cbn in H; try discriminate.
  exists c. assert (k = 2) by lia. subst. split; [reflexivity | lia].
Qed.

Lemma validate_array_part : forall p i cv nv' s fixed proto,
  p_dt p = DArray s fixed proto -> validate p (Some i) cv = XOk nv' ->
  exists x, cv = VS x /\ nv' = VS x /\ (if i =? 0 then is_valid (SAtom 2 0 None) x else elem_ok s x) = true.
Proof.
  intros p i cv nv' s fixed proto Edt Ev. unfold validate in Ev. rewrite Edt in Ev.
  destruct (negb (p_mut p)); [discriminate |].
  destruct cv as [| x | | |]; try (destruct (i =? 0); discriminate).
  exists x. destruct (i =? 0).
  - destruct (is_valid (SAtom 2 0 None) x); [| discriminate]. inversion Ev. repeat split.
  - destruct (elem_ok s x); [| discriminate]. inversion Ev. repeat split.
Qed.

Lemma prop_write_some_inv : forall p cur i cv nv, prop_write p cur (Some i) cv = XOk nv ->
  exists s fixed proto x, p_dt p = DArray s fixed proto /\ cv = VS x /\
    (i = 0 -> exists m, x = EAtom 2 m /\ 0 <= m) /\ (i <> 0 -> elem_ok s x = true) /\
    arr_set fixed proto cur i x = Ok nv.
Proof.
  intros p cur i cv nv H. unfold prop_write in H.
  apply xbind_ok_inv in H as (nv' & Ev & H).
  destruct (p_dt p) as [s | s fixed proto | s] eqn:Edt; [discriminate | | discriminate].
  destruct (validate_array_part p i cv nv' s fixed proto Edt Ev) as (x & -> & -> & Hx).
  exists s, fixed, proto, x. do 2 (split; [reflexivity |]).
  split; [intros ->; apply is_valid_unsigned; exact Hx |].
  split; [intros Hi; rewrite (proj2 (Z.eqb_neq i 0) Hi) in Hx; exact Hx |].
  (* every exception of arry[arrayIndex] = value is translated into an exception *)
  destruct cur; [discriminate H | ..];
    (destruct (arr_set fixed proto _ i x) as [v' | er]; [inversion H; reflexivity | destruct er; discriminate H]).
Qed.

Lemma prop_write_none_inv : forall p cur cv nv, prop_write p cur None cv = XOk nv -> cast_shape cv ->
  (exists s e, p_dt p = DS s /\ cv = VS e /\ nv = VS e /\ elem_ok s e = true) \/
  (exists s fixed proto l, p_dt p = DArray s fixed proto /\ cv = VPyList l /\ nv = VArr (zlength l) l /\
     forallb (elem_ok s) l = true) \/
  (exists s l, p_dt p = DList s /\ cv = VPyList l /\ nv = VLst l /\ forallb (elem_ok s) l = true).
Proof.
  intros p cur cv nv H Hshape. unfold prop_write in H.
  apply xbind_ok_inv in H as (nv' & Ev & H). inversion H; subst nv'; clear H. unfold validate in Ev. destruct (negb (p_mut p)); [discriminate |].
  destruct (p_dt p) as [s | s fixed proto | s].
  - left. destruct Hshape as [[e ->] | [l ->]]; [| destruct s; discriminate].
    (* both scalar branches of validate test elem_ok *)
    assert (Hv : (if elem_ok s e then XOk (VS e) else reject_datatype) = XOk nv) by (rewrite <- Ev; destruct s; reflexivity).
    exists s, e. destruct (elem_ok s e); [| discriminate]. inversion Hv. repeat split.
  - right; left. destruct Hshape as [[e ->] | [l ->]]; [discriminate |].
    exists s, fixed, proto, l. destruct (forallb (elem_ok s) l); [| discriminate].
    destruct (check_fixed fixed l); [| discriminate]. inversion Ev. repeat split.
  - right; right. destruct Hshape as [[e ->] | [l ->]]; [discriminate |].
    exists s, l. destruct (forallb (elem_ok s) l); [| discriminate]. inversion Ev. repeat split.
Qed.

(* Property.WriteProperty followed by Property.ReadProperty + encoding *)
Lemma prop_write_read : forall p cur idx cv nv, cast_shape cv -> prop_write p cur idx cv = XOk nv ->
  exists r, prop_read p nv idx = XOk r /\ r <> VNone /\ to_any (p_dt p) idx r = raw_val cv.
Proof.
  intros p cur idx cv nv Hshape H.
  destruct idx as [i |].
  - destruct (prop_write_some_inv _ _ _ _ _ H) as (s & fixed & proto & x & Edt & -> & Hz & Hnz & Es).
    exists (VS x). unfold prop_read. rewrite Edt. cbn [is_array negb].
    pose proof (proj1 (arr_set_ok _ _ _ _ _ _ Es Hz)) as Hix.
    split; [destruct nv; [discriminate Hix | rewrite Hix; reflexivity ..] |].
    split; [discriminate |].
    cbn [to_any raw_val]. destruct (i =? 0) eqn:Ei.
    + apply Z.eqb_eq in Ei. destruct (Hz Ei) as (m & -> & _). reflexivity.
    + apply Z.eqb_neq in Ei. apply enc_elem_ok. exact (Hnz Ei).
  - exists nv. split; [reflexivity |].
    destruct (prop_write_none_inv _ _ _ _ H Hshape)
      as [(s & e & -> & -> & -> & Hok) | [(s & fixed & proto & l & -> & -> & -> & Hok) | (s & l & -> & -> & -> & Hok)]];
      (split; [discriminate |]); cbn [to_any raw_val].
    + apply enc_elem_ok; exact Hok.
    + apply enc_elems_ok; exact Hok.
    + apply enc_elems_ok; exact Hok.
Qed.

Lemma write_obj_read : forall o pid idx w o', write_obj o pid idx w = XOk o' ->
  exists p cur cv, find_prop o pid = Some (p, cur) /\ cast_for (p_dt p) idx w = Ok cv /\
                   read_any o' pid idx = lift (raw_val cv).
Proof.
  intros o pid idx w o' H. destruct (write_obj_inv _ _ _ _ _ H) as (p & cur & r & cv & nv & Hp & _ & _ & Hc & Hw & ->).
  exists p, cur, cv. do 2 (split; [assumption |]).
  destruct (prop_write_read _ _ _ _ _ (cast_for_shape _ _ _ _ Hc) Hw) as (r' & Hr & Hn & Ht).
  rewrite read_any_eq, (find_prop_set_same _ _ _ _ nv Hp), Hr. cbn [xbind]. rewrite (is_none_false r' Hn), Ht. reflexivity.
Qed.

Theorem write_then_read : forall d oid pid idx w d',
  oid <> WILDCARD_DEVICE -> do_write d oid pid idx w = XOk d' ->
  exists o p cur cv,
    find_obj (d_objs d) oid = Some o /\ find_prop o pid = Some (p, cur) /\
    cast_for (p_dt p) idx w = Ok cv /\
    do_read d' oid pid idx = xbind (lift (raw_val cv)) (fun its => XOk (oid, its)).
Proof.
  intros d oid pid idx w d' Hw H. destruct (do_write_inv _ _ _ _ _ _ H) as (o & o' & Eo & Ew & ->).
  destruct (write_obj_read _ _ _ _ _ Ew) as (p & cur & cv & Hp & Hc & Hr).
  exists o, p, cur, cv. do 3 (split; [assumption |]).
  unfold do_read, map_oid. cbn [d_self d_objs]. rewrite (proj2 (Z.eqb_neq _ _) Hw).
  rewrite (find_obj_set_same _ _ _ o' Eo), Hr.
  destruct (raw_val cv) as [its | e]; reflexivity.
Qed.

Corollary write_then_read_atom : forall d oid pid w d' o p cur k lo hi c,
  oid <> WILDCARD_DEVICE -> do_write d oid pid None w = XOk d' ->
  find_obj (d_objs d) oid = Some o -> find_prop o pid = Some (p, cur) ->
  p_dt p = DS (SAtom k lo hi) -> w_tags w = [WApp k c] -> k <> 0 ->
  step d' (ORead oid pid None) = (RValue oid pid None [IA k c], d').
Proof.
  intros d oid pid w d' o p cur k lo hi c Hw H Ho Hp Hd Ht Hk.
  destruct (write_then_read _ _ _ _ _ _ Hw H) as [o2 [p2 [cur2 [cv [Ho2 [Hp2 [Hc Hr]]]]]]].
  rewrite Ho in Ho2. inversion Ho2; subst o2. rewrite Hp in Hp2. inversion Hp2; subst p2 cur2.
  cbn [step]. rewrite Hr. unfold cast_for in Hc.
  rewrite (wire_is_null_app w k c Ht), (proj2 (Z.eqb_neq k 0) Hk), Hd in Hc. cbn [cast_out cast_scalar] in Hc.
  rewrite (cast_atom_app w k k c Ht), Z.eqb_refl in Hc. inversion Hc; subst cv. reflexivity.
Qed.

Theorem array_index : forall o pid p n l s fixed proto,
  find_prop o pid = Some (p, VArr n l) -> p_dt p = DArray s fixed proto -> n = zlength l ->
  read_any o pid (Some 0) = XOk [IA 2 n] /\
  (forall i, 1 <= i <= n -> exists e, nth_error l (Z.to_nat (i - 1)) = Some e /\
                                      read_any o pid (Some i) = lift (enc_elem s e)) /\
  (forall i, i < 0 \/ n < i -> read_any o pid (Some i) = XErr (ExecErr EC_PROPERTY E_INVALID_ARRAY_INDEX)).
Proof.
  intros o pid p n l s fixed proto Hp Hd Hn. unfold zlength in Hn.
  (* the answer is a function of index (VArr n l) i; then the three ranges of i are the three branches of index *)
  assert (Hr : forall i, read_any o pid (Some i) =
                 match index (VArr n l) i with
                 | Ok e => lift (if i =? 0 then enc_elem (SAtom 2 0 None) e else enc_elem s e)
                 | Err IndexErr => XErr (ExecErr EC_PROPERTY E_INVALID_ARRAY_INDEX)
                 | Err x => XErr (Py x)
                 end).
  { intros i. rewrite read_any_eq, Hp. unfold prop_read. rewrite Hd. cbn [is_array negb].
    destruct (index (VArr n l) i) as [e | []]; reflexivity. }
  repeat split.
  - rewrite Hr. cbn [index]. replace ((0 <? 0) || (n <? 0)) with false by lia. reflexivity.
  - intros i Hi. rewrite Hr. cbn [index]. unfold py_index.
    replace ((i <? 0) || (n <? i)) with false by lia. replace (i =? 0) with false by lia.
    replace (i - 1 <? 0) with false by lia. replace ((i - 1 <? 0) || (Z.of_nat (length l) <=? i - 1)) with false by lia.
    destruct (nth_error l (Z.to_nat (i - 1))) as [e |] eqn:En; [exists e; split; reflexivity |].
    apply nth_error_None in En. lia.
  - intros i Hi. rewrite Hr, index_out_of_range by exact Hi. reflexivity.
Qed.

Lemma prop_write_wf : forall p cur idx cv nv, cast_shape cv -> wf_val cur -> prop_write p cur idx cv = XOk nv -> wf_val nv.
Proof.
  intros p cur idx cv nv Hshape Hwf H.
  destruct idx as [i |].
  - destruct (prop_write_some_inv _ _ _ _ _ H) as (s & fixed & proto & x & _ & _ & Hz & _ & Es).
    exact (proj2 (arr_set_ok _ _ _ _ _ _ Es Hz) Hwf).
  - destruct (prop_write_none_inv _ _ _ _ H Hshape)
      as [(s & e & _ & _ & -> & _) | [(s & fixed & proto & l & _ & _ & -> & _) | (s & l & _ & _ & -> & _)]];
      [exact I | reflexivity | exact I].
Qed.

(* ArrayOf.append and index + __delitem__, what Application.add_object / delete_object do to the objectList *)
Definition elems (v : val) : list elem :=
  match v with VArr _ l => l | VPyList l => l | VLst l => l | _ => [] end.

Lemma arr_append_wf : forall v x v', arr_append v x = Ok v' -> wf_val v' /\ elems v' = elems v ++ [x].
Proof.
  intros v x v' H. destruct v as [| e | l | n l | l]; cbn [arr_append] in H; try discriminate; inversion H; subst; cbn.
  - split; [exact I | reflexivity].
  - split; [| reflexivity]. unfold zlength. rewrite app_length. cbn. lia.
Qed.

Lemma find_idx_lt : forall x l f i, find_idx x l f = Ok i -> (i < length l)%nat.
Proof.
  intros x l. induction l as [| y r IH]; intros f i H; destruct f as [| f]; cbn [find_idx] in H; try discriminate.
  destruct (elem_eqb x y).
  - inversion H; cbn; lia.
  - destruct (find_idx x r f) as [j |] eqn:E; cbn [bind] in H; [| discriminate]. inversion H; subst. cbn. apply IH in E. lia.
Qed.
Lemma remove_nth_length : forall l i, (i < length l)%nat -> S (length (remove_nth l i)) = length l.
Proof.
  induction l as [| a r IH]; intros [| i] H; cbn in *; try lia. rewrite IH; lia.
Qed.

Lemma arr_remove_wf : forall v x v', wf_val v -> arr_remove v x = Ok v' ->
  wf_val v' /\ S (length (elems v')) = length (elems v).
Proof.
  intros v x v' Hwf H. destruct v as [| e | l | n l | l]; cbn [arr_remove] in H; try discriminate.
  destruct (find_idx x l (Z.to_nat n)) as [i |] eqn:E; cbn [bind] in H; [| discriminate]. inversion H; subst.
  apply find_idx_lt in E. pose proof (remove_nth_length l i E) as HL. cbn [wf_val elems] in *.
  split; [unfold zlength in *; lia | exact HL].
Qed.
