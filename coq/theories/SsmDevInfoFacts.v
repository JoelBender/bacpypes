(* SsmDevInfoFacts.v — facts about the DeviceInfoCache model (SsmDevInfo.v) used by props/C12.v *)
From Bac Require Import Base PyRt SsmDevInfo.
Open Scope Z_scope.

(* an Application constructed with a cache uses that very cache, whatever it holds (the empty cache included) *)
Lemma app_cache_supplied : forall {A} (c fresh : A), app_cache (Some c) fresh = c.
Proof. reflexivity. Qed.
Lemma app_cache_default : forall {A} (fresh : A), app_cache None fresh = fresh.
Proof. reflexivity. Qed.

Lemma key_eqb_refl : forall k, key_eqb k k = true.
Proof. intros [b z]. unfold key_eqb. cbn. rewrite Bool.eqb_reflx, Z.eqb_refl. reflexivity. Qed.

Lemma nth_heap_set : forall l i r x, nth_error l i = Some r -> nth_error (heap_set i x l) i = Some x.
Proof.
  induction l as [|y l IH]; intros [|i] r x H; cbn in *; try discriminate; [reflexivity | eapply IH; exact H].
Qed.

(* a further I-Am of a device already recorded under that instance and that address (the periodic / changed announcement):
   the keys stay, the record takes the NEW limits, so the next acquire sizes by them *)
Lemma repeated_iam_updates : forall c inst addr ma seg i r n,
  dict_get (true, inst) (dc_dict c) = Some i -> nth_error (dc_heap c) i = Some r ->
  r_keys r = Some (inst, addr) -> r_ref r = Some n ->
  exists c', iam_device_info inst addr ma seg c = (c', None) /\ dc_dict c' = dc_dict c /\
             nth_error (dc_heap c') i = Some (mkDrec inst addr ma seg (Some n) (Some (inst, addr))).
Proof.
  intros c inst addr ma seg i r n Hd Hn Hk Hr.
  unfold iam_device_info. rewrite Hd, Hn.
  unfold update_device_info. cbn [dc_heap dc_dict].
  rewrite (nth_heap_set _ _ _ _ Hn). cbn [r_ref r_keys r_inst r_addr]. rewrite Hr, Hk.
  cbn -[Z.eqb heap_set nth_error]. rewrite !Z.eqb_refl. cbn -[heap_set nth_error].
  eexists. split; [reflexivity|]. cbn [dc_dict dc_heap]. split; [reflexivity|].
  erewrite nth_heap_set; [reflexivity|]. erewrite nth_heap_set; [reflexivity|]. erewrite nth_heap_set; [reflexivity | exact Hn].
Qed.
