(* ScheduleTzDays.v — the calendar behind ScheduleTzFacts: the closed forms days_from_civil / civil_from_days of
   ScheduleTz.v are inverse to each other on the calendar dates of ALL years, and consecutive day numbers are
   consecutive dates; for the day numbers of 1900-01-01 .. 2154-12-31 (day_lo .. day_hi) the date is a valid
   BACnet date.  By arithmetic: the closed forms are taken apart into era, year of the era and day of the year,
   and each floor division is bounded by lia. *)
From Bac Require Import Base PyRt Calendar CalendarFacts ScheduleTz.
Open Scope Z_scope.

Definition day_lo : Z := -25567.      (* 1900-01-01 *)
Definition day_hi : Z := 67569.       (* 2154-12-31 *)
Definition day_in_range (z : Z) : Prop := day_lo <= z <= day_hi.

(* The closed forms count in eras of 400 years = 146097 days and begin the year on 1 March, so that the leap
   day comes last: year yoe of the era begins on day year_start yoe of the era, month mp of the year
   (0 = March .. 11 = February) on day mstart mp of the year. *)
Definition year_start (yoe : Z) : Z := 365 * yoe + yoe / 4 - yoe / 100.
Definition yoe_of (doe : Z) : Z := (doe - doe / 1460 + doe / 36524 - doe / 146096) / 365.
Definition mstart (mp : Z) : Z := (153 * mp + 2) / 5.
Definition month_of (mp : Z) : Z := if mp <? 10 then mp + 3 else mp - 9.

(* day 365 of a year exists only when the year that begins the following January is a leap year *)
Definition era_day (yoe doy : Z) : Prop :=
  0 <= yoe <= 399 /\ 0 <= doy <= 365 /\ (doy = 365 -> leap_yearb (yoe + 1) = true).

Lemma yoe_of_era_day : forall doe, 0 <= doe <= 146096 -> era_day (yoe_of doe) (doe - year_start (yoe_of doe)).
Proof.
  intros doe H. unfold era_day. rewrite leap_yearb_spec. unfold leap_year, year_start, yoe_of.
  Z.div_mod_to_equations. lia.
Qed.

Lemma yoe_of_year_start : forall yoe doy, era_day yoe doy ->
  0 <= year_start yoe + doy <= 146096 /\ yoe_of (year_start yoe + doy) = yoe.
Proof.
  intros yoe doy. unfold era_day. rewrite leap_yearb_spec. unfold leap_year, year_start, yoe_of.
  Z.div_mod_to_equations. lia.
Qed.

Lemma month_of_doy : forall doy, 0 <= doy <= 365 ->
  let mp := (5 * doy + 2) / 153 in 0 <= mp <= 11 /\ mstart mp <= doy /\ (mp < 11 -> doy < mstart (mp + 1)).
Proof. intros doy H. unfold mstart. Z.div_mod_to_equations. lia. Qed.

Lemma month_of_doy_mstart : forall mp d, 0 <= mp <= 11 -> 1 <= d -> mstart mp + d - 1 < mstart (mp + 1) ->
  (5 * (mstart mp + d - 1) + 2) / 153 = mp.
Proof. intros mp d H1 H2. unfold mstart. Z.div_mod_to_equations. lia. Qed.

Lemma month_of_spec : forall mp, 0 <= mp <= 11 ->
  1 <= month_of mp <= 12 /\ (month_of mp + 9) mod 12 = mp /\ (month_of mp <=? 2) = (10 <=? mp).
Proof. intros mp H. unfold month_of. destruct (mp <? 10) eqn:E; Z.div_mod_to_equations; lia. Qed.

Lemma month_of_length : forall y mp, 0 <= mp <= 11 ->
  days_in_month y (month_of mp) =
    if mp =? 11 then (if leap_yearb y then 29 else 28) else mstart (mp + 1) - mstart mp.
Proof.
  intros y mp H. unfold days_in_month, month_table. set (L := leap_yearb y).
  assert (C : mp = 0 \/ mp = 1 \/ mp = 2 \/ mp = 3 \/ mp = 4 \/ mp = 5 \/ mp = 6 \/ mp = 7 \/ mp = 8 \/ mp = 9
              \/ mp = 10 \/ mp = 11) by lia.
  repeat (destruct C as [C | C]; [subst mp; reflexivity |]).
  subst mp; reflexivity.
Qed.

Definition civil_of (era yoe doy : Z) : Z * Z * Z :=
  let mp := (5 * doy + 2) / 153 in
  (if month_of mp <=? 2 then yoe + era * 400 + 1 else yoe + era * 400, month_of mp, doy - mstart mp + 1).

Lemma civil_from_days_eq : forall z,
  let era := (z + 719468) / 146097 in let doe := z + 719468 - era * 146097 in
  civil_from_days z = civil_of era (yoe_of doe) (doe - year_start (yoe_of doe)).
Proof. intro z. unfold civil_from_days, civil_of, yoe_of, year_start, mstart, month_of. reflexivity. Qed.

Lemma days_from_civil_eq : forall era yoe mp d, 0 <= yoe <= 399 -> 0 <= mp <= 11 ->
  days_from_civil (if month_of mp <=? 2 then yoe + era * 400 + 1 else yoe + era * 400) (month_of mp) d =
  era * 146097 + (year_start yoe + (mstart mp + d - 1)) - 719468.
Proof.
  intros era yoe mp d Hy Hm. destruct (month_of_spec mp Hm) as (_ & Hmp & Hjf).
  unfold days_from_civil. rewrite Hmp, Hjf.
  replace (if 10 <=? mp then yoe + era * 400 + 1 - 1 else yoe + era * 400) with (yoe + era * 400)
    by (destruct (10 <=? mp); lia).
  replace ((yoe + era * 400) / 400) with era by (Z.div_mod_to_equations; lia).
  unfold year_start, mstart. replace (yoe + era * 400 - era * 400) with yoe by ring. destruct (10 <=? mp); Z.div_mod_to_equations; lia.
Qed.

Definition days_of (era yoe doy : Z) : Z := era * 146097 + (year_start yoe + doy) - 719468.

Lemma civil_from_days_days_of : forall era yoe doy, era_day yoe doy ->
  civil_from_days (days_of era yoe doy) = civil_of era yoe doy.
Proof.
  intros era yoe doy H. destruct (yoe_of_year_start yoe doy H) as [Hdoe Hyoe]. rewrite civil_from_days_eq. unfold days_of.
  replace ((era * 146097 + (year_start yoe + doy) - 719468 + 719468) / 146097) with era
    by (Z.div_mod_to_equations; lia).
  replace (era * 146097 + (year_start yoe + doy) - 719468 + 719468 - era * 146097) with (year_start yoe + doy)
    by ring.
  rewrite Hyoe. f_equal. ring.
Qed.

Lemma day_in_era : forall z, exists era yoe doy,
  era_day yoe doy /\ z = days_of era yoe doy /\ civil_from_days z = civil_of era yoe doy.
Proof.
  intro z. rewrite civil_from_days_eq. cbv zeta.
  set (era := (z + 719468) / 146097). set (doe := z + 719468 - era * 146097).
  exists era, (yoe_of doe), (doe - year_start (yoe_of doe)).
  split; [apply yoe_of_era_day; subst doe era; Z.div_mod_to_equations; lia|].
  split; [unfold days_of; lia | reflexivity].
Qed.

Lemma leap_period : forall y era, leap_yearb (y + era * 400) = leap_yearb y.
Proof.
  intros y era. unfold leap_yearb.
  replace ((y + era * 400) mod 4) with (y mod 4)
    by (replace (era * 400) with (era * 100 * 4) by ring; symmetry; apply Z_mod_plus_full).
  replace ((y + era * 400) mod 100) with (y mod 100)
    by (replace (era * 400) with (era * 4 * 100) by ring; symmetry; apply Z_mod_plus_full).
  rewrite Z_mod_plus_full. reflexivity.
Qed.

Lemma civil_of_date : forall era yoe doy, era_day yoe doy ->
  let '(y, m, d) := civil_of era yoe doy in
  1 <= m <= 12 /\ 1 <= d <= days_in_month y m /\ days_from_civil y m d = days_of era yoe doy.
Proof.
  intros era yoe doy (Hy & Hd & Hl). unfold civil_of. cbv zeta.
  destruct (month_of_doy doy Hd) as (Hmp & Hlo & Hhi). set (mp := (5 * doy + 2) / 153) in *.
  rewrite (days_from_civil_eq era yoe mp _ Hy Hmp).
  set (y := if month_of mp <=? 2 then _ else _).
  destruct (month_of_spec mp Hmp) as (Hm & _ & Hjf). pose proof (month_of_length y mp Hmp) as Hlen.
  split; [exact Hm|]. split; [|unfold days_of; f_equal; lia].
  rewrite Hlen. destruct (mp =? 11) eqn:E; [|lia].
  assert (mp = 11) by lia. subst y. rewrite Hjf.
  replace (10 <=? mp) with true by lia.
  replace (yoe + era * 400 + 1) with (yoe + 1 + era * 400) by ring. rewrite leap_period.
  unfold mstart in *. destruct (leap_yearb (yoe + 1)); Z.div_mod_to_equations; lia.
Qed.

(* the other way round: with y' the year counted from 1 March, the date lies in era y' / 400, year y' mod 400 *)
Lemma date_in_era : forall y m d, 1 <= m <= 12 -> 1 <= d <= days_in_month y m ->
  exists era yoe doy, era_day yoe doy /\ civil_of era yoe doy = (y, m, d).
Proof.
  intros y m d Hm Hd.
  set (y' := if m <=? 2 then y - 1 else y). set (mp := (m + 9) mod 12).
  assert (Hmp : 0 <= mp <= 11) by (subst mp; Z.div_mod_to_equations; lia).
  assert (Em : month_of mp = m) by (unfold month_of; destruct (mp <? 10) eqn:E; subst mp; Z.div_mod_to_equations; lia).
  exists (y' / 400), (y' mod 400), (mstart mp + d - 1).
  destruct (month_of_spec mp Hmp) as (_ & _ & Hjf). pose proof (month_of_length y mp Hmp) as Hlen. rewrite Em in *.
  assert (Ey : (if m <=? 2 then y' mod 400 + y' / 400 * 400 + 1 else y' mod 400 + y' / 400 * 400) = y)
    by (subst y'; destruct (m <=? 2); Z.div_mod_to_equations; lia).
  assert (Hdoy : 1 <= d /\ mstart mp + d - 1 < mstart (mp + 1) /\ 0 <= mstart mp + d - 1 <= 365 /\
                 (mstart mp + d - 1 = 365 -> leap_yearb (y' mod 400 + 1) = true)).
  { rewrite Hlen in Hd. destruct (mp =? 11) eqn:E.
    - assert (mp = 11) by lia. replace (10 <=? mp) with true in Hjf by lia. rewrite Hjf in Ey.
      rewrite <- (leap_period _ (y' / 400)). replace (y' mod 400 + 1 + y' / 400 * 400) with y by lia.
      unfold mstart. subst mp. destruct (leap_yearb y); Z.div_mod_to_equations; lia.
    - unfold mstart in *. Z.div_mod_to_equations; lia. }
  destruct Hdoy as (H1 & H2 & H3 & H4).
  split; [unfold era_day; repeat split; try tauto; Z.div_mod_to_equations; lia|].
  unfold civil_of. cbv zeta. rewrite (month_of_doy_mstart mp d Hmp H1 H2), Em, Ey. f_equal. ring.
Qed.

Theorem civil_from_days_date : forall z,
  let '(y, m, d) := civil_from_days z in
  1 <= m <= 12 /\ 1 <= d <= days_in_month y m /\ days_from_civil y m d = z.
Proof.
  intro z. destruct (day_in_era z) as (era & yoe & doy & H & Ez & ->). rewrite Ez.
  exact (civil_of_date era yoe doy H).
Qed.

Theorem civil_from_days_from_civil : forall y m d, 1 <= m <= 12 -> 1 <= d <= days_in_month y m ->
  civil_from_days (days_from_civil y m d) = (y, m, d).
Proof.
  intros y m d Hm Hd. destruct (date_in_era y m d Hm Hd) as (era & yoe & doy & H & E).
  pose proof (civil_of_date era yoe doy H) as D. rewrite E in D. destruct D as (_ & _ & ->).
  rewrite civil_from_days_days_of by exact H. exact E.
Qed.

Definition next_civil (y m d : Z) : Z * Z * Z :=
  if d <? days_in_month y m then (y, m, d + 1) else if m <? 12 then (y, m + 1, 1) else (y + 1, 1, 1).

Lemma next_civil_date : forall y m d, 1 <= m <= 12 -> 1 <= d <= days_in_month y m ->
  let '(y2, m2, d2) := next_civil y m d in
  1 <= m2 <= 12 /\ 1 <= d2 <= days_in_month y2 m2 /\ days_from_civil y2 m2 d2 = days_from_civil y m d + 1.
Proof.
  intros y m d Hm Hd. unfold next_civil.
  destruct (d <? days_in_month y m) eqn:E; [split; [lia|]; split; [lia|]; unfold days_from_civil; lia|].
  assert (d = days_in_month y m) by lia. subst d. clear E Hd.
  pose proof (leap_yearb_spec y) as L. unfold leap_year in L.
  rewrite <- (last_day_table y m Hm). unfold last_day. rewrite is_leap_eq.
  assert (C : m = 1 \/ m = 2 \/ m = 3 \/ m = 4 \/ m = 5 \/ m = 6 \/ m = 7 \/ m = 8 \/ m = 9 \/ m = 10 \/ m = 11 \/ m = 12)
    by lia.
  unfold days_from_civil.
  assert (B : forall y k, 1 <= k <= 12 -> 1 <= 1 <= days_in_month y k)
    by (intros y0 k Hk; pose proof (days_in_month_bounds y0 k Hk); lia).
  (* only the step out of February leaves the closed form's year, which begins on 1 March: there lia has to
     be told the length of February and whether the era ends with it *)
  assert (Y : (y - 1) mod 400 = 399 \/ (y - 1) mod 400 < 399) by (Z.div_mod_to_equations; lia).
  repeat (destruct C as [C | C]; [subst m; simpl; split; [lia|]; split; [apply B; lia|];
    first [Z.div_mod_to_equations; lia | destruct (leap_yearb y), Y; Z.div_mod_to_equations; lia] |]).
  subst m. simpl. split; [lia|]. split; [apply B; lia|]. Z.div_mod_to_equations; lia.
Qed.

Lemma year_bounds : forall y m d, 1 <= m <= 12 -> 1 <= d <= 31 ->
  day_in_range (days_from_civil y m d) -> 1900 <= y <= 2154.
Proof.
  intros y m d Hm Hd. unfold day_in_range, day_lo, day_hi, days_from_civil.
  set (y' := if m <=? 2 then y - 1 else y).
  assert (Hy' : (m <= 2 /\ y' = y - 1) \/ (2 < m /\ y' = y)) by (subst y'; destruct (m <=? 2) eqn:E; lia).
  clearbody y'. intro Hz.
  (* the range lies in the eras 4 and 5; lia needs the split to see the exact ends *)
  assert (Ce : y' / 400 <= 3 \/ y' / 400 = 4 \/ y' / 400 = 5 \/ 6 <= y' / 400) by lia.
  destruct Ce as [Ce | [Ce | [Ce | Ce]]]; Z.div_mod_to_equations; lia.
Qed.

Lemma date_of_days_valid : forall z, day_in_range z -> valid_date (date_of_days z).
Proof.
  intros z Hz. pose proof (civil_from_days_date z) as H. unfold date_of_days, dow_of_days.
  destruct (civil_from_days z) as [[y m] d]. destruct H as (Hm & Hd & E).
  pose proof (days_in_month_bounds y m Hm) as Hb.
  unfold valid_date. replace (y - 1900 + 1900) with y by ring.
  rewrite <- E in Hz. pose proof (year_bounds y m d Hm ltac:(lia) Hz).
  repeat split; try tauto; try lia; Z.div_mod_to_equations; lia.
Qed.

Lemma date_of_days_next : forall z, date_of_days (z + 1) = next_date (date_of_days z).
Proof.
  intro z. pose proof (civil_from_days_date z) as H. unfold date_of_days.
  destruct (civil_from_days z) as [[y m] d]. destruct H as (Hm & Hd & E).
  pose proof (next_civil_date y m d Hm Hd) as N. unfold next_date.
  replace (y - 1900 + 1900) with y by ring. rewrite (last_day_table y m Hm). unfold next_civil in N.
  assert (W : dow_of_days (z + 1) = dow_of_days z mod 7 + 1) by (unfold dow_of_days; Z.div_mod_to_equations; lia).
  destruct (d <? days_in_month y m); [|destruct (m <? 12)]; destruct N as (Hm2 & Hd2 & E2);
    rewrite E in E2; rewrite W, <- E2, civil_from_days_from_civil by assumption;
    try reflexivity; replace (y + 1 - 1900) with (y - 1900 + 1) by ring; reflexivity.
Qed.

Lemma date_of_days_add : forall k z, date_of_days (z + Z.of_nat k) = nth_date k (date_of_days z).
Proof.
  induction k as [|k IH]; intro z; [now rewrite Z.add_0_r|].
  cbn [nth_date]. rewrite <- date_of_days_next, <- IH. f_equal. lia.
Qed.
