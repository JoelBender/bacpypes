(* NpciGenFacts.v — the methods of npdu.py as TRANSLATED from the working tree (coq/gen/NpciFns.v,
   translator/gen_npcifns.py) are, for all inputs, the hand model Npci.v.
   The scripts never mention a generated variable name: code and model are walked in step, one write (emit)
   or one read (view_read) at a time, with `put` kept opaque.  A loop is related to the structural recursion
   of the model by a lemma that takes the loop body as an arbitrary function with a pointwise specification,
   discharged by `reflexivity` on the generated text. *)
From Bac Require Import Base BytesFacts Npci NpciRt NpciFacts NpciMsgFacts.
From BacGen Require Import NpciFns.
Open Scope N_scope.

Definition rmap {A B} (f : A -> B) (r : res A) : res B :=
  match r with Ok a => Ok (f a) | Err e => Err e end.
(* a PDU / NPDU right after its constructor, holding the octets bs *)
Definition buf (bs : list N) : pyobj := mkObj bs false 0 1 None None None None None None.
Definition app_data (b : list N) (p : pyobj) : pyobj := set_pduData (pduData p ++ b) p.
Definition out {O} (r : res (O * pyobj)) : res (list N) := rmap (fun x => pduData (snd x)) r.
Definition view {O} (f : O -> msg) (r : res (O * pyobj)) : res (msg * list N) :=
  rmap (fun x => (f (fst x), pduData (snd x))) r.

Definition msg_of_whois o := WhoIsRouter (wirtnNetwork o).
Definition msg_of_iam o := IAmRouter (iartnNetworkList o).
Definition msg_of_icb o := ICouldBeRouter (icbrtnNetwork o) (icbrtnPerformanceIndex o).
Definition msg_of_rej o := RejectMessage (rmtnRejectionReason o) (rmtnDNET o).
Definition msg_of_busy o := RouterBusy (rbtnNetworkList o).
Definition msg_of_avail o := RouterAvailable (ratnNetworkList o).
Definition msg_of_irt o := InitRT (irtTable o).
Definition msg_of_irta o := InitRTAck (irtaTable o).
Definition msg_of_est o := EstablishConn (ectnDNET o) (ectnTerminationTime o).
Definition msg_of_disc o := DisconnectConn (dctnDNET o).
Definition msg_of_what (o : obj_WhatIsNetworkNumber) := WhatIsNetNum.
Definition msg_of_nni o := NetNumIs (nniNet o) (nniFlag o).

Definition npci_of (o : pyobj) : npci :=
  mkNpci (npduVersion o) (pduExpectingReply o) (pduNetworkPriority o) (npduDADR o) (npduSADR o)
         (npduHopCount o) (npduNetMessage o) (npduVendorID o).
Definition obj_of_npci (h : npci) (data : list N) : pyobj :=
  mkObj data (er h) (prio h) (ver h) None (dadr h) (sadr h) (hop h) (nmsg h) (vendor h).
(* the object after a successful NPCI.decode: a field the frame does not carry keeps its old value *)
Definition keep {A} (new old : option A) : option A := match new with Some _ => new | None => old end.
Definition obj_after (o : pyobj) (c : N) (h : npci) : pyobj :=
  mkObj (pduData o) (er h) (prio h) (ver h) (Some c) (keep (dadr h) (npduDADR o)) (keep (sadr h) (npduSADR o))
        (keep (hop h) (npduHopCount o)) (nmsg h) (keep (vendor h) (npduVendorID o)).

Lemma address_codes n m :
  addrType (RStation n m) = Address_remoteStationAddr /\ addrType (RBroadcast n) = Address_remoteBroadcastAddr
  /\ addrType GBroadcast = Address_globalBroadcastAddr.
Proof. repeat split; reflexivity. Qed.

Lemma message_type_constants :
  [WhoIsRouterToNetwork_messageType; IAmRouterToNetwork_messageType; ICouldBeRouterToNetwork_messageType;
   RejectMessageToNetwork_messageType; RouterBusyToNetwork_messageType; RouterAvailableToNetwork_messageType;
   InitializeRoutingTable_messageType; InitializeRoutingTableAck_messageType; EstablishConnectionToNetwork_messageType;
   DisconnectConnectionToNetwork_messageType; WhatIsNetworkNumber_messageType; NetworkNumberIs_messageType]
  = map msg_type msg_witnesses.
Proof. reflexivity. Qed.

Lemma app_data_app a b p : app_data b (app_data a p) = app_data (a ++ b) p.
Proof. destruct p; unfold app_data; cbn. rewrite app_assoc. reflexivity. Qed.
Lemma app_data_nil p : app_data [] p = p.
Proof. destruct p; unfold app_data; cbn. rewrite app_nil_r. reflexivity. Qed.

(* py_put n, py_put_short n and py_put_data d are (by computation) `emit r` for r = put n, Ok (put_short n), Ok d *)
Definition emit (r : res (list N)) (p : pyobj) : res pyobj := do b <- r; Ok (app_data b p).

Lemma emit_twice {O} (o : O) r1 r2 blk1 (blk2 : pyobj -> res pyobj) p :
  blk1 = emit r1 p -> (forall q, blk2 q = emit r2 q) ->
  (do q <- blk1; do q' <- blk2 q; Ok (o, q')) = do b <- (do a <- r1; do b <- r2; Ok (a ++ b)); Ok (o, app_data b p).
Proof.
  intros -> H. destruct r1 as [a|]; [|reflexivity]. cbn [emit bind]. rewrite H.
  destruct r2 as [b|]; [|reflexivity]. cbn [emit bind]. rewrite app_data_app. reflexivity.
Qed.

Lemma WhoIsRouterToNetwork_encode_is_model o p :
  WhoIsRouterToNetwork_encode o p = do b <- enc_msg (msg_of_whois o); Ok (o, app_data b p).
Proof. destruct o as [[n|]]; cbn; [reflexivity|]. rewrite app_data_nil. reflexivity. Qed.

Lemma ICouldBeRouterToNetwork_encode_is_model o p :
  ICouldBeRouterToNetwork_encode o p = do b <- enc_msg (msg_of_icb o); Ok (o, app_data b p).
Proof. apply (emit_twice o (Ok (put_short (icbrtnNetwork o))) (put (icbrtnPerformanceIndex o))); reflexivity. Qed.

Lemma RejectMessageToNetwork_encode_is_model o p :
  RejectMessageToNetwork_encode o p = do b <- enc_msg (msg_of_rej o); Ok (o, app_data b p).
Proof. apply (emit_twice o (put (rmtnRejectionReason o)) (Ok (put_short (rmtnDNET o)))); reflexivity. Qed.

Lemma EstablishConnectionToNetwork_encode_is_model o p :
  EstablishConnectionToNetwork_encode o p = do b <- enc_msg (msg_of_est o); Ok (o, app_data b p).
Proof. apply (emit_twice o (Ok (put_short (ectnDNET o))) (put (ectnTerminationTime o))); reflexivity. Qed.

Lemma DisconnectConnectionToNetwork_encode_is_model o p :
  DisconnectConnectionToNetwork_encode o p = do b <- enc_msg (msg_of_disc o); Ok (o, app_data b p).
Proof. reflexivity. Qed.

Lemma WhatIsNetworkNumber_encode_is_model o p :
  WhatIsNetworkNumber_encode o p = do b <- enc_msg (msg_of_what o); Ok (o, app_data b p).
Proof. cbn. rewrite app_data_nil. reflexivity. Qed.

Lemma NetworkNumberIs_encode_is_model o p :
  NetworkNumberIs_encode o p = do b <- enc_msg (msg_of_nni o); Ok (o, app_data b p).
Proof. apply (emit_twice o (Ok (put_short (nniNet o))) (put (nniFlag o))); reflexivity. Qed.

(* `for net in <list>: npdu.put_short(net)` *)
Lemma fold_put_nets (f : pyobj -> N -> res pyobj) l p :
  (forall q x, f q x = py_put_short x q) ->
  fold_res f l p = Ok (app_data (put_nets l) p).
Proof.
  intros Hf. revert p. induction l as [|x r IH]; intros p; cbn [fold_res put_nets flat_map].
  - rewrite app_data_nil. reflexivity.
  - rewrite Hf. unfold py_put_short. cbn [bind]. rewrite IH. fold (app_data (put_short x) p).
    rewrite app_data_app. reflexivity.
Qed.

Lemma IAmRouterToNetwork_encode_is_model o p :
  IAmRouterToNetwork_encode o p = do b <- enc_msg (msg_of_iam o); Ok (o, app_data b p).
Proof.
  unfold IAmRouterToNetwork_encode. rewrite fold_put_nets by (intros; reflexivity). reflexivity.
Qed.
Lemma RouterBusyToNetwork_encode_is_model o p :
  RouterBusyToNetwork_encode o p = do b <- enc_msg (msg_of_busy o); Ok (o, app_data b p).
Proof.
  unfold RouterBusyToNetwork_encode. rewrite fold_put_nets by (intros; reflexivity). reflexivity.
Qed.
Lemma RouterAvailableToNetwork_encode_is_model o p :
  RouterAvailableToNetwork_encode o p = do b <- enc_msg (msg_of_avail o); Ok (o, app_data b p).
Proof.
  unfold RouterAvailableToNetwork_encode. rewrite fold_put_nets by (intros; reflexivity). reflexivity.
Qed.

(* `for rte in <table>: put_short(rtDNET); put(rtPortID); put(len(rtPortInfo)); put_data(rtPortInfo)` *)
Lemma fold_enc_rtes (f : pyobj -> rte -> res pyobj) t p :
  (forall q e, f q e = do q1 <- py_put_short (rt_dnet e) q; do q2 <- py_put (rt_port e) q1;
                       do q3 <- py_put (lenN (rt_info e)) q2; py_put_data (rt_info e) q3) ->
  fold_res f t p = emit (enc_rtes t) p.
Proof.
  intros Hf. revert p. induction t as [|e r IH]; intros p; cbn [fold_res enc_rtes emit bind].
  - rewrite app_data_nil. reflexivity.
  - rewrite Hf. unfold py_put_short, py_put, py_put_data. cbn [bind].
    destruct (put (rt_port e)) as [pb|]; [|reflexivity]. cbn [bind].
    destruct (put (lenN (rt_info e))) as [lb|]; [|reflexivity]. cbn [bind].
    rewrite IH. unfold emit. destruct (enc_rtes r) as [rest|]; [|reflexivity]. cbn [bind].
    destruct p; unfold app_data; cbn. rewrite <- !app_assoc. reflexivity.
Qed.

(* `npdu.put(len(<table>))`, then the loop: enc_table *)
Lemma InitializeRoutingTable_encode_is_model o p :
  InitializeRoutingTable_encode o p = do b <- enc_msg (msg_of_irt o); Ok (o, app_data b p).
Proof.
  apply (emit_twice o (put (lenN (irtTable o))) (enc_rtes (irtTable o))); [reflexivity|].
  intros q. apply fold_enc_rtes. intros; reflexivity.
Qed.
Lemma InitializeRoutingTableAck_encode_is_model o p :
  InitializeRoutingTableAck_encode o p = do b <- enc_msg (msg_of_irta o); Ok (o, app_data b p).
Proof.
  apply (emit_twice o (put (lenN (irtaTable o))) (enc_rtes (irtaTable o))); [reflexivity|].
  intros q. apply fold_enc_rtes. intros; reflexivity.
Qed.

(* py_get, py_get_short and py_get_data k are (by computation) `blk` for f = get, get_short, get_data k;
   K and g are how the method and the model go on *)
Lemma view_read {O A} (F : O -> msg) (f : list N -> res (A * list N)) blk q bs
    (K : A * pyobj -> res (O * pyobj)) (g : A * list N -> res (msg * list N)) :
  blk = (do (x, r) <- f bs; Ok (x, set_pduData r q)) ->
  (forall x r, view F (K (x, set_pduData r q)) = g (x, r)) ->
  view F (bind blk K) = bind (f bs) g.
Proof. intros -> H. destruct (f bs) as [[x r]|]; cbn [bind]; [apply H|reflexivity]. Qed.

Lemma WhoIsRouterToNetwork_decode_is_model o p :
  view msg_of_whois (WhoIsRouterToNetwork_decode o p) = dec_msg WhoIsRouterToNetwork_messageType (pduData p).
Proof. destruct p as [d]; destruct d as [|a [|b r]]; reflexivity. Qed.

Lemma ICouldBeRouterToNetwork_decode_is_model o p :
  view msg_of_icb (ICouldBeRouterToNetwork_decode o p) = dec_msg ICouldBeRouterToNetwork_messageType (pduData p).
Proof.
  unfold ICouldBeRouterToNetwork_decode, ICouldBeRouterToNetwork_messageType, dec_msg. cbn [N.eqb Pos.eqb].
  eapply view_read; [reflexivity|intros n r]. eapply view_read; [reflexivity|intros x r']. reflexivity.
Qed.

Lemma RejectMessageToNetwork_decode_is_model o p :
  view msg_of_rej (RejectMessageToNetwork_decode o p) = dec_msg RejectMessageToNetwork_messageType (pduData p).
Proof.
  unfold RejectMessageToNetwork_decode, RejectMessageToNetwork_messageType, dec_msg. cbn [N.eqb Pos.eqb].
  eapply view_read; [reflexivity|intros x r]. eapply view_read; [reflexivity|intros n r']. reflexivity.
Qed.

Lemma EstablishConnectionToNetwork_decode_is_model o p :
  view msg_of_est (EstablishConnectionToNetwork_decode o p) = dec_msg EstablishConnectionToNetwork_messageType (pduData p).
Proof.
  unfold EstablishConnectionToNetwork_decode, EstablishConnectionToNetwork_messageType, dec_msg. cbn [N.eqb Pos.eqb].
  eapply view_read; [reflexivity|intros n r]. eapply view_read; [reflexivity|intros x r']. reflexivity.
Qed.

Lemma DisconnectConnectionToNetwork_decode_is_model o p :
  view msg_of_disc (DisconnectConnectionToNetwork_decode o p) = dec_msg DisconnectConnectionToNetwork_messageType (pduData p).
Proof.
  unfold DisconnectConnectionToNetwork_decode, DisconnectConnectionToNetwork_messageType, dec_msg. cbn [N.eqb Pos.eqb].
  eapply view_read; [reflexivity|intros n r]. reflexivity.
Qed.

Lemma WhatIsNetworkNumber_decode_is_model o p :
  view msg_of_what (WhatIsNetworkNumber_decode o p) = dec_msg WhatIsNetworkNumber_messageType (pduData p).
Proof. reflexivity. Qed.

Lemma NetworkNumberIs_decode_is_model o p :
  view msg_of_nni (NetworkNumberIs_decode o p) = dec_msg NetworkNumberIs_messageType (pduData p).
Proof.
  unfold NetworkNumberIs_decode, NetworkNumberIs_messageType, dec_msg. cbn [N.eqb Pos.eqb].
  eapply view_read; [reflexivity|intros n r]. eapply view_read; [reflexivity|intros x r']. reflexivity.
Qed.

(* `while npdu.pduData: <list>.append(npdu.get_short())` with fuel 1 + len(pduData) *)
Lemma while_nets {O} (c : pyobj * O -> bool) (f : pyobj * O -> res (pyobj * O)) (app : O -> N -> O) :
  (forall q o, c (q, o) = py_nonempty (pduData q)) ->
  (forall q o, f (q, o) = do (v, q') <- py_get_short q; Ok (q', app o v)) ->
  forall bs fuel q o, (length bs < fuel)%nat -> pduData q = bs ->
  while_res fuel c f (q, o) = do l <- dec_nets bs; Ok (set_pduData [] q, fold_left app l o).
Proof.
  intros Hc Hf bs. induction bs as [|a|a b r IH] using list_ind2; intros fuel q o Hlt Hq;
    (destruct fuel as [|fuel]; [cbn in Hlt; lia|]); cbn [while_res]; rewrite Hc, Hq; cbn [py_nonempty].
  - destruct q; cbn in Hq; subst; reflexivity.
  - rewrite Hf. unfold py_get_short. rewrite Hq. reflexivity.
  - rewrite Hf. unfold py_get_short. rewrite Hq. cbn [get_short bind].
    rewrite (IH fuel (set_pduData r q) (app o (a * 256 + b))); [|cbn in Hlt; lia|destruct q; reflexivity].
    cbn [dec_nets]. destruct (dec_nets r); cbn [bind fold_left]; [|reflexivity].
    destruct q; reflexivity.
Qed.

Lemma fold_left_snoc {O A} (mk : list A -> O) (get : O -> list A) (app : O -> A -> O) :
  (forall l, get (mk l) = l) -> (forall o v, app o v = mk (get o ++ [v])) ->
  forall l acc, fold_left app l (mk acc) = mk (acc ++ l).
Proof.
  intros Hg Ha l. induction l as [|x r IH]; intros acc; cbn [fold_left].
  - rewrite app_nil_r. reflexivity.
  - rewrite Ha, Hg, IH, <- app_assoc. reflexivity.
Qed.

(* a decode method that is this loop and nothing else; mk l is the object whose one field (getl) holds l *)
Lemma nets_decode {O} (F : O -> msg) (C : list N -> msg) (mk : list N -> O) (getl : O -> list N) c f p :
  (forall l, getl (mk l) = l) -> (forall l, F (mk l) = C l) ->
  (forall q o, c (q, o) = py_nonempty (pduData q)) ->
  (forall q o, f (q, o) = do (v, q') <- py_get_short q; Ok (q', mk (getl o ++ [v]))) ->
  view F (do (q, o) <- while_res (S (length (pduData p))) c f (p, mk []); Ok (o, q))
  = do l <- dec_nets (pduData p); Ok (C l, []).
Proof.
  intros Hg HF Hc Hf.
  rewrite while_nets with (app := fun o v => mk (getl o ++ [v])) (bs := pduData p); [|exact Hc|exact Hf|lia|reflexivity].
  destruct (dec_nets (pduData p)) as [l|]; cbn [bind view rmap fst snd]; [|reflexivity].
  rewrite (fold_left_snoc mk getl _ Hg (fun _ _ => eq_refl)), HF. destruct p; reflexivity.
Qed.

Lemma IAmRouterToNetwork_decode_is_model o p :
  view msg_of_iam (IAmRouterToNetwork_decode o p) = dec_msg IAmRouterToNetwork_messageType (pduData p).
Proof. apply (nets_decode msg_of_iam IAmRouter mk_IAmRouterToNetwork iartnNetworkList); intros; reflexivity. Qed.
Lemma RouterBusyToNetwork_decode_is_model o p :
  view msg_of_busy (RouterBusyToNetwork_decode o p) = dec_msg RouterBusyToNetwork_messageType (pduData p).
Proof. apply (nets_decode msg_of_busy RouterBusy mk_RouterBusyToNetwork rbtnNetworkList); intros; reflexivity. Qed.
Lemma RouterAvailableToNetwork_decode_is_model o p :
  view msg_of_avail (RouterAvailableToNetwork_decode o p) = dec_msg RouterAvailableToNetwork_messageType (pduData p).
Proof. apply (nets_decode msg_of_avail RouterAvailable mk_RouterAvailableToNetwork ratnNetworkList); intros; reflexivity. Qed.

(* `for i in range(n): dnet = get_short(); port = get(); k = get(); info = get_data(k); <table>.append(RoutingTableEntry(..))` *)
Lemma iter_dec_rtes {O} (f : pyobj * O -> res (pyobj * O)) (app : O -> rte -> O) :
  (forall q o, f (q, o) = do (d, q1) <- py_get_short q; do (pt, q2) <- py_get q1; do (k, q3) <- py_get q2;
                          do (i, q4) <- py_get_data k q3; Ok (q4, app o (mkRte d pt i))) ->
  forall n q o, iter_res n f (q, o) = do (t, r) <- dec_rtes n (pduData q); Ok (set_pduData r q, fold_left app t o).
Proof.
  intros Hf n. induction n as [|n IH]; intros q o; cbn [iter_res dec_rtes].
  - destruct q; reflexivity.
  - rewrite Hf. unfold py_get_short, py_get, py_get_data.
    destruct (get_short (pduData q)) as [[d r1]|]; [|reflexivity]. cbn [bind pduData set_pduData].
    destruct (get r1) as [[pt r2]|]; [|reflexivity]. cbn [bind pduData set_pduData].
    destruct (get r2) as [[k r3]|]; [|reflexivity]. cbn [bind pduData set_pduData].
    destruct (get_data k r3) as [[i r4]|]; [|reflexivity]. cbn [bind pduData set_pduData].
    rewrite IH. cbn [pduData set_pduData].
    destruct (dec_rtes n r4) as [[t r5]|]; [|reflexivity]. cbn [bind fold_left].
    destruct q; reflexivity.
Qed.

(* `n = get()`, then this loop; mk and getl as in nets_decode *)
Lemma table_decode {O} (F : O -> msg) (C : list rte -> msg) (mk : list rte -> O) (getl : O -> list rte) f p :
  (forall l, getl (mk l) = l) -> (forall l, F (mk l) = C l) ->
  (forall q o, f (q, o) = do (d, q1) <- py_get_short q; do (pt, q2) <- py_get q1; do (k, q3) <- py_get q2;
                          do (i, q4) <- py_get_data k q3; Ok (q4, mk (getl o ++ [mkRte d pt i]))) ->
  view F (do (n, q) <- py_get p; do (q', o) <- iter_res (N.to_nat n) f (q, mk []); Ok (o, q'))
  = do (t, r) <- dec_table (pduData p); Ok (C t, r).
Proof.
  intros Hg HF Hf. unfold dec_table, py_get.
  destruct (Base.get (pduData p)) as [[n r1]|]; [|reflexivity]. cbn [bind].
  rewrite (iter_dec_rtes f (fun o e => mk (getl o ++ [e])) Hf). cbn [pduData set_pduData].
  destruct (dec_rtes _ _) as [[t r2]|]; cbn [bind view rmap fst snd]; [|reflexivity].
  rewrite (fold_left_snoc mk getl _ Hg (fun _ _ => eq_refl)), HF. destruct p; reflexivity.
Qed.

Lemma InitializeRoutingTable_decode_is_model o p :
  view msg_of_irt (InitializeRoutingTable_decode o p) = dec_msg InitializeRoutingTable_messageType (pduData p).
Proof. apply (table_decode msg_of_irt InitRT mk_InitializeRoutingTable irtTable); intros; reflexivity. Qed.
Lemma InitializeRoutingTableAck_decode_is_model o p :
  view msg_of_irta (InitializeRoutingTableAck_decode o p) = dec_msg InitializeRoutingTableAck_messageType (pduData p).
Proof. apply (table_decode msg_of_irta InitRTAck mk_InitializeRoutingTableAck irtaTable); intros; reflexivity. Qed.
