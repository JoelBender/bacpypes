(* C18 — addresses parse, print, compare and hash coherently in every notation.
   Property theorems only; the lemmas behind them are in Bac.AddrFacts / AddrParse / AddrOld / AddrEntry / AddrIp / AddrWild.
   Texts are lists of character codes: 42 '*', 46 '.', 47 '/', 58 ':', 64 '@', "0x" = 48 120,
   "X'" = 88 39.  `digits s` = s matches \d+; `dec_val s` = int(s); `hex_pairs h` = h matches
   (HH)+; `unhex h` = the octets those pairs spell; `decode_str` = Address(<str>). *)
From Bac Require Import Base Addr AddrFacts AddrParse AddrOld AddrEntry AddrIp AddrWild.
Open Scope N_scope.

(* "<station>" (any run of digits, leading zeros included): local station, or refused above 255 *)
Theorem C18_denotation_station : forall s, digits s = true ->
  decode_str s = if 256 <=? dec_val s then Err ValueErr else Ok (station [dec_val s]).
Proof. exact decode_station. Qed.
Print Assumptions C18_denotation_station.

(* "<net>:<station>" *)
Theorem C18_denotation_net_station : forall n s, digits n = true -> digits s = true ->
  decode_str (n ++ 58 :: s) =
    if (65535 <=? Z.of_N (dec_val n))%Z then Err ValueErr
    else if 256 <=? dec_val s then Err ValueErr
    else Ok (mkAddr ARemoteStation (Some (Z.of_N (dec_val n))) (Some [dec_val s]) None None).
Proof. exact decode_net_station. Qed.
Print Assumptions C18_denotation_net_station.

(* "<net>:*" *)
Theorem C18_denotation_net_broadcast : forall n, digits n = true ->
  decode_str (n ++ [58; 42]) =
    if (65535 <=? Z.of_N (dec_val n))%Z then Err ValueErr
    else Ok (mkAddr ARemoteBroadcast (Some (Z.of_N (dec_val n))) None None None).
Proof. exact decode_net_bcast. Qed.
Print Assumptions C18_denotation_net_broadcast.

(* "*" and "*:*" *)
Theorem C18_denotation_broadcasts :
  decode_str [42] = Ok local_broadcast /\ decode_str [42; 58; 42] = Ok global_broadcast.
Proof. split; reflexivity. Qed.
Print Assumptions C18_denotation_broadcasts.

(* "0x<hex pairs>" and "<net>:0x<hex pairs>", either letter case *)
Theorem C18_denotation_hex : forall h, hex_pairs h = true ->
  exists b, unhex h = Ok b /\ decode_str (48 :: 120 :: h) = Ok (station b).
Proof.
  intros h H. destruct (hex_pairs_unhex h H) as [b Hb]. exists b. split; [exact Hb|].
  rewrite (decode_plain_core _ _ (core_hex_ok h H)), matched_plain by discriminate.
  cbn [core_mac]. now rewrite (field_mac_hex h H), Hb.
Qed.
Print Assumptions C18_denotation_hex.

Theorem C18_denotation_net_hex : forall n h, digits n = true -> hex_pairs h = true ->
  exists b, unhex h = Ok b /\
  decode_str (n ++ 58 :: 48 :: 120 :: h) =
    if (65535 <=? Z.of_N (dec_val n))%Z then Err ValueErr
    else Ok (mkAddr ARemoteStation (Some (Z.of_N (dec_val n))) (Some b) None None).
Proof.
  intros n h Hn H. destruct (hex_pairs_unhex h H) as [b Hb]. exists b. split; [exact Hb|].
  rewrite (decode_net_core n _ _ Hn (proj2 (core_hex_ok h H))), matched_net_station by discriminate.
  unfold net_check. destruct (65535 <=? Z.of_N (dec_val n))%Z; [reflexivity|]. cbn [bind core_mac].
  now rewrite (field_mac_hex h H), Hb.
Qed.
Print Assumptions C18_denotation_net_hex.

(* "X'<hex pairs>'" and "<net>:X'<hex pairs>'" (legacy patterns) *)
Theorem C18_denotation_oldhex : forall h, hex_pairs h = true ->
  exists b, unhex h = Ok b /\ decode_str (oldtext h) = Ok (station b).
Proof. exact decode_oldhex. Qed.
Print Assumptions C18_denotation_oldhex.

Theorem C18_denotation_net_oldhex : forall n h, digits n = true -> hex_pairs h = true ->
  exists b, unhex h = Ok b /\
  decode_str (n ++ 58 :: oldtext h) =
    if (65535 <=? Z.of_N (dec_val n))%Z then Err ValueErr
    else Ok (mkAddr ARemoteStation (Some (Z.of_N (dec_val n))) (Some b) None None).
Proof. exact decode_net_oldhex. Qed.
Print Assumptions C18_denotation_net_oldhex.

(* hex text written by btox spells exactly the octets it was written from *)
Theorem C18_hex_text_octets : forall l, bytes_ok l = true -> unhex (btox l) = Ok l.
Proof. exact unhex_btox. Qed.
Print Assumptions C18_hex_text_octets.

(* "a.b.c.d[/len][:port]" with optional "<net>:" — station octets and IP attributes come from
   ip_from_text ... *)
Theorem C18_denotation_ip : forall a b c d m p,
  digits a = true -> digits b = true -> digits c = true -> digits d = true ->
  opt_digits m = true -> opt_digits p = true ->
  decode_str (ip_text (quad a b c d) m p) =
    do x <- ip_from_text (quad a b c d) m p;
    Ok (mkAddr ALocalStation None (Some (fst x)) None (Some (snd x))).
Proof. exact decode_ip. Qed.
Print Assumptions C18_denotation_ip.

Theorem C18_denotation_net_ip : forall n a b c d m p, digits n = true ->
  digits a = true -> digits b = true -> digits c = true -> digits d = true ->
  opt_digits m = true -> opt_digits p = true ->
  decode_str (n ++ 58 :: ip_text (quad a b c d) m p) =
    if (65535 <=? Z.of_N (dec_val n))%Z then Err ValueErr
    else do x <- ip_from_text (quad a b c d) m p;
         Ok (mkAddr ARemoteStation (Some (Z.of_N (dec_val n))) (Some (fst x)) None (Some (snd x))).
Proof. intros. now apply decode_net_ip. Qed.
Print Assumptions C18_denotation_net_ip.

(* ... which, for parts that inet_aton reads as a' b' c' d', port <= 65535 (default 47808) and
   mask length <= 32 (default 32), are: octets a'.b'.c'.d' ++ port (big endian), and ip_denoted *)
Theorem C18_denotation_ip_values : forall a b c d m p a' b' c' d',
  digits a = true -> digits b = true -> digits c = true -> digits d = true ->
  aton_part a = Some a' -> aton_part b = Some b' -> aton_part c = Some c' -> aton_part d = Some d' ->
  dec_val (odefault s47808 p) <= 65535 -> dec_val (odefault s32 m) <= 32 ->
  ip_from_text (quad a b c d) m p =
    Ok ([a'; b'; c'; d'] ++ be2 (dec_val (odefault s47808 p)),
        ip_denoted (be_val [a'; b'; c'; d']) (dec_val (odefault s32 m)) (dec_val (odefault s47808 p)) (quad a b c d)).
Proof. exact ip_from_text_ok. Qed.
Print Assumptions C18_denotation_ip_values.

(* canonical decimal octets are read as themselves (domain 0..255 swept completely) *)
Theorem C18_octet_text : forall a, a < 256 -> aton_part (dec_str a) = Some a.
Proof. exact aton_dec. Qed.
Print Assumptions C18_octet_text.

(* mask, subnet, host and directed broadcast, arithmetically; k = 32 - mask length *)
Theorem C18_ip_fields : forall ipz len, (0 <= ipz < 2 ^ 32)%Z -> (0 <= len <= 32)%Z ->
  let k := (32 - len)%Z in
  let mask := Z.land (Z.shiftl M32 (32 - len)) M32 in
  (mask = 2 ^ 32 - 2 ^ k /\
   Z.land ipz mask = ipz - ipz mod 2 ^ k /\
   Z.land ipz (Z.lnot mask) = ipz mod 2 ^ k /\
   Z.land (Z.lor (Z.land ipz mask) (Z.lnot mask)) M32 = ipz - ipz mod 2 ^ k + (2 ^ k - 1))%Z.
Proof. exact ip_fields_arith. Qed.
Print Assumptions C18_ip_fields.

Theorem C18_denotation_int : forall z, (0 <= z < 256)%Z -> address1 (AInt z) = Ok (station [Z.to_N z]).
Proof. intros z H. unfold address1, decode_address. now replace ((z <? 0)%Z || (256 <=? z)%Z) with false by lia. Qed.
Print Assumptions C18_denotation_int.

Theorem C18_denotation_octets : forall l,
  exists x, address1 (ABytes l) = Ok x /\ key x = (ALocalStation, None, Some l) /\ route x = None.
Proof. intro l. eexists. split; [reflexivity|]. now apply (octets_key l). Qed.
Print Assumptions C18_denotation_octets.

Theorem C18_denotation_tuple : forall a b c d a' b' c' d' port,
  digits a = true -> digits b = true -> digits c = true -> digits d = true ->
  aton_part a = Some a' -> aton_part b = Some b' -> aton_part c = Some c' -> aton_part d = Some d' ->
  (0 <= port <= 65535)%Z ->
  exists x, address1 (ATuple (HStr (quad a b c d)) port) = Ok x /\
    key x = (ALocalStation, None, Some ([a'; b'; c'; d'] ++ be2 (Z.to_N port))) /\ route x = None.
Proof. exact tuple_denotation. Qed.
Print Assumptions C18_denotation_tuple.

(* `addr == "*"` / `addr == "*:*"` at the head of decode_address are reached by EVERY argument type.
   An argument denotes the route-free local (global) broadcast only if it is the text "*" ("*:*"),
   optionally followed by the one newline `$` tolerates, or an Address object that == that broadcast —
   no int, no octet string (not 0x2A, not 0x2A 0x3A 0x2A), no (host, port) tuple does *)
Theorem C18_broadcast_arguments : forall a x, decode_address a = Ok x -> route x = None ->
  (ty x = ALocalBroadcast -> is_wild_text [42] a \/ exists y, a = AAddr y /\ key y = key bcast_local) /\
  (ty x = AGlobalBroadcast -> is_wild_text [42; 58; 42] a \/ exists y, a = AAddr y /\ key y = key bcast_global).
Proof. exact broadcast_arguments. Qed.
Print Assumptions C18_broadcast_arguments.

(* ... and those arguments are accepted as such *)
Theorem C18_wildcard_texts_accepted :
  decode_address (AStr [42]) = Ok bcast_local /\ decode_address (AStr [42; 10]) = Ok bcast_local /\
  decode_address (AStr [42; 58; 42]) = Ok bcast_global /\ decode_address (AStr [42; 58; 42; 10]) = Ok bcast_global.
Proof. exact wild_texts_accepted. Qed.
Print Assumptions C18_wildcard_texts_accepted.

(* an int, an octet string or a tuple that is accepted is a route-free local station *)
Theorem C18_non_text_is_station : forall a x, non_text a = true -> decode_address a = Ok x ->
  ty x = ALocalStation /\ net x = None /\ route x = None /\ exists m, mac x = Some m.
Proof. exact non_text_station. Qed.
Print Assumptions C18_non_text_is_station.

(* raw octets, whatever they spell in ASCII, are the station with exactly those octets: Address(octets) ... *)
Theorem C18_octets_are_octets : forall l x, decode_address (ABytes l) = Ok x ->
  key x = (ALocalStation, None, Some l) /\ route x = None.
Proof. exact octets_key. Qed.
Print Assumptions C18_octets_are_octets.
(* ... and Address(net, octets) *)
Theorem C18_net_octets_are_octets : forall n l, (0 <= n < 65535)%Z ->
  exists x, address2 n (ABytes l) = Ok x /\ key x = (ARemoteStation, Some n, Some l) /\ route x = None.
Proof.
  intros n l Hn. unfold address2. destruct ((n <? 0)%Z || (65535 <=? n)%Z) eqn:E; [lia|].
  cbn [decode_address bind ty]. eexists. repeat split.
Qed.
Print Assumptions C18_net_octets_are_octets.

(* an Address object as constructor argument (not a notation of the statement; behaviour recorded): accepted
   only when it == a broadcast, the result is that broadcast without route and == the argument; every
   other Address object is a TypeError *)
Theorem C18_address_object_argument : forall y x, decode_address (AAddr y) = Ok x ->
  (x = bcast_local \/ x = bcast_global) /\ key y = key x /\ eqb y x = true.
Proof. exact addr_object_inv. Qed.
Print Assumptions C18_address_object_argument.
Theorem C18_address_object_refused : forall y, ty y <> ALocalBroadcast -> ty y <> AGlobalBroadcast ->
  decode_address (AAddr y) = Err TypeErr.
Proof. exact addr_object_refused. Qed.
Print Assumptions C18_address_object_refused.
Theorem C18_address_object_accepted : forall y,
  (key y = key bcast_local -> decode_address (AAddr y) = Ok bcast_local) /\
  (key y = key bcast_global -> decode_address (AAddr y) = Ok bcast_global).
Proof. exact wild_objects_accepted. Qed.
Print Assumptions C18_address_object_accepted.

(* constructing an address after other addresses were built (and modified) in the same process gives
   what the constructor gives on its own: the model has no module-level state; the correspondence
   (process-history cases on never-seen texts) ties this to the code *)
Theorem C18_construction_history_independent : forall e e' r,
  built_after e r = built_after e' r /\ built_after e r = r.
Proof. intros e e' r. split; reflexivity. Qed.
Print Assumptions C18_construction_history_independent.

(* network numbers above 65534: any "<net>:<...>" text the combined pattern accepts ... *)
Theorem C18_refuses_net : forall n cs c, digits n = true -> 65535 <= dec_val n ->
  nonl cs = true -> ~ In 64 cs -> match_core cs = Some c ->
  decode_str (n ++ 58 :: cs) = Err ValueErr.
Proof. intros n cs c Hn Hv Hnl H64 Hc. exact (net_refused_text n cs c Hn Hv (conj Hnl (conj H64 Hc))). Qed.
Print Assumptions C18_refuses_net.

(* ... and Address(net, x) (after the fix), RemoteStation(net, x), RemoteBroadcast(net) *)
Theorem C18_refuses_net_constructors : forall n, (n < 0 \/ 65535 <= n)%Z ->
  (forall a, address2 n a = Err ValueErr) /\ (forall a, remote_station n a = Err ValueErr) /\
  remote_broadcast n = Err ValueErr.
Proof.
  intros n H. assert (G : (n <? 0)%Z || (65535 <=? n)%Z = true) by lia.
  unfold address2, remote_station, remote_broadcast. rewrite G. repeat split.
Qed.
Print Assumptions C18_refuses_net_constructors.

(* station numbers above 255, at every entry point *)
Theorem C18_refuses_station : forall s, digits s = true -> 256 <= dec_val s ->
  decode_str s = Err ValueErr /\ forall n, digits n = true -> decode_str (n ++ 58 :: s) = Err ValueErr.
Proof.
  intros s H Hv. assert (G : 256 <=? dec_val s = true) by lia. split; [|intros n Hn].
  - now rewrite (decode_station s H), G.
  - rewrite (decode_net_station n s Hn H), G. now destruct (65535 <=? Z.of_N (dec_val n))%Z.
Qed.
Print Assumptions C18_refuses_station.

Theorem C18_refuses_station_constructors : forall z, (z < 0 \/ 256 <= z)%Z ->
  address1 (AInt z) = Err ValueErr /\ local_station (AInt z) = Err ValueErr /\
  (forall n, exists e, address2 n (AInt z) = Err e) /\ (forall n, exists e, remote_station n (AInt z) = Err e).
Proof.
  intros z H. assert (G : (z <? 0)%Z || (256 <=? z)%Z = true) by lia.
  unfold address1, local_station, address2, remote_station, decode_address, station_mac. rewrite G.
  repeat split; intro n; destruct ((n <? 0)%Z || (65535 <=? n)%Z); eexists; reflexivity.
Qed.
Print Assumptions C18_refuses_station_constructors.

(* ports above 65535 (after the fix) and mask lengths above 32 *)
Theorem C18_refuses_port : forall h m p, 65535 < dec_val (odefault s47808 p) ->
  ip_from_text h m p = Err ValueErr.
Proof. intros h m p H. unfold ip_from_text. destruct (65535 <? Z.of_N (dec_val (odefault s47808 p)))%Z eqn:E; [reflexivity|lia]. Qed.
Print Assumptions C18_refuses_port.

Theorem C18_refuses_port_tuple : forall h port, (port < 0 \/ 65535 < port)%Z ->
  address1 (ATuple h port) = Err ValueErr.
Proof.
  intros h port H. unfold address1, decode_address, ip_from_tuple. now replace ((port <? 0)%Z || (65535 <? port)%Z) with true by lia.
Qed.
Print Assumptions C18_refuses_port_tuple.

Theorem C18_refuses_mask : forall h m p, 32 < dec_val (odefault s32 m) -> exists e, ip_from_text h m p = Err e.
Proof.
  intros h m p H. unfold ip_from_text. destruct (65535 <? _)%Z; [eexists; reflexivity|].
  destruct (inet_aton h); cbn [bind]; [|eexists; reflexivity].
  destruct (32 <? Z.of_N (dec_val (odefault s32 m)))%Z eqn:E; [eexists; reflexivity|lia].
Qed.
Print Assumptions C18_refuses_mask.

(* "*:<station>" (after the fix) *)
Theorem C18_refuses_star_station : forall cs c, nonl cs = true -> ~ In 64 cs ->
  match_core cs = Some c -> c <> CBcast -> decode_str (42 :: 58 :: cs) = Err ValueErr.
Proof. intros cs c Hnl H64 Hc. exact (star_station_refused cs c (conj Hnl (conj H64 Hc))). Qed.
Print Assumptions C18_refuses_star_station.

(* every route-free, non-null address with 1+ octets < 256 and network 0..65534: its printed
   form parses to an equal address (decimal for 1 octet, dotted for 6 octets with port
   47808..47823, hex otherwise) *)
Theorem C18_print_parse : forall a, wf_addr a ->
  exists s a', print a = Ok s /\ decode_str s = Ok a' /\ eqb a a' = true.
Proof.
  intros a H. destruct (print_parse_key a H) as (s & a' & P & D & K & R).
  exists s, a'. repeat split; try assumption. apply eqb_key; [now right|]. congruence.
Qed.
Print Assumptions C18_print_parse.

(* re-using an address object: whatever was decoded into it before (accepted or refused), the
   outcome of decode_address is that of a fresh Address(x) — the model has no state to inherit;
   the correspondence (object-history cases) ties this to the code *)
Theorem C18_decode_history_independent : forall h h' x,
  decode_on h x = decode_on h' x /\ decode_on h x = address1 x.
Proof. intros. split; reflexivity. Qed.
Print Assumptions C18_decode_history_independent.

Theorem C18_eq_equivalence :
  (forall a, eqb a a = true) /\ (forall a b, eqb a b = eqb b a) /\
  (forall a b c, route a = None -> route b = None -> route c = None ->
                 eqb a b = true -> eqb b c = true -> eqb a c = true).
Proof. repeat split; [exact eqb_refl|exact eqb_sym|exact eqb_trans]. Qed.
Print Assumptions C18_eq_equivalence.

(* equal addresses have the same _tuple(), hence the same hash: route-free under either
   setting; with route_aware off (the default) for all addresses *)
Theorem C18_eq_hash : forall a b,
  (forall ra, route a = None -> route b = None -> eqb a b = true -> tuple ra a = tuple ra b) /\
  (eqb a b = true -> tuple false a = tuple false b).
Proof. intros a b. split; [intro ra; apply eqb_tuple|apply eqb_tuple_unaware]. Qed.
Print Assumptions C18_eq_hash.

(* outside the property's scope, recorded: with "@route" suffixes == is not transitive, and
   with route_aware on equal addresses can hash differently *)
Theorem C18_eq_routes_not_transitive_refuted :
  exists a b c, decode_str [53; 64; 54] = Ok a /\ decode_str [53] = Ok b /\ decode_str [53; 64; 55] = Ok c /\
                eqb a b = true /\ eqb b c = true /\ eqb a c = false.
Proof. exact eq_routes_not_transitive. Qed.
Print Assumptions C18_eq_routes_not_transitive_refuted.

Theorem C18_eq_hash_routes_refuted :
  exists a b, decode_str [53; 64; 54] = Ok a /\ decode_str [53] = Ok b /\
              eqb a b = true /\ tuple true a <> tuple true b.
Proof. exact eq_routes_hash_differs. Qed.
Print Assumptions C18_eq_hash_routes_refuted.

Example C18_ex_wf :
  wf_addr (mkAddr ARemoteStation (Some 65534%Z) (Some [1; 2; 3; 4; 186; 192]) None None).
Proof.
  split; [reflexivity|]. split.
  - exists 65534%Z. split; [reflexivity|lia].
  - exists [1; 2; 3; 4; 186; 192]. repeat split. discriminate.
Qed.
(* "65534:1.2.3.4" is what it prints as, and that parses back to the same key *)
Example C18_ex_print :
  print (mkAddr ARemoteStation (Some 65534%Z) (Some [1; 2; 3; 4; 186; 192]) None None)
  = Ok [54; 53; 53; 51; 52; 58; 49; 46; 50; 46; 51; 46; 52].
Proof. vm_compute. reflexivity. Qed.
(* a 7-octet MAC ending in 0xBAC0 behind a network prints in hex, not as a dotted quad *)
Example C18_ex_print7 :
  print (mkAddr ARemoteStation (Some 1%Z) (Some [10; 20; 30; 40; 50; 186; 192]) None None)
  = Ok ([49; 58; 48; 120] ++ btox [10; 20; 30; 40; 50; 186; 192]).
Proof. vm_compute. reflexivity. Qed.
Example C18_ex_digits : digits [50; 53; 53] = true /\ dec_val [50; 53; 53] = 255 /\ hex_pairs [48; 97; 70; 102] = true
  /\ aton_part [48; 49; 48] = Some 8 /\ opt_digits (Some [50; 52]) = true.
Proof. vm_compute. repeat split. Qed.
(* "1.2.3.4/24:47809": subnet 1.2.3.0, host 4, directed broadcast 1.2.3.255 *)
Example C18_ex_ip :
  canon_addr_r (decode_str [49;46;50;46;51;46;52;47;50;52;58;52;55;56;48;57]) =
  canon_addr_r (Ok (mkAddr ALocalStation None (Some [1;2;3;4;186;193]) None
     (Some (mkIp 16909060%Z 4294967040%Z (Some 4%Z) (Some 16909056%Z) 47809%Z [49;46;50;46;51;46;52]
                 [49;46;50;46;51;46;50;53;53])))).
Proof. vm_compute. reflexivity. Qed.
Example C18_ex_refusals :
  decode_str [54;53;53;51;53;58;53] = Err ValueErr /\ decode_str [50;53;54] = Err ValueErr /\
  address2 70000 (AInt 5) = Err ValueErr /\ decode_str [42;58;53] = Err ValueErr /\
  decode_str [49;46;50;46;51;46;52;58;55;48;48;48;48] = Err ValueErr.
Proof. vm_compute. repeat split. Qed.

(* b"*" and b"*:*" are the stations 0x2A and 0x2A3A2A (printed "42" and "0x2a3a2a"), Address(9, b"*") is 9:42 *)
Example C18_ex_octets_not_wildcards :
  decode_address (ABytes [42]) = Ok (station [42]) /\
  decode_address (ABytes [42; 58; 42]) = Ok (station [42; 58; 42]) /\
  address2 9 (ABytes [42]) = Ok (mkAddr ARemoteStation (Some 9%Z) (Some [42]) None None) /\
  (do a <- decode_address (ABytes [42; 58; 42]); print a) = Ok [48; 120; 50; 97; 51; 97; 50; 97] /\
  decode_address (AAddr (mkAddr ALocalBroadcast None None (Some [9]) None)) = Ok bcast_local /\
  decode_address (AAddr (station [42])) = Err TypeErr /\
  decode_address (AStr [32; 42]) = Err ValueErr /\ decode_address (AStr [42; 32]) = Err ValueErr.
Proof. vm_compute. repeat split. Qed.
