(* C04 — a confirmed request ends in exactly one outcome, in bounded time, no residue.
   Property theorems only; the model is Bac.Ssm (ClientSSM / ServerSSM transcribed from appservice.py with the
   fix: commits of known_findings/C04.json applied), with Bac.Iocb and Bac.DevCache for the layers around it; proofs in
   Bac.SsmC04a / SsmC04 / SsmC04t / SsmC04w (client side), SsmC04s / SsmC04h (serving side), IocbFacts, DevCacheFacts. *)
From Bac Require Import Base PyRt Ssm SsmFacts SsmC04a SsmC04 SsmC04t SsmC04s SsmC04w SsmC04h SsmC05 SsmWorld.
From Bac Require Iocb IocbFacts DevCache DevCacheFacts.
Open Scope Z_scope.

(* over any sequence of inbound frames and time-outs, in any order and at any instants, a client transaction hands
   the application at most one outcome — counted from ClientSSM.indication on *)
Theorem C04_at_most_one_outcome : forall a s0 ctr now evs, c_ready s0 -> ntoapp (c_life a s0 ctr now evs) <= 1.
Proof.
  intros a s0 ctr now evs Hr. unfold c_life. pose proof (c_ready_pre s0 ctr now Hr) as Hpre.
  destruct (post_step _ _ Hpre (c_indication_post a _ Hpre)) as (H1 & H2 & H3 & _).
  apply at_most_one_step; [exact H1 | exact H2 | intros Hl; apply c_run_at_most_one; exact (H3 Hl)].
Qed.
Print Assumptions C04_at_most_one_outcome.

(* when there is an outcome it is the last thing the transaction ever emits: no frame follows it *)
Theorem C04_terminal_silent : forall evs s ctr, c_ready s -> ntoapp (c_run evs s ctr) = 1 ->
  exists before a, c_run evs s ctr = before ++ [ToApp a] /\ ntoapp before = 0.
Proof. exact c_run_outcome_last. Qed.
Print Assumptions C04_terminal_silent.

(* one event: an outcome is delivered exactly when the transaction leaves the table; then it is in COMPLETED/ABORTED and
   holds no timer; otherwise it stays ready for the next event *)
Theorem C04_outcome_iff_removed : forall ev s ctr now, c_ready s ->
  let st' := fst (c_handle ev s ctr now) in
  ntoapp (h_outs st') <= 1 /\
  (ntoapp (h_outs st') = 1 <-> h_live st' = false) /\
  (h_live st' = true -> c_ready (h_s st')) /\
  (h_live st' = false -> s_timer (h_s st') = None /\ terminal (h_s st') = true /\
                         match h_outs st' with ToApp _ :: _ => True | _ => False end).
Proof. exact c_handle_step. Qed.
Print Assumptions C04_outcome_iff_removed.

(* no residue / bounded time backbone: after any handler that did not raise, a transaction is in the table iff its timer is armed *)
Theorem C04_live_iff_armed : forall ev s ctr now, c_ready s ->
  (match ev with Timeout => c_state_ok s = true | Rx _ => True end) ->
  snd (c_handle ev s ctr now) = None ->
  (h_live (fst (c_handle ev s ctr now)) = true <-> s_timer (h_s (fst (c_handle ev s ctr now))) <> None).
Proof. exact c_live_iff_armed. Qed.
Print Assumptions C04_live_iff_armed.

(* the request that starts a transaction: every clause of `post` (at most one outcome, listed iff non-terminal, armed iff
   listed, configuration untouched) *)
Theorem C04_indication_post : forall a st, pre st -> post st (c_indication a st).
Proof. exact c_indication_post. Qed.
Print Assumptions C04_indication_post.

(* bounded time: a time-out that leaves the transaction in the table (and did not raise) strictly lowers
   budget = (retries - retryCount) * (retries + 2) + (retries + 1 - segmentRetryCount) and keeps both counters in 0..retries *)
Theorem C04_timeout_measure : forall st, h_live st = true -> terminal (h_s st) = false -> cnt_ok (h_s st) ->
  let r := c_process_task st in
  snd r = None -> h_live (fst r) = true -> budget (h_s (fst r)) < budget (h_s st) /\ cnt_ok (h_s (fst r)).
Proof. exact timeout_budget. Qed.
Print Assumptions C04_timeout_measure.

Theorem C04_budget_nonneg : forall s, cnt_ok s -> 0 <= budget s.
Proof. exact budget_nonneg. Qed.
Print Assumptions C04_budget_nonneg.

(* bounded time, composed.  A scheduled history (`valid_run`): instants do not go back, a frame is handled no later than the
   armed deadline, a time-out exactly at it, no handler raises, nothing is handled after removal.  With K = n_rx evs frames
   received there are at most budget + K*retries + 1 time-outs, and every event — in particular the one that delivers the
   outcome — happens within (budget + K*(retries+1) + 1) * max(apduTimeout, segmentTimeout) of the start.  `_partial`:
   K is a parameter of the history (the network decides how many frames arrive), not bounded by the theorem. *)
Theorem C04_outcome_within_partial : forall evs s ctr t0, c_ready s -> cnt_ok s ->
  (forall w c, s_timer s = Some (w, c) -> w <= t0 + Tmax s) ->
  valid_run evs s ctr t0 ->
  n_to evs <= budget s + n_rx evs * s_retries s + 1 /\
  last_time evs t0 <= t0 + (budget s + n_rx evs * (s_retries s + 1) + 1) * Tmax s.
Proof.
  intros evs s ctr t0 Hr Hc Hd Hv. split.
  - exact (proj1 (run_bound evs s ctr t0 Hr Hc Hd Hv)).
  - exact (outcome_within evs s ctr t0 Hr Hc Hd Hv).
Qed.
Print Assumptions C04_outcome_within_partial.

(* for a request just submitted the budget is retries^2 + 3*retries + 1 (19 time-outs for the default 3 retries) *)
Theorem C04_fresh_budget : forall s, s_retry s = 0 -> s_segretry s = 0 -> budget s = s_retries s * s_retries s + 3 * s_retries s + 1.
Proof. exact fresh_budget. Qed.
Print Assumptions C04_fresh_budget.

(* the serving side over whole histories: from the first frame (a request as the header decoder can produce it) through any
   sequence of frames, application answers and time-outs — raising handlers included — a server transaction that is still
   in the table is armed and in a state that has a time-out handler (s_inv); one that left it is COMPLETED/ABORTED without
   a timer (s_done) *)
Theorem C04_server_history_no_residue : forall a s0 ctr now evs, wf_request a -> s_state s0 = IDLE -> 0 < s_app_to s0 -> 0 < s_seg_to s0 ->
  let r := s_life a s0 ctr now evs in (snd r = true -> s_inv (fst r)) /\ (snd r = false -> s_done (fst r)).
Proof. exact s_life_inv. Qed.
Print Assumptions C04_server_history_no_residue.

Theorem C04_server_history_invariant : forall evs s ctr, s_inv s ->
  let r := s_after evs s ctr in (snd r = true -> s_inv (fst r)) /\ (snd r = false -> s_done (fst r)).
Proof. exact s_history_inv. Qed.
Print Assumptions C04_server_history_invariant.

(* the serving side keeps no residue either: for every frame in every state, for the application's answer and for every
   time-out, a ServerSSM is in the table iff it is not COMPLETED/ABORTED, a removed one holds no timer, and one that stays
   has its timer armed whenever the handler did not raise (for a frame: provided it was armed before, or the transaction is new) *)
Theorem C04_server_frame_no_residue : forall a st, pre_s st ->
  post_s st (s_indication a st) (s_timer (h_s st) <> None \/ s_state (h_s st) = IDLE).
Proof. exact s_indication_post. Qed.
Print Assumptions C04_server_frame_no_residue.

Theorem C04_server_answer_no_residue : forall a st, pre_s st -> post_s st (s_confirmation a st) (s_timer (h_s st) <> None).
Proof. intros a st H. exact (post_srv_s _ _ _ _ (fun _ H => H) (s_confirmation_srv a st H)). Qed.
Print Assumptions C04_server_answer_no_residue.

Theorem C04_server_timeout_no_residue : forall st, pre_s st -> post_s st (s_process_task st) True.
Proof. intros st H. exact (post_srv_s _ _ _ _ (fun E _ => or_introl E) (s_process_task_srv st H)). Qed.
Print Assumptions C04_server_timeout_no_residue.

(* the IOCB layer (IOController / IOQController / SieveQueue / ApplicationIOController, model Bac.Iocb): over ANY history of
   submissions (also several to one address, also refused below, also with callbacks that submit follow-up requests), confirmations from below, client aborts and batches of
   deferred functions, every IOCB's callback has fired exactly once if it is COMPLETED/ABORTED and not at all otherwise *)
Theorem C04_iocb_once : forall ops i b, Iocb.lookup i (Iocb.w_io (Iocb.run_world ops)) = Some b -> IocbFacts.inv_io b.
Proof. exact IocbFacts.iocb_once. Qed.
Print Assumptions C04_iocb_once.

(* complete_io / abort_io are idempotent, and more: a finished IOCB is left exactly as it is by every later operation *)
Theorem C04_iocb_finished_untouched : forall ops w i b, Iocb.lookup i (Iocb.w_io w) = Some b -> Iocb.terminal_io b = true ->
  Iocb.lookup i (Iocb.w_io (fold_left (fun w o => Iocb.do_op o w) ops w)) = Some b.
Proof. exact IocbFacts.iocb_finished_untouched. Qed.
Print Assumptions C04_iocb_finished_untouched.

(* the per-address queue advances: the deferred _trigger of an idle queue starts its first waiting IOCB (hands its request down) *)
Theorem C04_iocb_queue_advances : forall a g w q i r b,
  Iocb.lookup a (Iocb.w_qs w) = Some q -> Iocb.q_gen q = g -> Iocb.q_state q = 0 -> Iocb.q_queue q = i :: r ->
  Iocb.lookup i (Iocb.w_io w) = Some b -> Iocb.i_state b = Iocb.IO_PENDING -> Iocb.i_fail b = false ->
  let w' := Iocb.trigger a g w in
  Iocb.lookup a (Iocb.w_qs w') = Some (Iocb.mkSq g 1 (Some i) r) /\
  Iocb.lookup i (Iocb.w_io w') = Some (Iocb.mkIo Iocb.IO_ACTIVE (Iocb.i_cb b) false (Iocb.i_addr b) (Iocb.i_follow b)) /\
  Iocb.w_ev w' = [20; i] :: Iocb.w_ev w.
Proof. exact IocbFacts.trigger_advances. Qed.
Print Assumptions C04_iocb_queue_advances.

(* queue_by_address cleanup: the confirmation of the only request of an address removes that address's queue, provided its
   callback submits no follow-up request; when it submits one to the same address the queue stays and holds the follow-up *)
Theorem C04_iocb_queue_cleanup : forall a ok w q i,
  Iocb.lookup a (Iocb.w_qs w) = Some q -> Iocb.q_active q = Some i -> Iocb.q_queue q = [] ->
  (forall b, Iocb.lookup i (Iocb.w_io w) = Some b -> Iocb.i_follow b = None) ->
  Iocb.lookup a (Iocb.w_qs (Iocb.confirm a ok w)) = None.
Proof. exact IocbFacts.confirm_cleanup. Qed.
Print Assumptions C04_iocb_queue_cleanup.

Theorem C04_iocb_followup_keeps_queue :
  let w := Iocb.run_world [Iocb.OSubmit 0 10 false (Some (1, 10, false))] in
  let w' := Iocb.confirm 10 true w in
  exists q, Iocb.lookup 10 (Iocb.w_qs w') = Some q /\ Iocb.q_queue q = [1] /\ Iocb.q_active q = None.
Proof. exact IocbFacts.confirm_keeps_queue_for_followup. Qed.
Print Assumptions C04_iocb_followup_keeps_queue.

(* the handlers can raise: a retransmitted ConfirmedRequest that meets a server sending a segmented response *)
Theorem C04_no_exn_refuted : exists s a, s_state s = SEGMENTED_RESPONSE /\ a_type a = 0 /\
  snd (s_indication a (mkH s [] 1 0 true)) = Some RuntimeErr.
Proof. exists busy_server, (mk_creq false false true (-1) (-1) 0 0 5 12 [1; 2]). vm_compute. repeat split. Qed.
Print Assumptions C04_no_exn_refuted.

(* the fixed defect: a request with a reserved max-APDU code is answered with an abort and leaves the table *)
Theorem C04_reserved_maxresp_no_residue :
  forallb (fun code =>
    let st := fst (s_idle (mk_creq false false true (-1) (-1) 0 code 5 12 [1]) (mkH fresh_server [] 0 0 true)) in
    negb (h_live st) && (s_state (h_s st) =? ABORTED)
    && match h_outs st with [Tx x] => (a_type x =? 7) && (a_invoke x =? 5) | _ => false end
    && match s_timer (h_s st) with None => true | Some _ => false end)
    [6; 7; 8; 9; 10; 11; 12; 13; 14; 15] = true.
Proof. vm_compute. reflexivity. Qed.
Print Assumptions C04_reserved_maxresp_no_residue.

(* non-vacuity: a fresh client transaction is ready; a run with an outcome exists *)
Example C04_ready_example : c_ready fresh_client.
Proof. vm_compute. repeat split. Qed.
Example C04_server_pre_example : pre_s (mkH fresh_server [] 0 0 true) /\ pre_s (mkH busy_server [] 0 0 true).
Proof. vm_compute. repeat split; discriminate. Qed.
Example C04_valid_run_example :
  let s1 := h_s (fst (c_indication (mk_creq false false false (-1) (-1) (-1) (-1) 1 12 [1; 2; 3]) (mkH fresh_client [] 0 0 true))) in
  valid_run [(3000, Timeout); (4000, Rx (mk_sack 1 12))] s1 1 0 /\ cnt_ok s1 /\ c_ready s1.
Proof.
  cbv zeta. split; [|split].
  - cbn [valid_run]. split; [lia|]. split; [exists 3000, 0; vm_compute; repeat split; congruence|]. split; [vm_compute; reflexivity|].
    vm_compute. split; [discriminate|]. split; [exists 6000, 1; repeat split; discriminate|]. repeat split.
  - vm_compute. repeat split; discriminate.
  - vm_compute. repeat split.
Qed.
Example C04_wf_request_example : wf_request (mk_creq false false true (-1) (-1) 0 9 5 12 [1]) /\ s_state fresh_server = IDLE.
Proof. vm_compute. repeat split; discriminate. Qed.
Example C04_iocb_example :
  Iocb.run_ops 2 [Iocb.OSubmit 0 10 false None; Iocb.OSubmit 1 10 false None; Iocb.OConfirm 10 true; Iocb.ORun; Iocb.OConfirm 10 false]
  = [10; 0; 20; 0; 10; 0; 10; 1; 21; 0; 3; 10; 3; 20; 1; 10; 1; 21; 1; 4; 30; 3; 1; 4; 1; 31; 0; 32; 1].
Proof. vm_compute. reflexivity. Qed.
Example C04_budget_example : cnt_ok fresh_client /\ budget fresh_client = 19.
Proof. vm_compute. repeat split; discriminate. Qed.
Example C04_life_example :
  ntoapp (c_life (mk_creq false false false (-1) (-1) (-1) (-1) 1 12 [1; 2; 3])
                 fresh_client 0 0
                 [(10, Rx (mk_sack 1 12))]) = 1.
Proof. vm_compute. reflexivity. Qed.

(* DeviceInfoCache reference counts (model Bac.DevCache): over ANY history of I-Ams (new devices, re-announcements,
   devices changing address or instance, KeyErrors of update_device_info included), transactions being created towards
   known and unknown peers, transactions finishing in any order and ServerSSM.idle upgrading a record in place: the
   reference count of every record equals the number of live transactions that hold that record *)
Theorem C04_refcount_is_live_transactions : forall ops i r,
  nth_error (DevCache.dc_recs (DevCache.ds_cache (DevCache.dsteps ops DevCache.ds_init))) i = Some r ->
  DevCache.dr_ref r = DevCache.holders i (DevCache.ds_live (DevCache.dsteps ops DevCache.ds_init)).
Proof. exact DevCacheFacts.dc_refcount_history. Qed.
Print Assumptions C04_refcount_is_live_transactions.

(* ... hence after any history the release at the end of any transaction does not raise: ClientSSM/ServerSSM.set_state
   goes on to hand the outcome to the application; and creating a transaction never raises *)
Theorem C04_release_never_raises : forall ops k,
  snd (DevCache.dstep (DevCache.DClose k) (DevCache.dsteps ops DevCache.ds_init)) = None.
Proof. exact DevCacheFacts.dc_close_never_raises_history. Qed.
Print Assumptions C04_release_never_raises.

(* no residue: when no transaction is left, no record is referenced *)
Theorem C04_refcount_zero_at_quiescence : forall ops i r,
  DevCache.ds_live (DevCache.dsteps ops DevCache.ds_init) = [] ->
  nth_error (DevCache.dc_recs (DevCache.ds_cache (DevCache.dsteps ops DevCache.ds_init))) i = Some r -> DevCache.dr_ref r = 0.
Proof. exact DevCacheFacts.dc_quiescent_history. Qed.
Print Assumptions C04_refcount_zero_at_quiescence.

(* release keeps every record in the cache under the same keys with the same contents, also when the count reaches zero
   (this cache does not evict): the limits of the peer stay known for the next transaction *)
Theorem C04_release_keeps_records : forall s k,
  let s' := fst (DevCache.dstep (DevCache.DClose k) s) in
  DevCache.dc_by_id (DevCache.ds_cache s') = DevCache.dc_by_id (DevCache.ds_cache s) /\
  DevCache.dc_by_addr (DevCache.ds_cache s') = DevCache.dc_by_addr (DevCache.ds_cache s) /\
  length (DevCache.dc_recs (DevCache.ds_cache s')) = length (DevCache.dc_recs (DevCache.ds_cache s)) /\
  forall i r, nth_error (DevCache.dc_recs (DevCache.ds_cache s)) i = Some r ->
    exists r', nth_error (DevCache.dc_recs (DevCache.ds_cache s')) i = Some r' /\
               DevCache.obs_rec (DevCache.set_ref 0 r') = DevCache.obs_rec (DevCache.set_ref 0 r).
Proof. exact DevCacheFacts.dc_close_keeps_records. Qed.
Print Assumptions C04_release_keeps_records.

(* non-vacuity: two client transactions and one server transaction share the record of peer 2 (count 3), they finish in
   another order than they began, an I-Am re-announces the peer in between; a KeyError history exists too *)
Example C04_devcache_example :
  DevCache.dc_run [DevCache.DIam 2 2 50 3; DevCache.DOpen 2; DevCache.DOpen 2; DevCache.DOpen 2; DevCache.DIam 2 2 128 3;
                   DevCache.DClose 1; DevCache.DClose 0; DevCache.DClose 0]
  = [0; 1; 2; 2; 50; 3; 0; 1; 2; 0; 1; 2; 0; 0;
     0; 1; 2; 2; 50; 3; 1; 1; 2; 0; 1; 2; 0; 1; 2; 0;
     0; 1; 2; 2; 50; 3; 2; 1; 2; 0; 1; 2; 0; 2; 2; 0; 2; 0;
     0; 1; 2; 2; 50; 3; 3; 1; 2; 0; 1; 2; 0; 3; 2; 0; 2; 0; 2; 0;
     0; 1; 2; 2; 128; 3; 3; 1; 2; 0; 1; 2; 0; 3; 2; 0; 2; 0; 2; 0;
     0; 1; 2; 2; 128; 3; 2; 1; 2; 0; 1; 2; 0; 2; 2; 0; 2; 0;
     0; 1; 2; 2; 128; 3; 1; 1; 2; 0; 1; 2; 0; 1; 2; 0;
     0; 1; 2; 2; 128; 3; 0; 1; 2; 0; 1; 2; 0; 0].
Proof. vm_compute. reflexivity. Qed.
Example C04_devcache_keyerror_example :
  exists ops, snd (DevCache.dstep (DevCache.DIam 1 13 50 3) (DevCache.dsteps ops DevCache.ds_init)) = Some KeyErr.
Proof. exists [DevCache.DIam 1 10 50 3; DevCache.DIam 2 11 50 3; DevCache.DIam 1 11 50 3; DevCache.DIam 2 12 50 3]. vm_compute. reflexivity. Qed.
