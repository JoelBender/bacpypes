(* C20 — a schedule shows the value its calendar dictates at every instant, never stale.
   Property theorems only; proofs live in Bac.CalendarFacts (about the AST-translated matchers of
   BacGen.ScheduleFns) and Bac.ScheduleFacts (about the hand model Bac.ScheduleEval of
   LocalScheduleInterpreter.eval / process_task, with the two `fix:` commits of the worktree). *)
From Bac Require Import Base PyRt Calendar CalendarFacts ScheduleEval ScheduleSpec ScheduleFacts ScheduleTz ScheduleTzDays ScheduleTzFacts.
From BacGen Require Import ScheduleFns.
Open Scope Z_scope.

(* date patterns: any/odd/even month, last/odd/even day, specific fields, day of week — on every
   calendar date of 1900..2154 the generated match_date says yes exactly on the denoted dates *)
Theorem C20_match_date_denotes : forall d p, valid_date d ->
  (match_date d p = Ok true <-> date_denotes p d).
Proof. exact match_date_denotes. Qed.
Print Assumptions C20_match_date_denotes.

(* week-of-month 1..5 / last-week classes 6..9 / any, month classes, day of week *)
Theorem C20_weeknday_denotes : forall d p, valid_date d -> wf_wnd p ->
  (match_weeknday d p = Ok true <-> wnd_denotes p d).
Proof. exact match_weeknday_denotes. Qed.
Print Assumptions C20_weeknday_denotes.

(* ranges whose ends are specific dates or unspecified (open-ended) — true of the FIXED code
   (commit "fix: match_date_range treats an unspecified start or end date as an open-ended range");
   the unfixed text matched nothing when the start date was unspecified *)
Theorem C20_range_denotes : forall d r, valid_date d -> wf_range r ->
  (match_date_range d r = Ok true <-> range_denotes r d).
Proof. exact match_date_range_denotes. Qed.
Print Assumptions C20_range_denotes.

(* the matchers never raise on a calendar date *)
Theorem C20_matchers_total : forall d, valid_date d ->
  (forall p, exists b, match_date d p = Ok b) /\ (forall w, exists b, match_weeknday d w = Ok b) /\
  (forall r, exists b, match_date_range d r = Ok b).
Proof.
  intros d Hd. repeat split; intros.
  - now apply match_date_total. - now apply match_weeknday_total. - apply match_date_range_total.
Qed.
Print Assumptions C20_matchers_total.

(* a special event's period (calendar entry or referenced calendar) is in force exactly on the
   dates it denotes *)
Theorem C20_period_denotes : forall d p, valid_date d -> wf_period p ->
  exists b, match_period d p = Ok b /\ (b = true <-> period_denotes p d).
Proof. exact match_period_denotes. Qed.
Print Assumptions C20_period_denotes.

(* the evaluated value is the one clause 12.24.4 prescribes: current (latest at-or-before t,
   non-Null) value of the highest-priority exception in force, else of the weekday list, else the
   default.  wf_sched: ascending time lists, priorities 1..16, distinct among the events in force *)
Theorem C20_eval_spec : forall c d t v n, valid_date d -> wf_sched c d ->
  eval c d t = Ok (Some (v, n)) -> in_effect c d /\ spec_value c d t v.
Proof. exact eval_spec. Qed.
Print Assumptions C20_eval_spec.

(* eval yields a value exactly inside the effective period (and never raises) *)
Theorem C20_eval_total : forall c d t, valid_date d -> wf_sched c d ->
  (in_effect c d -> exists v n, eval c d t = Ok (Some (v, n))) /\ (~ in_effect c d -> eval c d t = Ok None).
Proof. exact eval_total. Qed.
Print Assumptions C20_eval_total.

(* never stale: the value cannot change between the evaluated instant and the reported transition
   (wf_sched includes distinct priorities among the events in force — see the _refuted below) *)
Theorem C20_stable_until_next : forall c d t t' v n, valid_date d -> wf_sched c d ->
  eval c d t = Ok (Some (v, n)) -> t4_le t t' = true -> t4_lt t' n = true ->
  exists n', eval c d t' = Ok (Some (v, n')).
Proof. exact eval_stable. Qed.
Print Assumptions C20_stable_until_next.

(* with two special events of equal priority in force the faithful model reports 10:00 as the
   next transition at 08:30 although the value changes at 09:00 (known finding C20-equal-priority) *)
Theorem C20_stable_until_next_refuted : exists c d t t' v n,
  valid_date d /\ eval c d t = Ok (Some (v, n)) /\ t4_le t t' = true /\ t4_lt t' n = true /\
  forall n', eval c d t' <> Ok (Some (v, n')).
Proof. exact eval_stable_refuted. Qed.
Print Assumptions C20_stable_until_next_refuted.

(* the reported transition is strictly ahead and at the latest the next midnight *)
Theorem C20_next_ahead : forall c d t v n, valid_date d -> wf_sched c d -> valid_time t ->
  eval c d t = Ok (Some (v, n)) -> t4_lt t n = true /\ t4_le n next_day = true.
Proof. exact eval_next_ahead. Qed.
Print Assumptions C20_next_ahead.

(* one timer firing (process_task, FIXED code: commit "fix: schedule interpreter keeps its timer
   running outside the effective period"): never raises, shows the prescribed value inside the
   effective period, keeps the old one outside, and re-arms strictly later the same day or at the
   next midnight.  good_sched: entry times valid with whole seconds *)
Theorem C20_step_rearms : forall c d t pv, valid_date d -> valid_time t -> wf_sched c d -> good_sched c ->
  exists pv' d' t', step c d t pv = Ok (pv', (d', t')) /\
    ((d' = d /\ t4_lt t t' = true /\ valid_time t') \/ (d' = next_date d /\ t' = (0, 0, 0, 0))) /\
    (in_effect c d -> spec_value c d t pv') /\ (~ in_effect c d -> pv' = pv).
Proof. exact step_rearms. Qed.
Print Assumptions C20_step_rearms.

(* the instant the timer is armed for reads, on the (constant-offset) wall clock, exactly the
   reported transition — or 00:00:00 of the next day for the end-of-day marker 24:00.  This is what
   ScheduleSpec.dtt_requirement asks for under a constant offset; zones whose offset changes are
   C20_arm_reading_any_zone / C20_step_any_zone below, about the model ScheduleTz of time.mktime *)
Theorem C20_arm_reading : forall d n, arm_ok n ->
  has255 n = false /\
  ((n = next_day /\ normalise d n = (next_date d, (0, 0, 0, 0))) \/ (n <> next_day /\ normalise d n = (d, n))).
Proof. exact normalise_arm. Qed.
Print Assumptions C20_arm_reading.

(* the timer-driven life: any number of firings, across days and across the edges of the effective
   period, none fails and each re-arms (dates stay within 1900..2154) *)
Theorem C20_runs_across_days : forall fuel c d t pv,
  (forall k, (k <= fuel)%nat -> valid_date (nth_date k d) /\ wf_sched c (nth_date k d)) ->
  valid_time t -> good_sched c ->
  length (run fuel c d t pv) = fuel /\ Forall (fun r => exists x, r = Ok x) (run fuel c d t pv).
Proof. exact run_across_days. Qed.
Print Assumptions C20_runs_across_days.

Theorem C20_next_date_valid : forall d, valid_date d ->
  (let '(y, m, dd, _) := d in (y, m, dd) <> (254, 12, 31)) -> valid_date (next_date d).
Proof. exact next_date_valid. Qed.
Print Assumptions C20_next_date_valid.

(* ---- the wall clock in zones whose UTC offset changes (daylight saving): ScheduleTz models
   Date.now/Time.now (localtime_z) and datetime_to_time = time.mktime(..., isdst=-1) (datetime_to_time_z)
   for ANY offset function that takes two values; tied to CPython/libc by the `now-z`, `dtt-z`, `run-z`,
   `civil` correspondence cases under POSIX DST rules.  This generalises C20_arm_reading (constant offset). *)

(* datetime_to_time applied to the local reading of any instant of 1900..2154 returns an instant with
   exactly that local reading: what ScheduleSpec.dtt_requirement asks for, on those instants, in every
   two-offset zone *)
Theorem C20_arm_reading_any_zone : forall off o1 o2 e, two_offsets off o1 o2 -> in_years off e ->
  exists a, datetime_to_time_z off o1 o2 (fst (localtime_z off e)) (snd (localtime_z off e)) = Ok a /\
            localtime_z off a = localtime_z off e.
Proof. exact dtt_reads_back. Qed.
Print Assumptions C20_arm_reading_any_zone.

(* one firing of process_task at any instant in any two-offset zone: never raises, shows the value
   prescribed for the LOCAL date and time, and arms the timer for the instant whose local wall clock
   is the reported transition (whenever an instant with that reading exists; strictly later when the
   offset is the same at both instants) *)
Theorem C20_step_any_zone : forall off o1 o2 c e pv, two_offsets off o1 o2 -> in_years off e ->
  wf_sched c (fst (localtime_z off e)) -> good_sched c ->
  exists pv' a n, let d := fst (localtime_z off e) in let t := snd (localtime_z off e) in
    step_z off o1 o2 c e pv = Ok (pv', a) /\
    (in_effect c d -> spec_value c d t pv') /\ (~ in_effect c d -> pv' = pv) /\
    t4_lt t n = true /\ arm_ok n /\ a = mktime_z off o1 o2 (wall_of d n) /\
    ((exists e', wall off e' = wall_of d n) -> wall off a = wall_of d n) /\
    (wall off a = wall_of d n -> off a = off e -> e < a).
Proof. exact step_z_rearms. Qed.
Print Assumptions C20_step_any_zone.

(* the calendar behind it, for every day number of 1900-01-01..2154-12-31: day numbers and civil
   dates are inverse, every day number is a valid BACnet date, consecutive day numbers are successor dates *)
Theorem C20_day_numbers : forall z, day_in_range z ->
  valid_date (date_of_days z) /\ date_of_days (z + 1) = next_date (date_of_days z) /\
  (let '(y, m, d) := civil_from_days z in days_from_civil y m d = z).
Proof.
  intros z H. split; [now apply date_of_days_valid|]. split; [apply date_of_days_next|].
  pose proof (civil_from_days_date z) as R. destruct (civil_from_days z) as [[y m] d]. apply R.
Qed.
Print Assumptions C20_day_numbers.

(* a conversion through the STANDARD offset only (calendar.timegm(tuple) + time.timezone) does not meet
   the requirement: witness EST5EDT, 2024-07-01 08:00:00 local is converted to an instant reading 09:00:00 *)
Theorem C20_arm_std_offset_only_refuted : exists off o1 o2 e, two_offsets off o1 o2 /\ in_years off e /\
  localtime_z off (dtt_std_only o1 (fst (localtime_z off e)) (snd (localtime_z off e))) <> localtime_z off e.
Proof. exact dtt_std_only_refuted. Qed.
Print Assumptions C20_arm_std_offset_only_refuted.

(* non-vacuity: the zone EST5EDT of 2024 has two offsets; summer reading, skipped hour (02:30 -> 03:30 EDT),
   repeated hour (01:30 -> the daylight reading), 24:00 -> next local midnight *)
Example C20_zone_example :
  two_offsets est5edt_2024 (-18000) (-14400) /\ in_years est5edt_2024 1719835200 /\
  localtime_z est5edt_2024 1719835200 = ((124, 7, 1, 1), (8, 0, 0, 0)) /\
  datetime_to_time_z est5edt_2024 (-18000) (-14400) (124, 7, 1, 1) (17, 0, 0, 0) = Ok 1719867600 /\
  localtime_z est5edt_2024 1719867600 = ((124, 7, 1, 1), (17, 0, 0, 0)) /\
  step_z est5edt_2024 (-18000) (-14400) ex_sched 1719835200 99 = Ok (3, 1719867600).
Proof.
  split; [exact est5edt_2024_two|]. split; [unfold in_years, day_in_range, day_lo, day_hi; vm_compute; split; discriminate|].
  vm_compute. repeat split; reflexivity.
Qed.

(* non-vacuity: a concrete schedule (week-and-day exception, calendar reference with an
   odd-month-last-day pattern and a range, weekly list, open-ended effective period) meets
   wf_sched / good_sched on every date, and evaluates as prescribed *)
Example C20_wf_example : (forall d, wf_sched ex_sched d) /\ good_sched ex_sched.
Proof. split; [exact ex_sched_wf | exact ex_sched_good]. Qed.
Example C20_eval_example :
  valid_date (120, 1, 27, 1) /\                                    (* Monday 2020-01-27: last Monday *)
  eval ex_sched (120, 1, 27, 1) (7, 30, 0, 0) = Ok (Some (7, (12, 0, 0, 0))) /\
  eval ex_sched (120, 1, 27, 1) (12, 0, 0, 0) = Ok (Some (5, (24, 0, 0, 0))) /\
  eval ex_sched (120, 2, 3, 1) (9, 0, 0, 0) = Ok (Some (3, (17, 0, 0, 0))) /\
  eval ex_sched (119, 12, 31, 2) (9, 0, 0, 0) = Ok None /\
  canon_run (run 3 ex_sched (119, 12, 31, 2) (9, 0, 0, 0) 99) =
    [0; 99; 120; 1; 1; 3; 0; 0; 0; 0;  0; 5; 120; 1; 2; 4; 0; 0; 0; 0;  0; 5; 120; 1; 3; 5; 0; 0; 0; 0].
Proof. split; [apply valid_dateb_spec; vm_compute; reflexivity|]. vm_compute. repeat split; reflexivity. Qed.
Example C20_denotes_example :
  date_denotes (255, 13, 32, 255) (120, 1, 31, 5) /\ wnd_denotes (255, 6, 1) (120, 1, 27, 1) /\
  range_denotes ((255, 255, 255, 255), (120, 6, 30, 255)) (120, 1, 27, 1).
Proof.
  unfold date_denotes, wnd_denotes, range_denotes, year_denotes, month_denotes, day_denotes, dow_denotes,
    week_denotes, unspecified, ordinal. cbn. repeat split; auto; try lia.
  all: try (right; left; split; reflexivity).
  all: try (right; right; split; [lia | vm_compute; split; discriminate]).
Qed.
