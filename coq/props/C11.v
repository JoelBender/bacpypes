(* C11 — concurrent transactions never cross: replies reach only the request they answer.
   Property theorems only; model Bac.Ssm / Bac.SsmWorld; proofs in Bac.SsmFacts / SsmC11a (the allocator), SsmC11 / SsmC11s
   (delivery in the world: what matches nothing, a client transaction, a server transaction), SsmC11p (the server bit). *)
From Bac Require Import Base PyRt Ssm SsmFacts SsmC04a SsmC11 SsmC11a SsmC11s SsmC11p SsmWorld.
Open Scope Z_scope.

(* the id handed out is used by no live transaction to that peer, and it is an octet *)
Theorem C11_fresh_id : forall next peer live id next',
  get_next_invoke_id next peer live = (Ok id, next') ->
  forall t, In t live -> ~ (s_invoke t = id /\ s_peer t = peer).
Proof. exact get_next_invoke_id_fresh. Qed.
Print Assumptions C11_fresh_id.

Theorem C11_fresh_id_range : forall fuel initial next peer live id next',
  0 <= next < 256 -> alloc_id fuel initial next peer live = (Ok id, next') -> 0 <= id < 256 /\ 0 <= next' < 256.
Proof. exact alloc_id_range. Qed.
Print Assumptions C11_fresh_id_range.

(* the search terminates: the 257 units of fuel the model gives it are never used up (it raises RuntimeError after one lap) *)
Theorem C11_fresh_id_terminates : forall next peer live, 0 <= next < 256 ->
  fst (get_next_invoke_id next peer live) <> Err OutOfFuel.
Proof.
  intros. unfold get_next_invoke_id. apply alloc_id_fuel; try lia.
Qed.
Print Assumptions C11_fresh_id_terminates.

(* the allocator succeeds as soon as any of the 255 ids it probes — next, next+1, ..., next+254 modulo 256 — is free for that
   peer, wherever the live ids lie (runs of live ids across the wrap 255 -> 0 included), and the id it returns is not live *)
Theorem C11_fresh_id_succeeds : forall next peer live k, 0 <= next < 256 -> 0 <= k < 255 ->
  existsb (tr_matches ((next + k) mod 256) peer) live = false ->
  exists id nx, get_next_invoke_id next peer live = (Ok id, nx) /\
                (forall t, In t live -> ~ (s_invoke t = id /\ s_peer t = peer)).
Proof. exact get_next_invoke_id_succeeds. Qed.
Print Assumptions C11_fresh_id_succeeds.

(* a reply, server-side segment-ack or server abort that matches no live client transaction — other peer, other id, or
   after completion — leaves the whole world unchanged *)
Theorem C11_late_reply_ignored : forall src dst a w n,
  to_client_side a = true -> get_node dst (w_nodes w) = Some n ->
  find_tr (a_invoke a) src (n_ctr n) O = None -> deliver src dst a w = w.
Proof.
  intros src dst a w n Hc Hn Hf. unfold deliver. rewrite Hn.
  destruct (c_raw (n_cfg n)); [reflexivity|].
  destruct (to_client_side_type a Hc) as [-> ->]. rewrite Hc, Hf. reflexivity.
Qed.
Print Assumptions C11_late_reply_ignored.

Theorem C11_stray_client_pdu_ignored : forall src dst a w n,
  to_client_side a = false -> (a_type a = 4 \/ a_type a = 7) -> get_node dst (w_nodes w) = Some n ->
  find_tr (a_invoke a) src (n_str n) O = None -> deliver src dst a w = w.
Proof. exact deliver_to_server_no_match. Qed.
Print Assumptions C11_stray_client_pdu_ignored.

(* one that does match is applied to exactly that transaction (equal peer and id): only that entry of that node's client
   table is replaced or removed; its server table and every other node stay as they were *)
Theorem C11_rx_touches_only_match_client : forall src dst a w n i t,
  to_client_side a = true -> get_node dst (w_nodes w) = Some n -> c_raw (n_cfg n) = false ->
  find_tr (a_invoke a) src (n_ctr n) O = Some (i, t) -> w_chains w = [] ->
  s_peer t = src /\ s_invoke t = a_invoke a /\
  exists l', w_nodes (deliver src dst a w) = put_node (mkN (n_cfg n) (n_next n) l' (n_str n)) (w_nodes w) /\
             ((exists t', l' = replace_nth i t' (n_ctr n)) \/ l' = remove_nth i (n_ctr n)).
Proof. exact deliver_reply_only_match. Qed.
Print Assumptions C11_rx_touches_only_match_client.

(* the serving side: a request (first frame, retransmission or further segment), a client's segment-ack or a client's abort
   changes only the server transaction with the sender's address and the PDU's invoke id — created, replaced or removed,
   also by the application's answer given inside the same step.  Every other entry of that server table (`others`), the
   client table and configuration of that node, and every other node are exactly as before.  no_flush: the scripted server
   applications do not give parked answers of OTHER requests from inside an indication (that would be the application, not the
   stack, touching other transactions; such applications are exercised by the correspondence and the direct predicate).  ctx_ok (the context a
   transaction reassembles carries the transaction's own invoke id) is an invariant: C11_ctx_ok_* below. *)
Theorem C11_rx_touches_only_match : forall src dst a w n,
  to_client_side a = false -> (a_type a = 0 \/ a_type a = 4 \/ a_type a = 7) ->
  get_node dst (w_nodes w) = Some n ->
  (forall t, In t (n_str n) -> ctx_ok t) -> no_flush (w_reqs w) ->
  node_ok_after (a_invoke a) src dst w (deliver src dst a w).
Proof. exact deliver_server_only_match. Qed.
Print Assumptions C11_rx_touches_only_match.

Theorem C11_answer_touches_only_match : forall j w, node_ok_after (j_invoke j) (j_to j) (j_node j) w (respond j w).
Proof. exact respond_ok. Qed.
Print Assumptions C11_answer_touches_only_match.

(* the hypothesis ctx_ok is an invariant: a fresh transaction has no context; ServerSSM.indication keeps it for the
   transaction the PDU is dispatched to, the application's answer when it carries the transaction's invoke id
   (sap_confirmation looks the transaction up by that id) *)
Theorem C11_ctx_ok_new : forall c peer client, ctx_ok (new_ssm c peer client).
Proof. intros c peer client x H. discriminate H. Qed.
Print Assumptions C11_ctx_ok_new.

Theorem C11_ctx_ok_frame : forall a st, ctx_ok (h_s st) ->
  (s_state (h_s st) = IDLE /\ s_ctx (h_s st) = None) \/ (s_state (h_s st) <> IDLE /\ s_invoke (h_s st) = a_invoke a) ->
  ctx_ok (h_s (fst (s_indication a st))).
Proof. exact s_indication_ctx_ok. Qed.
Print Assumptions C11_ctx_ok_frame.

Theorem C11_ctx_ok_answer : forall x st, ctx_ok (h_s st) -> a_invoke x = s_invoke (h_s st) ->
  ctx_ok (h_s (fst (s_confirmation x st))).
Proof.
  intros x st Hok Hi. destruct (s_confirmation_keeps_key _ _ x st (conj eq_refl eq_refl)) as (_ & Hk).
  unfold ctx_ok in *. rewrite Hk, <- Hi. rewrite <- Hi in Hok. exact (s_confirmation_keeps_ctx x st Hok).
Qed.
Print Assumptions C11_ctx_ok_answer.

Theorem C11_other_nodes_untouched : forall n ns addr, addr <> c_addr (n_cfg n) -> get_node addr (put_node n ns) = get_node addr ns.
Proof. exact get_put_other. Qed.
Print Assumptions C11_other_nodes_untouched.

(* the lookup is by both keys: whatever it returns has that peer and that id *)
Theorem C11_same_id_other_peer_independent : forall i p l k j t, find_tr i p l k = Some (j, t) -> s_peer t = p /\ s_invoke t = i.
Proof. exact find_tr_peer. Qed.
Print Assumptions C11_same_id_other_peer_independent.

(* a retransmitted request that meets its transaction awaiting the application is dropped: not indicated again, nothing sent *)
Theorem C11_duplicate_request_not_reindicated : forall src dst a w n i t,
  a_type a = 0 -> get_node dst (w_nodes w) = Some n -> c_raw (n_cfg n) = false ->
  find_tr (a_invoke a) src (n_str n) O = Some (i, t) -> s_state t = AWAIT_RESPONSE ->
  w_trace (deliver src dst a w) = w_trace w /\ w_inflight (deliver src dst a w) = w_inflight w /\
  w_delayed (deliver src dst a w) = w_delayed w.
Proof.
  intros src dst a w n i t Ht Hn Hraw Hf Hs. unfold deliver. rewrite Hn, Hraw, Ht. cbn [Z.eqb]. rewrite Hf.
  unfold run_on. rewrite duplicate_request_dropped by assumption. cbn [h_live h_s h_outs h_ctr rev process_outs].
  repeat split.
Qed.
Print Assumptions C11_duplicate_request_not_reindicated.

(* sender side: the server bit of an Abort / SegmentAck names the role that sent it.  Whatever a CLIENT transaction
   puts on the wire while handling a reply (c_confirmation), a submission or whole-request retry (c_indication) or a time-out
   (c_process_task) — giving up with invalidApduInThisState included — carries srv = 0, so the peer looks it up among its
   server transactions and never among its own client transactions with the same (peer, id) *)
Theorem C11_client_frames_polarity : forall a st x,
  In (Tx x) (h_outs (fst (c_confirmation a st))) \/ In (Tx x) (h_outs (fst (c_indication a st))) \/ In (Tx x) (h_outs (fst (c_process_task st))) ->
  a_type x = 4 \/ a_type x = 7 -> In (Tx x) (h_outs st) \/ (a_srv x = false /\ to_client_side x = false).
Proof. exact client_frames_polarity. Qed.
Print Assumptions C11_client_frames_polarity.

(* ... and a SERVER transaction (frame from the client, answer of the application, time-out) sends them with srv = 1, or sends
   the very PDU it was handed back unchanged (the client's Abort echoed by segmented_request / segmented_response; the
   application's own Abort) *)
Theorem C11_server_frames_polarity : forall a st x,
  In (Tx x) (h_outs (fst (s_indication a st))) \/ In (Tx x) (h_outs (fst (s_confirmation a st))) \/ In (Tx x) (h_outs (fst (s_process_task st))) ->
  a_type x = 4 \/ a_type x = 7 -> In (Tx x) (h_outs st) \/ x = a \/ (a_srv x = true /\ to_client_side x = true).
Proof. exact server_frames_polarity. Qed.
Print Assumptions C11_server_frames_polarity.

Example C11_client_abort_example :
  h_outs (fst (c_confirmation (mk_cack true true 1 2 7 12 [1; 2]) waiting_client)) = [ToApp (mk_abort false 7 2); Tx (mk_abort false 7 2)].
Proof. exact client_abort_example. Qed.

Example C11_alloc_example :
  fst (get_next_invoke_id 255 5 [set_invoke_f 255 (new_ssm (mkNode 1 50 3 64 3 3000 1500 2 3000 false []) 5 true);
                                 set_invoke_f 0 (new_ssm (mkNode 1 50 3 64 3 3000 1500 2 3000 false []) 5 true)]) = Ok 1.
Proof. vm_compute. reflexivity. Qed.
Example C11_server_side_example :
  let w := init_world [mkNode 1 50 3 64 3 3000 1500 2 3000 false []; mkNode 2 50 3 64 3 3000 1500 2 3000 false []] [] [] (-1) [] in
  exists n, get_node 2 (w_nodes w) = Some n /\ (forall t, In t (n_str n) -> ctx_ok t) /\
            to_client_side (mk_creq false false true (-1) (-1) 0 0 7 12 [1]) = false.
Proof. eexists. vm_compute. repeat split. intros t []. Qed.
Example C11_wrap_run_example :
  let mk i := set_invoke_f i (mkSsm 5 (-1) IDLE None 0 0 0 0 false 0 0 None 3 3000 1500 3 (Some 64) 50 false None None 2 3000) in
  get_next_invoke_id 255 5 [mk 255; mk 0] = (Ok 1, 2) /\ get_next_invoke_id 254 5 [mk 254; mk 255; mk 0] = (Ok 1, 2).
Proof. exact wrap_run_example. Qed.
Example C11_reply_kinds : forallb to_client_side [mk_sack 1 12; mk_cack false false 0 0 1 12 []; mk_error 1 12 []; mk_reject 1 3;
                                                 mk_abort true 1 4; mk_segack false true 1 0 2] = true.
Proof. vm_compute. reflexivity. Qed.
