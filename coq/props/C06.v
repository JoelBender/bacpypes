(* C06 — routers deliver each packet once to exactly the addressed stations.
   Property theorems only; the model is Bac.Net and Bac.NetNum (no proofs), the proofs live in the other Bac.Net* files.
   Local theorems hold for EVERY node state, adapter, and arriving frame of the model.  `Fwd` marks the copies made
   by the forwarding section of process_npdu (netservice.py:607-676), `Tx` every other frame a node emits. *)
From Bac Require Import Base Net NetFacts NetTerm NetTerm2 NetOnce NetRoute NetArrive NetLocal NetBcast NetTree NetFlood NetRound NetCert NetLbc NetAnn NetPark NetNum NetNumFacts NetNumInv.
Open Scope N_scope.

(* each router hop lowers the hop count by exactly one, and keeps payload and message type *)
Theorem C06_hop_decrement : forall n i src dst p n' acts j d q,
  process_npdu n i src dst p = (n', acts) -> In (Fwd j d q) acts ->
  n_hop p <> 0 /\ n_hop q + 1 = n_hop p /\ n_data q = n_data p /\ n_msg q = n_msg p.
Proof. exact thm_hop_decrement. Qed.
Print Assumptions C06_hop_decrement.

(* nothing is forwarded once the count is exhausted *)
Theorem C06_no_forward_at_zero : forall n i src dst p n' acts,
  process_npdu n i src dst p = (n', acts) -> n_hop p = 0 -> forall j d q, ~ In (Fwd j d q) acts.
Proof.
  intros n i src dst p n' acts H H0 j d q Hin.
  destruct (thm_hop_decrement _ _ _ _ _ _ _ _ _ _ H Hin) as [A _]. contradiction.
Qed.
Print Assumptions C06_no_forward_at_zero.

(* a frame without DADR (local unicast / local broadcast) is never forwarded: it stays on its network *)
Theorem C06_local_stays_local : forall n i src dst p n' acts,
  process_npdu n i src dst p = (n', acts) -> n_dadr p = None -> forall j d q, ~ In (Fwd j d q) acts.
Proof.
  intros n i src dst p n' acts H H0 j d q Hin.
  destruct (process_npdu_fwd_origin _ _ _ _ _ _ _ _ _ _ H Hin) as (ai & dd & _ & Hd & _). congruence.
Qed.
Print Assumptions C06_local_stays_local.

(* "not back onto the arrival network": FALSE of the code in one situation — the cache names a next-hop
   router on the arrival network.  Witness: router with ports (net 1, net 2) that has heard a router 0x0b on net 1
   announce network 5, and receives on net 1 a packet for network 5. *)
Theorem C06_not_back_refuted : exists n i src dst p j d q,
  In (Fwd j d q) (snd (process_npdu n i src dst p)) /\ j = i.
Proof.
  exists (mkNode [mkAd (Some 1) (Some [10]); mkAd (Some 2) (Some [10])] false [((Some 1, 5), [11])] []),
         0%nat, [1], (LStation [10]), (mkNpdu (Some (DStation 5 [7])) None 255 None [16; 99; 1]),
         0%nat, (LStation [11]), (mkNpdu (Some (DStation 5 [7])) (Some (1, [1])) 254 None [16; 99; 1]).
  vm_compute. split; [left; reflexivity|reflexivity].
Qed.
Print Assumptions C06_not_back_refuted.

(* ... and that is the only situation: a forwarded copy leaves on another adapter, or it is a routed-on unicast
   to the router the cache records for the destination network on the arrival network *)
Theorem C06_not_back_partial : forall n i src dst p n' acts j d q,
  process_npdu n i src dst p = (n', acts) -> In (Fwd j d q) acts ->
  j <> i \/
  exists ai dnet m, nth_adapter n' i = Some ai /\
    (n_dadr p = Some (DBcast dnet) \/ exists mm, n_dadr p = Some (DStation dnet mm)) /\
    find_net n' (Some dnet) = None /\ cache_get (rcache n') (a_net ai) dnet = Some m /\
    d = LStation m /\ n_dadr q = n_dadr p.
Proof. exact thm_not_back. Qed.
Print Assumptions C06_not_back_partial.

Theorem C06_not_back_global_broadcast : forall n i src dst p n' acts j d q,
  process_npdu n i src dst p = (n', acts) -> In (Fwd j d q) acts -> n_dadr p = Some DGlobal -> j <> i.
Proof.
  intros. destruct (thm_not_back _ _ _ _ _ _ _ _ _ _ H H0) as [Hj|Hj]; [assumption|].
  destruct Hj as (ai & dnet & m & _ & [Hd|[mm Hd]] & _); congruence.
Qed.
Print Assumptions C06_not_back_global_broadcast.

Theorem C06_not_back_last_leg : forall n i src dst p n' acts j d q,
  process_npdu n i src dst p = (n', acts) -> In (Fwd j d q) acts -> n_dadr q = None -> j <> i.
Proof.
  intros. destruct (thm_not_back _ _ _ _ _ _ _ _ _ _ H H0) as [Hj|Hj]; [assumption|].
  destruct Hj as (ai & dnet & m & _ & [Hd|[mm Hd]] & _ & _ & _ & Hq); congruence.
Qed.
Print Assumptions C06_not_back_last_leg.

Theorem C06_not_back_unless_cached : forall n i src dst p n' acts j d q,
  process_npdu n i src dst p = (n', acts) -> In (Fwd j d q) acts ->
  (forall ai dnet, nth_adapter n' i = Some ai -> cache_get (rcache n') (a_net ai) dnet = None) -> j <> i.
Proof.
  intros. destruct (thm_not_back _ _ _ _ _ _ _ _ _ _ H H0) as [Hj|Hj]; [assumption|].
  destruct Hj as (ai & dnet & m & Ha & _ & _ & Hc & _). rewrite (H1 _ _ Ha) in Hc. discriminate.
Qed.
Print Assumptions C06_not_back_unless_cached.

(* the SADR of a forwarded copy is the one received, or (arrival network, link source) when there was none:
   it names the originator's network and station *)
Theorem C06_sadr_names_originator : forall n i src dst p n' acts j d q,
  process_npdu n i src dst p = (n', acts) -> In (Fwd j d q) acts ->
  exists ai inet, nth_adapter n i = Some ai /\ a_net ai = Some inet /\
                  n_sadr q = Some (match n_sadr p with Some s => s | None => (inet, src) end).
Proof.
  intros. destruct (process_npdu_fwd_origin _ _ _ _ _ _ _ _ _ _ H H0) as (ai & dd & Ha & _ & Hf).
  apply forward_fwd in Hf. destruct Hf as (inet & _ & Hi & Hq & _).
  exists ai, inet. do 2 (split; [assumption|]). destruct Hq; subst q; reflexivity.
Qed.
Print Assumptions C06_sadr_names_originator.

(* what reaches the application: the unchanged payload of an application-layer frame; a remote unicast only at
   the node whose local adapter has exactly that network and address; a remote broadcast only on its target
   network; a frame without DADR only on the local adapter; the source shown is the SADR when there is one *)
Theorem C06_local_unicast_only_addressee : forall n i src dst p n' acts s d x,
  process_npdu n i src dst p = (n', acts) -> In (Up s d x) acts ->
  exists ai la, nth_adapter n i = Some ai /\ nth_adapter n (local_idx n) = Some la /\
    x = n_data p /\ n_msg p = None /\ has_app n = true /\ s = shown_source n i ai src p /\
    match n_dadr p with
    | None => i = local_idx n
    | Some (DStation dnet m) => a_net la = Some dnet /\ a_mac la = Some m
    | Some (DBcast dnet) => a_net la = Some dnet
    | Some DGlobal => True
    end.
Proof.
  intros n i src dst p n' acts s d x H Hin.
  destruct (process_npdu_up _ _ _ _ _ _ _ _ _ _ H Hin) as (ai & la & A & B & C & D & E & F & G & _). exists ai, la. auto 8.
Qed.
Print Assumptions C06_local_unicast_only_addressee.

(* the LAN: a unicast frame is processed only by the port it names; a broadcast never by its sender *)
Theorem C06_lan_unicast_only_addressee : forall wmac f m,
  f_dst f = LStation m -> accepts wmac f = true -> wmac = m.
Proof. exact thm_lan_unicast. Qed.
Print Assumptions C06_lan_unicast_only_addressee.

Theorem C06_lan_no_echo : forall wmac f, f_dst f = LBcast -> f_src f = wmac -> accepts wmac f = false.
Proof. exact thm_lan_no_echo. Qed.
Print Assumptions C06_lan_no_echo.

(* one arriving frame is handed up at most once *)
Theorem C06_delivered_at_most_once : forall n i src dst p n' acts,
  process_npdu n i src dst p = (n', acts) -> (count_up acts <= 1)%nat.
Proof. exact process_npdu_up_once. Qed.
Print Assumptions C06_delivered_at_most_once.

(* apart from forwarded copies a node emits only network-layer messages and packets it had parked itself *)
Theorem C06_payload_leaves_only_forwarded_or_parked : forall n i src dst p n' acts j d q,
  process_npdu n i src dst p = (n', acts) -> In (Tx j d q) acts -> n_msg q <> None \/ parked n q.
Proof. exact process_npdu_tx. Qed.
Print Assumptions C06_payload_leaves_only_forwarded_or_parked.

(* path discovery: the announcement for network d releases the packets parked for d, each exactly once and in
   order, to the announcing router; nothing remains parked for d *)
Theorem C06_pending_released_once : forall n i ai src dst d l n' acts,
  nth_adapter n i = Some ai -> modelled_config n = true -> d < 65536 ->
  pending_wf (pending n) -> pending_get (pending n) d = Some l ->
  process_npdu n i src dst (i_am [d]) = (n', acts) ->
  acts = (if is_router n then map (fun j => Tx j LBcast (i_am [d])) (other_ports n i) else [])
         ++ map (fun q => Tx i (LStation src) q) l
  /\ pending_get (pending n') d = None /\ pending_wf (pending n').
Proof. exact i_am_releases_parked. Qed.
Print Assumptions C06_pending_released_once.

(* ... and for a burst: a node that knows no path to network dnet is handed several packets for it back to back
   (unicasts SUni m data, remote broadcasts SBc data).  The first starts the discovery, all are parked.  When the
   announcement for dnet arrives, the node transmits the relays (if it is a router) and then every parked packet —
   those parked earlier, then the burst in submission order — each exactly once, to the announcing router, and each
   WITH the DADR it was submitted with: sub_npdu dnet s is (DStation dnet m | DBcast dnet), hop count 255, no SADR,
   payload unchanged.  Nothing remains parked for dnet. *)
Theorem C06_pending_released_once_with_dadr : forall n la dnet s0 subs i ai src dst n'' acts,
  nth_adapter n (local_idx n) = Some la -> modelled_config n = true ->
  optN_eqb (Some dnet) (a_net la) = false -> find_path n dnet = None ->
  dnet < 65536 -> pending_wf (pending n) -> nth_adapter n i = Some ai ->
  process_npdu (submit_all n dnet (s0 :: subs)) i src dst (i_am [dnet]) = (n'', acts) ->
  acts = (if is_router n then map (fun j => Tx j LBcast (i_am [dnet])) (other_ports n i) else [])
         ++ map (fun q => Tx i (LStation src) q) (parked_for n dnet ++ map (sub_npdu dnet) (s0 :: subs))
  /\ pending_get (pending n'') dnet = None /\ pending_wf (pending n'').
Proof. exact burst_released_once_with_dadr. Qed.
Print Assumptions C06_pending_released_once_with_dadr.

(* termination of forwarding, per step and for every destination kind: every copy made has a strictly smaller
   hop count and at most (number of adapters + 1) copies are made *)
Theorem C06_forwarding_step_decreases : forall n i src dst p n' acts,
  process_npdu n i src dst p = (n', acts) ->
  (length (filter is_fwd acts) <= S (length (adapters n)))%nat /\
  forall j d q, In (Fwd j d q) acts -> n_hop q < n_hop p.
Proof.
  intros n i src dst p n' acts H. split; [exact (thm_fanout _ _ _ _ _ _ _ H)|].
  intros j d q Hin. destruct (thm_hop_decrement _ _ _ _ _ _ _ _ _ _ H Hin) as (_ & E & _).
  rewrite <- E. apply N.lt_add_pos_r. reflexivity.
Qed.
Print Assumptions C06_forwarding_step_decreases.

(* ... and globally: on EVERY topology (cycles, wrong or looping routes included), if the frames in flight are
   application-layer messages and every router has *some* path — a directly connected network or a cached next
   hop — for each remote network they are addressed to (so that no path discovery starts), the internetwork
   reaches quiescence.  Measure: sum over the frames in flight of K^(hop+1) (1 for last-leg frames),
   K = 1 + max LAN size * (1 + max adapters).  The hypothesis is preserved by the run because learning from
   SADRs never removes a cache entry. *)
Theorem C06_forwarding_terminates : forall w,
  Forall app_frame (queue w) ->
  (forall f d wn, In f (queue w) -> target (f_npdu f) = Some d -> In wn (nodes w) -> routable (w_node wn) d) ->
  exists k, queue (run k w) = [].
Proof. exact forwarding_terminates. Qed.
Print Assumptions C06_forwarding_terminates.

(* at most once, globally, for unicasts, on EVERY topology: a link-unicast application frame (routed towards a
   remote station, or on its last leg) that is alone in flight never multiplies, and over the whole run at most
   one PDU is handed to any application (and then the run is over).  Hypotheses: distinct link addresses on each
   LAN; every router has some path for the destination network.  Together with
   C06_local_unicast_only_addressee this is "the addressed station and nobody else, at most once"; that it does
   arrive needs correct caches on a loop-free topology (C06_tree_unicast_once below). *)
Theorem C06_unicast_at_most_once : forall k w f,
  queue w = [f] -> uni_frame f -> lans_distinct (lans w) (nodes w) ->
  (forall d, target (f_npdu f) = Some d -> all_routable (nodes w) d) ->
  exists osn, trace (run k w) = osn ++ trace w /\ (ups osn <= 1)%nat /\
              (length (queue (run k w)) <= 1)%nat /\
              (ups osn = 1%nat -> queue (run k w) = []).
Proof. exact unicast_at_most_once. Qed.
Print Assumptions C06_unicast_at_most_once.

(* a local broadcast stays on its network, each recipient at most once — globally, on every topology in which no
   node has two ports on one LAN: a frame without DADR (local unicast / local broadcast / last leg of a routed
   packet or remote broadcast) that is alone in flight is gone after one step with nothing new in flight, and the
   deliveries it caused went to pairwise different nodes attached to that LAN *)
Theorem C06_local_frame_stays_once : forall w f,
  queue w = [f] -> n_dadr (f_npdu f) = None -> n_msg (f_npdu f) = None ->
  NoDup (map fst (lan_members (lans w) (f_lan f))) ->
  exists w' osn, step w = Some w' /\ queue w' = [] /\ trace w' = osn ++ OFrame f :: trace w /\
                 NoDup (hearers osn) /\
                 (forall x, In x (hearers osn) -> In x (map fst (lan_members (lans w) (f_lan f)))).
Proof. exact local_frame_dies. Qed.
Print Assumptions C06_local_frame_stays_once.

(* the mechanism that stops a packet which has gone round a cycle back to a router of its source network *)
Theorem C06_spoof_dropped : forall n i src dst p snet sm j,
  n_sadr p = Some (snet, sm) -> find_net n (Some snet) = Some j ->
  modelled_config n = true -> nth_adapter n i <> None ->
  process_npdu n i src dst p = (n, []).
Proof. exact spoof_dropped. Qed.
Print Assumptions C06_spoof_dropped.

(* reply routability, first hop (PARTIAL for C06_reply_routable: the remaining hops are the tree theorems):
   a station that was handed a routed packet showing source (sn, sm) has learned from that packet that sn is
   reached through the delivering router, and its reply to the source shown leaves at once for that router with
   DADR = the source shown and a full hop count *)
Theorem C06_reply_routable_partial : forall n a src dst p n' acts sn sm d x data,
  adapters n = [a] ->
  process_npdu n 0 src dst p = (n', acts) ->
  n_sadr p = Some (sn, sm) -> In (Up (ARS sn sm) d x) acts ->
  a_net a <> Some sn -> pending_get (pending n) sn = None ->
  indication n' (ARS sn sm) data
  = (n', [Tx 0 (LStation src) (mkNpdu (Some (DStation sn sm)) None 255 None data)]).
Proof. exact reply_goes_back_via_delivering_router. Qed.
Print Assumptions C06_reply_routable_partial.

(* forwarding of global broadcasts terminates on EVERY topology — cycles, wrong caches, any node state: whenever
   all frames in flight are application-layer global broadcasts the internetwork reaches quiescence
   (a global broadcast names no destination network, so the hypothesis of C06_forwarding_terminates about paths
   is empty and the same measure decreases: K^(hop+1) per frame in flight) *)
Theorem C06_global_broadcast_terminates : forall w,
  Forall gb_frame (queue w) -> exists k, queue (run k w) = [].
Proof. exact global_broadcast_terminates. Qed.
Print Assumptions C06_global_broadcast_terminates.

Theorem C06_global_broadcast_from_quiet_terminates : forall w who data,
  queue w = [] -> exists k, queue (run k (submit w who AGB data)) = [].
Proof. intros. apply global_broadcast_terminates. apply submit_gb. assumption. Qed.
Print Assumptions C06_global_broadcast_from_quiet_terminates.

(* C06_announcements_terminate is FALSE of the code: on a ring of three routers with cold caches one remote
   unicast starts a relay of I-Am-Router-To-Network messages that never stops (the state of all nodes and the
   queue after 9 steps recurs every 3 steps); the payload itself is delivered exactly once. *)
Theorem C06_cycle_discovery_refuted :
  (forall k, queue (run k ring3_send) <> []) /\
  filter (fun o => match o with OUp _ _ _ _ => true | _ => false end) (trace (run 12 ring3_send))
  = [OUp 5 (ARS 1 [1]) (ALS [1]) [16; 99; 7]].
Proof. split; [exact ring3_never_quiet|exact ring3_payload_delivered]. Qed.
Print Assumptions C06_cycle_discovery_refuted.

Definition ups_of (w : world) : list obs :=
  filter (fun o => match o with OUp _ _ _ _ => true | _ => false end) (rev (trace w)).

(* C06_tree_unicast_once, the steps: what each node along a correct route does, each an exact computation (any
   state otherwise).  The induction over a route is C06_tree_unicast_once_partial, that a loop-free topology with
   warm caches yields such a route is C06_tree_unicast_once (both below); "at most once, nobody else" on every
   topology is C06_unicast_at_most_once. *)
(* the originating station with a cached path puts exactly one frame on its LAN: to the recorded router *)
Theorem C06_tree_unicast_once_partial_origin : forall n a d dm m data,
  adapters n = [a] -> optN_eqb (Some d) (a_net a) = false ->
  pending_get (pending n) d = None -> cache_get (rcache n) (a_net a) d = Some m ->
  indication n (ARS d dm) data = (n, [Tx 0 (LStation m) (mkNpdu (Some (DStation d dm)) None 255 None data)]).
Proof. exact station_sends_unicast. Qed.
Print Assumptions C06_tree_unicast_once_partial_origin.

(* an intermediate router makes exactly one copy: to the cached next hop, hop - 1, DADR kept, SADR = originator *)
Theorem C06_tree_unicast_once_partial_router : forall n i ai inet src dst p d dm j m',
  nth_adapter n i = Some ai -> modelled_config n = true -> is_router n = true ->
  a_net ai = Some inet ->
  n_msg p = None -> n_dadr p = Some (DStation d dm) -> n_hop p <> 0 ->
  (forall snet sm, n_sadr p = Some (snet, sm) -> find_net n (Some snet) = None /\ snet <> d) ->
  find_net n (Some d) = None ->
  find_path n d = Some (j, m') ->
  process_npdu n i src dst p =
    (learned n ai src p,
     [Fwd j (LStation m') (mkNpdu (n_dadr p) (Some (fwd_sadr inet src p)) (n_hop p - 1) None (n_data p))]).
Proof. exact router_forwards_unicast. Qed.
Print Assumptions C06_tree_unicast_once_partial_router.

(* the last router makes exactly one copy: on the destination network, link-addressed to the station, DADR removed *)
Theorem C06_tree_unicast_once_partial_last_router : forall n i ai inet src dst p d dm j la,
  nth_adapter n i = Some ai -> nth_adapter n (local_idx n) = Some la ->
  modelled_config n = true -> is_router n = true ->
  a_net ai = Some inet ->
  n_msg p = None -> n_dadr p = Some (DStation d dm) -> n_hop p <> 0 ->
  (forall snet sm, n_sadr p = Some (snet, sm) -> find_net n (Some snet) = None) ->
  find_net n (Some d) = Some j -> j <> i ->
  optN_eqb (Some d) (a_net ai) = false -> not_for_me la d dm = true ->
  process_npdu n i src dst p =
    (learned n ai src p,
     [Fwd j (LStation dm) (mkNpdu None (Some (fwd_sadr inet src p)) (n_hop p - 1) None (n_data p))]).
Proof. exact last_router_forwards_unicast. Qed.
Print Assumptions C06_tree_unicast_once_partial_last_router.

(* the station hands the payload up exactly once and shows the originator's network and address *)
Theorem C06_tree_unicast_once_partial_station : forall n a src dst p sn sm,
  adapters n = [a] -> has_app n = true ->
  n_msg p = None -> n_dadr p = None -> apdu_ok (n_data p) = true ->
  n_sadr p = Some (sn, sm) -> optN_eqb (a_net a) (Some sn) = false ->
  process_npdu n 0 src dst p = (learned n a src p, [Up (ARS sn sm) (ldest_to_addr dst) (n_data p)]).
Proof. exact station_hands_up. Qed.
Print Assumptions C06_tree_unicast_once_partial_station.

(* ... and their composition, by induction on a route of ANY length: if the frame alone in flight follows a
   consistent route (`arrives`: at every hop exactly one member of the LAN has the link address; each router on the
   way has the destination network directly connected or a cached next hop whose port leads to the next LAN; the
   SADR network is not directly connected to any router on the way and differs from the destination network; the
   hop count suffices; the last LAN has the addressed station with an application), then the run ends with an empty
   queue, stays there for ever, and exactly one PDU has been handed up: the unchanged payload, at the addressed
   station, showing the originator's network and address.  This is C06_tree_unicast_once with "consistent route"
   in place of "loop-free topology with warm caches"; that the latter implies the former is NetTree.climb, used by
   C06_tree_unicast_once below. *)
Theorem C06_tree_unicast_once_partial : forall w f tgt s dd x,
  queue w = [f] -> arrives (lans w) (nodes w) f tgt s dd x ->
  exists k osn, queue (run k w) = [] /\ (forall k', (k <= k')%nat -> run k' w = run k w) /\
                trace (run k w) = osn ++ trace w /\ oups osn = [OUp tgt s dd x].
Proof. exact route_arrives_exactly_once. Qed.
Print Assumptions C06_tree_unicast_once_partial.

(* C06_tree_remote_broadcast_once, PARTIAL in the same sense: a remote broadcast alone in flight that follows a
   consistent route of ANY length (`bcast_arrives`: as for the unicast; the routers on the way carry no application;
   on the target LAN no node has two ports and every member is either a listening station — one adapter, an
   application, not the sender, source network not its own — or a node without application) ends with an empty
   queue, and the nodes that were handed the payload are exactly the listening stations of the target network,
   each once (hs is that list, in reverse LAN order).  That a loop-free warm topology yields the route is
   NetTree.climb_b, used by C06_tree_remote_broadcast_once below. *)
Theorem C06_tree_remote_broadcast_once_partial : forall lns ns f hs,
  bcast_arrives lns ns f hs ->
  forall w, lans w = lns -> nodes w = ns -> queue w = [f] ->
  exists k osn, queue (run k w) = [] /\ trace (run k w) = osn ++ trace w /\ hearers osn = hs.
Proof. exact bcast_route_arrives. Qed.
Print Assumptions C06_tree_remote_broadcast_once_partial.

(* ================= loop-free internetworks with warm caches =================
   `internet_ok`: the LAN member lists and the nodes' ports agree, link addresses are distinct on each LAN, no node
   has two ports on one LAN, every node is a router (>= 2 ports on different LANs, every port bound with number and
   address, no application) or a station (one port, told nothing / its address / network and address, application).
   `tree_to d lv up par`: loop-free as seen from network d — every LAN has a level lv (router hops to d, lv d = 0),
   every router has exactly one port `up` towards d and its other ports are on LANs one level further away, every
   LAN other than d has a router port `par` that leads towards d — and warm towards d: every router not attached
   to d has as its path to d exactly (up port, address of the par port of its up-network).  (A connected bipartite
   graph of LANs and routers is a tree iff it has such a level structure; that equivalence is not formalised.) *)

(* C06_tree_unicast_once: on a loop-free internetwork with warm caches a unicast from a station on network s to
   station (d, dm) ends with an empty queue, stays quiet for ever, and exactly one PDU was handed up: the unchanged
   payload, at the addressed station, showing the originator's network and address.  Any cache contents about other
   networks, any parked packets elsewhere. *)
Theorem C06_tree_unicast_once : forall w d lv up par src ws s smac a_s tgt wt dm a_t data mR,
  internet_ok (lans w) (nodes w) -> tree_to (lans w) (nodes w) d lv up par ->
  queue w = [] ->
  In (tgt, 0%nat) (lan_members (lans w) d) -> nth_error (nodes w) tgt = Some wt ->
  w_ports wt = [(d, dm)] -> adapters (w_node wt) = [a_t] -> (a_net a_t = None \/ a_net a_t = Some d) ->
  has_app (w_node wt) = true ->
  nth_error (nodes w) src = Some ws -> w_ports ws = [(s, smac)] -> adapters (w_node ws) = [a_s] ->
  (a_net a_s = None \/ a_net a_s = Some s) ->
  (0 < lv s <= 255)%nat ->
  pending_get (pending (w_node ws)) d = None ->
  port_mac (nodes w) (par s) = Some mR -> cache_get (rcache (w_node ws)) (a_net a_s) d = Some mR ->
  apdu_ok data = true ->
  let w0 := submit w src (ARS d dm) data in
  exists k osn, queue (run k w0) = [] /\ (forall k', (k <= k')%nat -> run k' w0 = run k w0) /\
                trace (run k w0) = osn ++ trace w /\ oups osn = [OUp tgt (ARS s smac) (ALS dm) data].
Proof. exact tree_unicast_once. Qed.
Print Assumptions C06_tree_unicast_once.

(* C06_tree_remote_broadcast_once: the nodes handed the payload are exactly the nodes with an application on the
   target network — its stations — each once (hearers lists them in reverse LAN order) *)
Theorem C06_tree_remote_broadcast_once : forall w d lv up par src ws s smac a_s data mR,
  internet_ok (lans w) (nodes w) -> tree_to (lans w) (nodes w) d lv up par ->
  queue w = [] ->
  nth_error (nodes w) src = Some ws -> w_ports ws = [(s, smac)] -> adapters (w_node ws) = [a_s] ->
  (a_net a_s = None \/ a_net a_s = Some s) ->
  (0 < lv s <= 255)%nat ->
  pending_get (pending (w_node ws)) d = None ->
  port_mac (nodes w) (par s) = Some mR -> cache_get (rcache (w_node ws)) (a_net a_s) d = Some mR ->
  apdu_ok data = true ->
  let w0 := submit w src (ARB d) data in
  exists k osn, queue (run k w0) = [] /\ (forall k', (k <= k')%nat -> run k' w0 = run k w0) /\
                trace (run k w0) = osn ++ trace w /\
                hearers osn = rev (map fst (filter (appb (nodes w)) (lan_members (lans w) d))).
Proof. exact tree_remote_broadcast_once. Qed.
Print Assumptions C06_tree_remote_broadcast_once.

(* C06_tree_global_broadcast_once.  `tree_from s lv up par`: loop-free as seen from the source network s — levels
   (lv s = 0, every inhabited LAN has lv < 255 and lv L = 0 only for s), one up-port per router with its other
   ports one level further out, and on every LAN other than s exactly one down-port, `par` (tf_unique).  No
   hypothesis on caches or parked packets.  A global broadcast from a station on s ends with an empty queue, stays
   quiet for ever, and the nodes handed the payload are exactly the stations of the whole internetwork other than
   the originator, each exactly once (NoDup).  Proof: the frames in flight are always the copies for a
   duplicate-free list of LANs closed under "child network of a served LAN" (invariant wave_inv, NetFlood.v); every
   step serves a new LAN, so the run ends; every inhabited LAN is served by induction on its level. *)
Theorem C06_tree_global_broadcast_once : forall w s lv up par src ws smac data,
  internet_ok (lans w) (nodes w) -> tree_from (lans w) (nodes w) s lv up par -> queue w = [] ->
  nth_error (nodes w) src = Some ws -> w_ports ws = [(s, smac)] -> station_shape ws -> apdu_ok data = true ->
  let w0 := submit w src AGB data in
  exists k osn, queue (run k w0) = [] /\ (forall k', (k <= k')%nat -> run k' w0 = run k w0) /\
    trace (run k w0) = osn ++ trace w /\ NoDup (hearers osn) /\
    forall who, In who (hearers osn) <->
                (who <> src /\ exists wn, nth_error (nodes w) who = Some wn /\ station_shape wn).
Proof. exact tree_global_broadcast_once. Qed.
Print Assumptions C06_tree_global_broadcast_once.

(* C06_reply_routable, all hops: on a loop-free internetwork that is warm towards d (tree_to) and in which NOBODY
   knows anything about network s beforehand, a unicast from station A on s to station B = (d, dm) is delivered
   exactly once at B showing (s, smac), and B's reply to the source shown is then delivered exactly once at A,
   showing (d, dm), after which the internetwork is quiet for ever: every router on the way has learned the way
   back from the SADR of the request (learned_path_back), and B has learned the last router.  (With caches that
   already hold entries about s the statement needs those entries to be correct; the cold case is the one in
   which reply routability rests on the source address shown alone.) *)
Theorem C06_reply_routable : forall w d lv up par srcn ws s smac a_s tgt wt dm a_t data rdata mR,
  internet_ok (lans w) (nodes w) -> tree_to (lans w) (nodes w) d lv up par -> queue w = [] ->
  nth_error (nodes w) srcn = Some ws -> w_ports ws = [(s, smac)] -> adapters (w_node ws) = [a_s] ->
  (a_net a_s = None \/ a_net a_s = Some s) -> has_app (w_node ws) = true ->
  In (tgt, 0%nat) (lan_members (lans w) d) -> nth_error (nodes w) tgt = Some wt ->
  w_ports wt = [(d, dm)] -> adapters (w_node wt) = [a_t] -> (a_net a_t = None \/ a_net a_t = Some d) ->
  has_app (w_node wt) = true ->
  (0 < lv s <= 255)%nat ->
  pending_get (pending (w_node ws)) d = None -> pending_get (pending (w_node wt)) s = None ->
  port_mac (nodes w) (par s) = Some mR -> cache_get (rcache (w_node ws)) (a_net a_s) d = Some mR ->
  apdu_ok data = true -> apdu_ok rdata = true ->
  (forall who wn, nth_error (nodes w) who = Some wn -> forall x, cache_get (rcache (w_node wn)) x s = None) ->
  let w0 := submit w srcn (ARS d dm) data in
  exists k1 osn1,
    queue (run k1 w0) = [] /\ trace (run k1 w0) = osn1 ++ trace w /\
    oups osn1 = [OUp tgt (ARS s smac) (ALS dm) data] /\
    let w2 := submit (run k1 w0) tgt (ARS s smac) rdata in
    exists k2 osn2,
      queue (run k2 w2) = [] /\ (forall k', (k2 <= k')%nat -> run k' w2 = run k2 w2) /\
      trace (run k2 w2) = osn2 ++ trace (run k1 w0) /\
      oups osn2 = [OUp srcn (ARS d dm) (ALS smac) rdata].
Proof. exact tree_reply_routable. Qed.
Print Assumptions C06_reply_routable.

(* the hypotheses of the tree theorems are decidable: boolean checkers with soundness.  The check evaluates them
   inside Coq on the model worlds of the random trees it simulates (case kind `tree-cert`: levels, up-ports and
   parent ports computed by the harness by breadth-first search, caches installed as in the warm scenarios), so
   the tree theorems apply to those concrete internetworks, whose complete traces are in turn compared with the
   implementation. *)
Theorem C06_certificate_checkers_sound : forall lns ns, internet_okb lns ns = true ->
  internet_ok lns ns /\
  (forall d lv up par, tree_tob lns ns d lv up par = true -> tree_to lns ns d lv up par) /\
  (forall s lv up par, tree_fromb lns ns s lv up par = true -> tree_from lns ns s lv up par).
Proof.
  intros lns ns H. split; [apply internet_okb_sound; assumption|]. split.
  - intros. apply tree_tob_sound; assumption.
  - intros. apply tree_fromb_sound; assumption.
Qed.
Print Assumptions C06_certificate_checkers_sound.

(* tree_to is exactly "loop-free seen from d" (tree_from, which adds uniqueness of the parent port) together with
   "warm towards d" (every router not attached to d routes d through its up-port to the parent port of its
   up-network) *)
Theorem C06_loop_free_warm_is_tree_to : forall lns ns d lv up par,
  tree_from lns ns d lv up par -> warm_to ns d lv up par -> tree_to lns ns d lv up par.
Proof. exact loop_free_warm_tree_to. Qed.
Print Assumptions C06_loop_free_warm_is_tree_to.

(* C06 local broadcast, in full and on EVERY internetwork (no tree needed): it is gone after one step with nothing
   new in flight (it stays on its network), and the nodes handed the payload are exactly the other stations of
   that network, each once *)
Theorem C06_local_broadcast_once : forall w src ws s smac data,
  internet_ok (lans w) (nodes w) -> queue w = [] ->
  nth_error (nodes w) src = Some ws -> w_ports ws = [(s, smac)] -> station_shape ws -> apdu_ok data = true ->
  let w0 := submit w src ALB data in
  exists osn, queue (run 1 w0) = [] /\ (forall k', (1 <= k')%nat -> run k' w0 = run 1 w0) /\
    trace (run 1 w0) = osn ++ trace w /\ NoDup (hearers osn) /\
    forall who, In who (hearers osn) <->
      (who <> src /\ exists wn m, nth_error (nodes w) who = Some wn /\ station_shape wn /\ w_ports wn = [(s, m)]).
Proof. exact local_broadcast_once. Qed.
Print Assumptions C06_local_broadcast_once.

(* C06_announcements_terminate, PARTIAL (loop-free internetworks; the general statement is refuted by
   C06_cycle_discovery_refuted): an I-Am-Router-To-Network broadcast in flight on LAN L0, sent by member x0, with
   nothing parked anywhere: the relays stop, no LAN carries more than one copy (NoDup of the LANs of the frames in
   the trace), and nothing is handed to any application.  Missing for full cold discovery on trees: the
   Who-Is-Router-To-Network relays and the release of parked packets interleaved with the announcements. *)
Theorem C06_announcements_terminate_partial : forall w L0 lv up par x0 m0 nets,
  internet_ok (lans w) (nodes w) -> tree_from (lans w) (nodes w) L0 lv up par ->
  In x0 (lan_members (lans w) L0) -> port_of (nodes w) x0 = Some (L0, m0) ->
  Forall (fun d => d < 65536) nets ->
  (forall who wn, nth_error (nodes w) who = Some wn -> pending (w_node wn) = []) ->
  queue w = [mkFrame L0 m0 LBcast (i_am nets)] ->
  exists k osn, queue (run k w) = [] /\ trace (run k w) = osn ++ trace w /\
                hearers osn = [] /\ NoDup (frame_lans osn).
Proof. exact announcement_terminates_on_tree. Qed.
Print Assumptions C06_announcements_terminate_partial.

(* route-aware operation (settings.route_aware): the source shown carries a route — the link source of the
   delivering frame (up_route) — and a destination that carries a route takes the early branch of indication
   (indication_routed): it is sent straight to that router on the local adapter, and the address asked for
   continues as DADR whenever it is remote or global, with a full hop count *)
Theorem C06_route_aware_keeps_dadr : forall n la d m route data,
  nth_adapter n (local_idx n) = Some la ->
  indication_routed n (ARS d m) route data
  = (n, [Tx (local_idx n) (LStation route) (mkNpdu (Some (DStation d m)) None 255 None data)]).
Proof. intros n la d m route data H. unfold indication_routed. rewrite H. reflexivity. Qed.
Print Assumptions C06_route_aware_keeps_dadr.

(* C06_reply_routable with route_aware on: B is shown s:smac@rt with rt = link source of the frame lf that delivered
   the request, and replies to exactly that; same hypotheses as C06_reply_routable except that B needs no cache
   entry and parks nothing *)
Theorem C06_reply_routable_route_aware : forall w d lv up par srcn ws s smac a_s tgt wt dm a_t data rdata mR,
  internet_ok (lans w) (nodes w) -> tree_to (lans w) (nodes w) d lv up par -> queue w = [] ->
  nth_error (nodes w) srcn = Some ws -> w_ports ws = [(s, smac)] -> adapters (w_node ws) = [a_s] ->
  (a_net a_s = None \/ a_net a_s = Some s) -> has_app (w_node ws) = true ->
  In (tgt, 0%nat) (lan_members (lans w) d) -> nth_error (nodes w) tgt = Some wt ->
  w_ports wt = [(d, dm)] -> adapters (w_node wt) = [a_t] -> (a_net a_t = None \/ a_net a_t = Some d) ->
  has_app (w_node wt) = true ->
  (0 < lv s <= 255)%nat ->
  pending_get (pending (w_node ws)) d = None ->
  port_mac (nodes w) (par s) = Some mR -> cache_get (rcache (w_node ws)) (a_net a_s) d = Some mR ->
  apdu_ok data = true -> apdu_ok rdata = true ->
  (forall who wn, nth_error (nodes w) who = Some wn -> forall x, cache_get (rcache (w_node wn)) x s = None) ->
  let w0 := submit w srcn (ARS d dm) data in
  exists k1 lf rest,
    queue (run k1 w0) = [] /\
    trace (run k1 w0) = (OUp tgt (ARS s smac) (ALS dm) data :: OFrame lf :: rest) ++ trace w /\
    oups (OUp tgt (ARS s smac) (ALS dm) data :: OFrame lf :: rest) = [OUp tgt (ARS s smac) (ALS dm) data] /\
    up_route (w_node wt) 0 (f_src lf) (f_npdu lf) = Some (f_src lf) /\
    let w2 := submit_routed (run k1 w0) tgt (ARS s smac) (f_src lf) rdata in
    exists k2 osn2,
      queue (run k2 w2) = [] /\ (forall k', (k2 <= k')%nat -> run k' w2 = run k2 w2) /\
      trace (run k2 w2) = osn2 ++ trace (run k1 w0) /\
      oups osn2 = [OUp srcn (ARS d dm) (ALS smac) rdata].
Proof. exact tree_reply_routable_route_aware. Qed.
Print Assumptions C06_reply_routable_route_aware.

(* C06_reply_routable is FALSE of the code when the originator is an application on a router: router with ports
   (net 1, net 2), local adapter = net 2, broadcasts globally; the station on net 1 is shown the router's net-1
   address in local form; its reply to that address arrives on the non-local adapter and is handed to nobody. *)
Definition router_app_world : world :=
  mkWorld
    [mkW (mkNode [mkAd (Some 1) (Some [10]); mkAd (Some 2) (Some [10])] true [] []) [(1, [10]); (2, [10])];
     mkW (mkNode [mkAd (Some 1) (Some [1])] true [] []) [(1, [1])];
     mkW (mkNode [mkAd (Some 2) (Some [1])] true [] []) [(2, [1])]]
    [(1, [(0, 0); (1, 0)]%nat); (2, [(0, 1); (2, 0)]%nat)] [] [].
Theorem C06_reply_routable_refuted :
  let w1 := run 20 (submit router_app_world 0 AGB [16; 99; 1]) in
  ups_of w1 = [OUp 1 (ALS [10]) AGB [16; 99; 1]; OUp 2 (ALS [10]) AGB [16; 99; 1]] /\ queue w1 = [] /\
  let w2 := run 20 (submit (mkWorld (nodes w1) (lans w1) [] []) 1 (ALS [10]) [16; 99; 2]) in
  queue w2 = [] /\ ups_of w2 = [] /\
  (* whereas the station on the local adapter's network does reach it *)
  ups_of (run 20 (submit (mkWorld (nodes w1) (lans w1) [] []) 2 (ALS [10]) [16; 99; 3]))
  = [OUp 0 (ALS [1]) (ALS [10]) [16; 99; 3]].
Proof. vm_compute. repeat split. Qed.
Print Assumptions C06_reply_routable_refuted.

(* a three-port router forwards a global broadcast received on port 0 to ports 1 and 2 with hop - 1 and SADR *)
Example C06_forward_example :
  snd (process_npdu (mkNode [mkAd (Some 1) (Some [10]); mkAd (Some 2) (Some [10]); mkAd (Some 3) (Some [10])] false [] [])
                    0 [1] LBcast (mkNpdu (Some DGlobal) None 255 None [16; 99; 1]))
  = [Fwd 1 LBcast (mkNpdu (Some DGlobal) (Some (1, [1])) 254 None [16; 99; 1]);
     Fwd 2 LBcast (mkNpdu (Some DGlobal) (Some (1, [1])) 254 None [16; 99; 1])].
Proof. vm_compute. reflexivity. Qed.

(* a station delivers a routed unicast addressed to it and shows the originator *)
Example C06_deliver_example :
  snd (process_npdu (mkNode [mkAd (Some 4) (Some [2])] true [] [])
                    0 [11] (LStation [2]) (mkNpdu None (Some (1, [1])) 0 None [16; 99; 1]))
  = [Up (ARS 1 [1]) (ALS [2]) [16; 99; 1]].
Proof. vm_compute. reflexivity. Qed.

(* a station that was told nothing hands down a unicast, a remote broadcast and another unicast for network 9 in
   one go; the announcement releases the three, in order, each with its DADR *)
Example C06_burst_example :
  let n := mkNode [mkAd None None] true [] [] in
  snd (process_npdu (submit_all n 9 [SUni [7] [16; 99; 1]; SBc [16; 99; 2]; SUni [8] [16; 99; 3]]) 0 [11] (LStation [2]) (i_am [9]))
  = [Tx 0 (LStation [11]) (mkNpdu (Some (DStation 9 [7])) None 255 None [16; 99; 1]);
     Tx 0 (LStation [11]) (mkNpdu (Some (DBcast 9)) None 255 None [16; 99; 2]);
     Tx 0 (LStation [11]) (mkNpdu (Some (DStation 9 [8])) None 255 None [16; 99; 3])].
Proof. vm_compute. reflexivity. Qed.

(* parked packet released by the announcement *)
Example C06_pending_example :
  let n := fst (indication (mkNode [mkAd (Some 4) (Some [2])] true [] []) (ARS 9 [7]) [16; 99; 1]) in
  pending_wf (pending n) /\ pending_get (pending n) 9 = Some [mkNpdu (Some (DStation 9 [7])) None 255 None [16; 99; 1]] /\
  snd (process_npdu n 0 [11] (LStation [2]) (i_am [9]))
  = [Tx 0 (LStation [11]) (mkNpdu (Some (DStation 9 [7])) None 255 None [16; 99; 1])].
Proof. vm_compute. repeat split. repeat constructor; intros []. Qed.

(* on the ring of three routers a global broadcast does terminate (5 frames); the stations on the other two networks each hear it twice — duplicates are possible on a cycle, non-termination is not *)
Example C06_ring_global_broadcast_example :
  let w := run 100 (submit ring3 3 AGB [16; 99; 9]) in
  Forall gb_frame (queue (submit ring3 3 AGB [16; 99; 9])) /\ queue w = [] /\
  map (fun o => match o with OUp who _ _ _ => who | _ => 0%nat end)
      (filter (fun o => match o with OUp _ _ _ _ => true | _ => false end) (rev (trace w))) = [4; 5; 5; 4]%nat.
Proof. vm_compute. repeat split. repeat constructor. Qed.

(* the hypotheses of C06_forwarding_terminates on a cycle with looping routes: the three ring routers each
   believe network 9 lies behind the next one; a unicast to network 9 is in flight, every router is `routable`,
   and the run does stop (here the SADR check drops it when it comes back to a router of network 1) *)
Definition ring3_looping : world :=
  mkWorld
    [mkW (mkNode [mkAd (Some 1) (Some [101]); mkAd (Some 2) (Some [101])] false [((Some 2, 9), [102])] []) [(1, [101]); (2, [101])];
     mkW (mkNode [mkAd (Some 2) (Some [102]); mkAd (Some 3) (Some [102])] false [((Some 3, 9), [103])] []) [(2, [102]); (3, [102])];
     mkW (mkNode [mkAd (Some 3) (Some [103]); mkAd (Some 1) (Some [103])] false [((Some 1, 9), [101])] []) [(3, [103]); (1, [103])];
     mkW (mkNode [mkAd (Some 1) (Some [1])] true [((Some 1, 9), [101])] []) [(1, [1])]]
    [(1, [(0, 0); (2, 1); (3, 0)]%nat); (2, [(0, 1); (1, 0)]%nat); (3, [(1, 1); (2, 0)]%nat)]
    [] [].
Example C06_forwarding_terminates_example :
  let w := submit ring3_looping 3 (ARS 9 [5]) [16; 99; 1] in
  world_routableb w = true /\ length (queue w) = 1%nat /\ queue (run 10 w) = [] /\ queue (run 2 w) <> [].
Proof. vm_compute. repeat split. discriminate. Qed.

(* ... and the hypotheses of C06_unicast_at_most_once hold for it as well (through their decidable forms) *)
Example C06_unicast_at_most_once_example :
  let w := submit ring3_looping 3 (ARS 9 [5]) [16; 99; 1] in
  exists f, queue w = [f] /\ uni_frameb f = true /\ lans_distinctb (lans w) (nodes w) = true /\
            world_routableb w = true.
Proof. eexists. vm_compute. repeat split. Qed.

(* the hypotheses of the route-step theorems hold at router R0 of tree4 for a packet from network 1 to network 4
   (intermediate router), at R1 (last router) and at the station (4, [2]) *)
Example C06_route_step_example :
  let r0 := mkNode [mkAd (Some 1) (Some [10]); mkAd (Some 2) (Some [10]); mkAd (Some 3) (Some [10])] false [((Some 3, 4), [11])] [] in
  let r1 := mkNode [mkAd (Some 3) (Some [11]); mkAd (Some 4) (Some [11])] false [((Some 3, 1), [10]); ((Some 3, 2), [10])] [] in
  (modelled_config r0 = true /\ is_router r0 = true /\ find_net r0 (Some 4) = None /\ find_path r0 4 = Some (2%nat, [11])) /\
  (modelled_config r1 = true /\ is_router r1 = true /\ find_net r1 (Some 1) = None /\ find_net r1 (Some 4) = Some 1%nat /\
   nth_adapter r1 (local_idx r1) = Some (mkAd (Some 4) (Some [11]))) /\
  optN_eqb None (Some 1) = false.
Proof. vm_compute. repeat split. Qed.

(* a four-network tree (routers R0: nets 1,2,3; R1: nets 3,4) with correct caches: unicast, remote broadcast and
   global broadcast from the station on network 1 are delivered exactly once to exactly the right stations *)
Definition tree4 : world :=
  mkWorld
    [mkW (mkNode [mkAd (Some 1) (Some [10]); mkAd (Some 2) (Some [10]); mkAd (Some 3) (Some [10])] false
                 [((Some 3, 4), [11])] []) [(1, [10]); (2, [10]); (3, [10])];
     mkW (mkNode [mkAd (Some 3) (Some [11]); mkAd (Some 4) (Some [11])] false
                 [((Some 3, 1), [10]); ((Some 3, 2), [10])] []) [(3, [11]); (4, [11])];
     mkW (mkNode [mkAd (Some 1) (Some [1])] true [((Some 1, 2), [10]); ((Some 1, 3), [10]); ((Some 1, 4), [10])] []) [(1, [1])];
     mkW (mkNode [mkAd (Some 2) (Some [1])] true [] []) [(2, [1])];
     mkW (mkNode [mkAd None None] true [] []) [(3, [1])];
     mkW (mkNode [mkAd (Some 4) (Some [1])] true [] []) [(4, [1])];
     mkW (mkNode [mkAd None (Some [2])] true [] []) [(4, [2])]]
    [(1, [(0, 0); (2, 0)]%nat); (2, [(0, 1); (3, 0)]%nat); (3, [(0, 2); (1, 0); (4, 0)]%nat);
     (4, [(1, 1); (5, 0); (6, 0)]%nat)]
    [] [].

(* the route hypothesis of C06_tree_unicast_once_partial is satisfiable: on tree4 the unicast from the station on
   network 1 to station (4, [2]) follows a consistent route R0 -> R1 -> station *)
Ltac acc := unfold acceptor; split; [reflexivity|]; split; [apply nodupb_sound; vm_compute; reflexivity|];
            split; [vm_compute; auto 6|]; split; [reflexivity|eexists; reflexivity].
Example C06_tree_unicast_route_example :
  let w := submit tree4 2 (ARS 4 [2]) [16; 99; 1] in
  exists f, queue w = [f] /\ arrives (lans w) (nodes w) f 6 (ARS 1 [1]) (ALS [2]) [16; 99; 1].
Proof.
  eexists. split; [vm_compute; reflexivity|]. vm_compute.
  eapply arr_router with (who := 0%nat) (i := 0%nat) (inet := 1) (d := 4) (dm := [2]) (j := 2%nat) (m' := [11])
                         (lan' := 3) (mj := [10]); [acc | ..]; try reflexivity.
  - discriminate.
  - intros snet sm E. discriminate E.
  - vm_compute.
    eapply arr_last_router with (who := 1%nat) (i := 0%nat) (inet := 3) (d := 4) (dm := [2]) (j := 1%nat)
                                (lan' := 4) (mj := [11]); [acc | ..]; try reflexivity.
    + discriminate.
    + intros snet sm E. inversion E; subst. reflexivity.
    + discriminate.
    + vm_compute.
      eapply arr_station with (who := 6%nat); [acc | ..]; reflexivity.
Qed.

(* hypotheses of C06_local_frame_stays_once: a local broadcast on network 4 of tree4 (router R1 and two stations) *)
Example C06_local_broadcast_example :
  let w := submit tree4 5 ALB [16; 99; 4] in
  exists f, queue w = [f] /\ n_dadr (f_npdu f) = None /\ n_msg (f_npdu f) = None /\
            map fst (lan_members (lans w) (f_lan f)) = [1; 5; 6]%nat /\
            hearers (trace (run 5 w)) = [6%nat] /\ queue (run 5 w) = [].
Proof. eexists. vm_compute. repeat split. Qed.

(* the route hypothesis of C06_tree_remote_broadcast_once_partial on tree4: remote broadcast to network 4 from the
   station on network 1; the hearers are the two stations of network 4 *)
Example C06_tree_remote_broadcast_route_example :
  let w := submit tree4 2 (ARB 4) [16; 99; 2] in
  exists f hs, queue w = [f] /\ bcast_arrives (lans w) (nodes w) f hs /\ hs = [6; 5]%nat.
Proof.
  eexists. eexists. split; [vm_compute; reflexivity|]. split.
  - vm_compute.
    eapply barr_router with (who := 0%nat) (i := 0%nat) (inet := 1) (d := 4) (j := 2%nat) (m' := [11])
                            (lan' := 3) (mj := [10]); [acc | ..]; try reflexivity.
    + discriminate.
    + intros snet sm E. discriminate E.
    + vm_compute.
      eapply barr_last_router with (who := 1%nat) (i := 0%nat) (inet := 3) (d := 4) (j := 1%nat)
                                   (lan' := 4) (mj := [11]); [acc | ..]; try reflexivity.
      * discriminate.
      * intros snet sm E. inversion E; subst. reflexivity.
      * discriminate.
      * vm_compute. repeat constructor; cbn; intuition discriminate.
      * intros x Hx. vm_compute in Hx. destruct Hx as [Hx|[Hx|[Hx|[]]]]; subst x; vm_compute; auto.
  - vm_compute. reflexivity.
Qed.

(* the hypotheses of the tree theorems are satisfiable: tree4 is internet_ok and loop-free/warm towards network 4 *)
Example C06_tree4_internet_ok : internet_ok (lans tree4) (nodes tree4).
Proof. apply internet_okb_sound. vm_compute. reflexivity. Qed.

Definition lv4 (L : N) : nat := if L =? 4 then 0%nat else if L =? 3 then 1%nat else 2%nat.
Definition up4 (who : nat) : nat := match who with O => 2%nat | _ => 1%nat end.
Definition par4 (L : N) : nat * nat := if L =? 3 then (1, 0)%nat else if L =? 1 then (0, 0)%nat else (0, 1)%nat.

Example C06_tree4_tree_to_4 : tree_to (lans tree4) (nodes tree4) 4 lv4 up4 par4.
Proof. apply tree_tob_sound; vm_compute; reflexivity. Qed.

Example C06_tree4_unicast_once :
  let w0 := submit tree4 2 (ARS 4 [2]) [16; 99; 1] in
  exists k osn, queue (run k w0) = [] /\ (forall k', (k <= k')%nat -> run k' w0 = run k w0) /\
                trace (run k w0) = osn ++ trace tree4 /\ oups osn = [OUp 6 (ARS 1 [1]) (ALS [2]) [16; 99; 1]].
Proof.
  eapply (tree_unicast_once tree4 4 lv4 up4 par4 2%nat _ 1 [1] _ 6%nat _ [2] _ [16; 99; 1] [10] C06_tree4_internet_ok C06_tree4_tree_to_4);
    try reflexivity; cbn; auto 6; try lia.
Qed.

Example C06_tree4_remote_broadcast_once :
  let w0 := submit tree4 2 (ARB 4) [16; 99; 2] in
  exists k osn, queue (run k w0) = [] /\ (forall k', (k <= k')%nat -> run k' w0 = run k w0) /\
                trace (run k w0) = osn ++ trace tree4 /\ hearers osn = [6; 5]%nat.
Proof.
  eapply (tree_remote_broadcast_once tree4 4 lv4 up4 par4 2%nat _ 1 [1] _ [16; 99; 2] [10] C06_tree4_internet_ok C06_tree4_tree_to_4);
    try reflexivity; cbn; auto 6; try lia.
Qed.

Definition lv1 (L : N) : nat := if L =? 1 then 0%nat else if L =? 4 then 2%nat else 1%nat.
Definition up1 (who : nat) : nat := 0%nat.
Definition par1 (L : N) : nat * nat := if L =? 2 then (0, 1)%nat else if L =? 3 then (0, 2)%nat else (1, 1)%nat.

Example C06_tree4_inhabited : forall L x m, port_of (nodes tree4) x = Some (L, m) -> L = 1 \/ L = 2 \/ L = 3 \/ L = 4.
Proof.
  intros L x m Hx. pose proof (inhabited_key _ _ L C06_tree4_internet_ok (ex_intro _ x (ex_intro _ m Hx))) as H.
  cbn in H. intuition.
Qed.

(* tree4 is loop-free as seen from network 1 *)
Example C06_tree4_tree_from_1 : tree_from (lans tree4) (nodes tree4) 1 lv1 up1 par1.
Proof. apply tree_fromb_sound; vm_compute; reflexivity. Qed.

Example C06_tree4_global_broadcast_once :
  let w0 := submit tree4 2 AGB [16; 99; 3] in
  exists k osn, queue (run k w0) = [] /\ (forall k', (k <= k')%nat -> run k' w0 = run k w0) /\
    trace (run k w0) = osn ++ trace tree4 /\ NoDup (hearers osn) /\
    forall who, In who (hearers osn) <->
                (who <> 2%nat /\ exists wn, nth_error (nodes tree4) who = Some wn /\ station_shape wn).
Proof.
  eapply (tree_global_broadcast_once tree4 1 lv1 up1 par1 2%nat _ [1] [16; 99; 3] C06_tree4_internet_ok C06_tree4_tree_from_1); try reflexivity.
  unfold station_shape. cbn. do 3 eexists. repeat split; auto.
Qed.

(* the four-network tree, cold about network 1: routes towards network 4 only *)
Definition tree4c : world :=
  mkWorld
    [mkW (mkNode [mkAd (Some 1) (Some [10]); mkAd (Some 2) (Some [10]); mkAd (Some 3) (Some [10])] false
                 [((Some 3, 4), [11])] []) [(1, [10]); (2, [10]); (3, [10])];
     mkW (mkNode [mkAd (Some 3) (Some [11]); mkAd (Some 4) (Some [11])] false [] []) [(3, [11]); (4, [11])];
     mkW (mkNode [mkAd (Some 1) (Some [1])] true [((Some 1, 4), [10])] []) [(1, [1])];
     mkW (mkNode [mkAd (Some 2) (Some [1])] true [] []) [(2, [1])];
     mkW (mkNode [mkAd None None] true [] []) [(3, [1])];
     mkW (mkNode [mkAd (Some 4) (Some [1])] true [] []) [(4, [1])];
     mkW (mkNode [mkAd None (Some [2])] true [] []) [(4, [2])]]
    [(1, [(0, 0); (2, 0)]%nat); (2, [(0, 1); (3, 0)]%nat); (3, [(0, 2); (1, 0); (4, 0)]%nat);
     (4, [(1, 1); (5, 0); (6, 0)]%nat)]
    [] [].
Example C06_tree4c_internet_ok : internet_ok (lans tree4c) (nodes tree4c).
Proof. apply internet_okb_sound. vm_compute. reflexivity. Qed.

Example C06_tree4c_tree_to_4 : tree_to (lans tree4c) (nodes tree4c) 4 lv4 up4 par4.
Proof. apply tree_tob_sound; vm_compute; reflexivity. Qed.

Example C06_tree4c_round_trip :
  let w0 := submit tree4c 2 (ARS 4 [2]) [16; 99; 1] in
  exists k1 osn1,
    queue (run k1 w0) = [] /\ trace (run k1 w0) = osn1 ++ trace tree4c /\
    oups osn1 = [OUp 6 (ARS 1 [1]) (ALS [2]) [16; 99; 1]] /\
    let w2 := submit (run k1 w0) 6 (ARS 1 [1]) [16; 99; 2] in
    exists k2 osn2,
      queue (run k2 w2) = [] /\ (forall k', (k2 <= k')%nat -> run k' w2 = run k2 w2) /\
      trace (run k2 w2) = osn2 ++ trace (run k1 w0) /\
      oups osn2 = [OUp 2 (ARS 4 [2]) (ALS [1]) [16; 99; 2]].
Proof.
  eapply (tree_reply_routable tree4c 4 lv4 up4 par4 2%nat _ 1 [1] _ 6%nat _ [2] _ [16; 99; 1] [16; 99; 2] [10] C06_tree4c_internet_ok C06_tree4c_tree_to_4);
    try reflexivity; cbn; auto 6; try lia.
  intros who wn H x.
  do 7 (destruct who as [|who]; [inversion H; subst; clear H; unfold cache_get, key_eqb; cbn; rewrite ?andb_false_r; reflexivity|]).
  destruct who; discriminate.
Qed.

(* the checkers accept the example tree *)
Example C06_tree4_checkers :
  internet_okb (lans tree4) (nodes tree4) = true /\
  tree_tob (lans tree4) (nodes tree4) 4 lv4 up4 par4 = true /\
  tree_fromb (lans tree4) (nodes tree4) 1 lv1 up1 par1 = true.
Proof. vm_compute. repeat split. Qed.

Example C06_tree4_local_broadcast_once :
  let w0 := submit tree4 5 ALB [16; 99; 4] in
  exists osn, queue (run 1 w0) = [] /\ (forall k', (1 <= k')%nat -> run k' w0 = run 1 w0) /\
    trace (run 1 w0) = osn ++ trace tree4 /\ NoDup (hearers osn) /\
    forall who, In who (hearers osn) <->
      (who <> 5%nat /\ exists wn m, nth_error (nodes tree4) who = Some wn /\ station_shape wn /\ w_ports wn = [(4, m)]).
Proof.
  eapply (local_broadcast_once tree4 5%nat _ 4 [1] [16; 99; 4] C06_tree4_internet_ok); try reflexivity.
  unfold station_shape. cbn. do 3 eexists. repeat split; auto.
Qed.

(* router R1 of tree4 announces network 4 on network 3: certificate from the checkers, theorem applies *)
Example C06_tree4_announcement :
  let w := mkWorld (nodes tree4) (lans tree4) [mkFrame 3 [11] LBcast (i_am [4])] [] in
  exists k osn, queue (run k w) = [] /\ trace (run k w) = osn ++ trace w /\
                hearers osn = [] /\ NoDup (frame_lans osn).
Proof.
  intro w.
  set (lv3 := fun L : N => if L =? 3 then 0%nat else 1%nat).
  set (up3 := fun who : nat => match who with O => 2%nat | _ => 0%nat end).
  set (par3 := fun L : N => if L =? 1 then (0, 0)%nat else if L =? 2 then (0, 1)%nat else (1, 1)%nat).
  assert (Hok : internet_okb (lans tree4) (nodes tree4) = true) by (vm_compute; reflexivity).
  assert (Hfrom : tree_fromb (lans tree4) (nodes tree4) 3 lv3 up3 par3 = true) by (vm_compute; reflexivity).
  destruct (C06_certificate_checkers_sound _ _ Hok) as (Hio & _ & Hf).
  eapply (announcement_terminates_on_tree w 3 lv3 up3 par3 (1, 0)%nat [11] [4] Hio (Hf _ _ _ _ Hfrom)); try reflexivity.
  - cbn. auto.
  - repeat constructor.
  - intros who wn H. cbn [nodes] in H. do 7 (destruct who as [|who]; [inversion H; reflexivity|]). destruct who; discriminate.
Qed.

(* route-aware round trip on the cold tree: the request is delivered by router R1 ([11]); the reply to 1:[1]@[11] *)
Example C06_tree4c_round_trip_route_aware :
  let w1 := run 10 (submit tree4c 2 (ARS 4 [2]) [16; 99; 1]) in
  let w2 := run 10 (submit_routed w1 6 (ARS 1 [1]) [11] [16; 99; 2]) in
  queue w1 = [] /\ queue w2 = [] /\
  filter (fun o => match o with OUp _ _ _ _ => true | _ => false end) (rev (trace w2))
  = [OUp 6 (ARS 1 [1]) (ALS [2]) [16; 99; 1]; OUp 2 (ARS 4 [2]) (ALS [1]) [16; 99; 2]].
Proof. vm_compute. repeat split. Qed.

Example C06_tree_unicast_example :
  let w := run 100 (submit tree4 2 (ARS 4 [2]) [16; 99; 1]) in
  queue w = [] /\ ups_of w = [OUp 6 (ARS 1 [1]) (ALS [2]) [16; 99; 1]].
Proof. vm_compute. split; reflexivity. Qed.

Example C06_tree_remote_broadcast_example :
  let w := run 100 (submit tree4 2 (ARB 4) [16; 99; 2]) in
  queue w = [] /\ ups_of w = [OUp 5 (ARS 1 [1]) ALB [16; 99; 2]; OUp 6 (ARS 1 [1]) ALB [16; 99; 2]].
Proof. vm_compute. split; reflexivity. Qed.

Example C06_tree_global_broadcast_example :
  let w := run 100 (submit tree4 2 AGB [16; 99; 3]) in
  queue w = [] /\ ups_of w = [OUp 3 (ARS 1 [1]) AGB [16; 99; 3]; OUp 4 (ARS 1 [1]) AGB [16; 99; 3];
                           OUp 5 (ARS 1 [1]) AGB [16; 99; 3]; OUp 6 (ARS 1 [1]) AGB [16; 99; 3]].
Proof. vm_compute. split; reflexivity. Qed.

(* ===== network-number learning (What-Is-Network-Number / Network-Number-Is; model NetNum.v) =====
   Seeded C06-w6-3 left a stale key in NetworkServiceAccessPoint.adapters when a station learned its number, so the
   station had "two adapters" and every global broadcast it originated went out (and was delivered) twice. *)

(* whatever a node sees - frames of any kind, announcements and renumberings included, application sends, cache
   learning, its own questions / announcements, the answer timer - it keeps exactly the ports it was bound with:
   same number of adapters, same link addresses, same application *)
Theorem C06_number_learning_keeps_ports : forall es x x' l,
  run_xscript x es = (x', l) -> same_ports (x_node x) (x_node x').
Proof. exact run_xscript_ports. Qed.
Print Assumptions C06_number_learning_keeps_ports.

(* a global broadcast handed down by the application leaves every port exactly once (any modelled node) *)
Theorem C06_global_broadcast_once_per_port : forall n data,
  modelled_config n = true ->
  indication n AGB data =
    (n, map (fun j => Tx j LBcast (mkNpdu (Some DGlobal) None 255 None data)) (seq 0 (length (adapters n)))).
Proof. exact global_broadcast_once_per_port. Qed.
Print Assumptions C06_global_broadcast_once_per_port.

(* a station (one adapter: told nothing, its address, or a number it only learned) that hears Network-Number-Is `net`
   transmits nothing and becomes exactly the station bound with `net` and the same address - same application, same
   parked packets, cache re-filed under `net` - so every theorem about stations told network+address applies from then
   on; its next global broadcast leaves its port exactly once; and when its cache was filed under the adapter's old
   number (C06_number_learned_cache_filed: re-filing keeps that invariant) every path it knew is still known *)
Theorem C06_number_learned_station : forall o m app c pd conf task src net flag x' acts,
  xprocess (mkX (mkNode [mkAd o m] app c pd) conf task) 0 src LBcast (num_is net flag) = (x', acts) ->
  net < 65536 -> learnable o conf net ->
  acts = [] /\
  x_node x' = mkNode [mkAd (Some net) m] app (cache_rekey c o (Some net)) pd /\
  x_conf x' = (match o with None => 0 | Some _ => flag end) /\ x_task x' = 0 /\
  (forall data, indication (x_node x') AGB data
                = (x_node x', [Tx 0 LBcast (mkNpdu (Some DGlobal) None 255 None data)])) /\
  (keys_on o c -> forall d, find_path (x_node x') d = find_path (mkNode [mkAd o m] app c pd) d).
Proof. exact thm_number_learned. Qed.
Print Assumptions C06_number_learned_station.

Theorem C06_number_learned_cache_filed : forall o net c,
  keys_on o c -> keys_on (Some net) (cache_rekey c o (Some net)).
Proof. exact thm_number_learned_keys. Qed.
Print Assumptions C06_number_learned_cache_filed.

(* non-vacuity: a station told only its address, with a router recorded for network 7 and a packet parked for
   network 9, hears "this is network 12": one adapter filed under 12, the path to 7 kept, the packet still parked,
   and the global broadcast that follows goes out once *)
Example C06_number_learned_example :
  let x := mkX (mkNode [mkAd None (Some [5])] true [((None, 7), [9])]
                        [(9, [mkNpdu (Some (DBcast 9)) None 255 None [16; 99]])]) 1 0 in
  let r := run_xscript x [XE (EArrive 0 [9] LBcast (num_is 12 1)); XE (ESend AGB [16; 99; 1])] in
  learnable None 1 12 /\ keys_on None [((None, 7), [9])] /\
  adapters (x_node (fst r)) = [mkAd (Some 12) (Some [5])] /\
  find_path (x_node (fst r)) 7 = Some (0%nat, [9]) /\
  pending (x_node (fst r)) = [(9, [mkNpdu (Some (DBcast 9)) None 255 None [16; 99]])] /\
  snd r = [[]; [Tx 0 LBcast (mkNpdu (Some DGlobal) None 255 None [16; 99; 1])]].
Proof.
  cbn zeta. split; [exact I|]. split.
  - intros k mm [H|[]]. inversion H; reflexivity.
  - vm_compute. repeat split.
Qed.

(* a station that has only LEARNED its number (flag 0) is renumbered by a later announcement, a configured one is not *)
Example C06_renumbering_example :
  adapters (x_node (fst (run_xscript (xinit (mkNode [mkAd None (Some [5])] true [] []))
     [XE (EArrive 0 [9] LBcast (num_is 12 1)); XE (EArrive 0 [9] LBcast (num_is 13 1)); XE (EArrive 0 [9] LBcast (num_is 14 0))])))
    = [mkAd (Some 13) (Some [5])] /\
  adapters (x_node (fst (run_xscript (xinit (mkNode [mkAd (Some 4) (Some [5])] true [] []))
     [XE (EArrive 0 [9] LBcast (num_is 12 1))]))) = [mkAd (Some 4) (Some [5])].
Proof. vm_compute. split; reflexivity. Qed.

(* the hypothesis `keys_on` of the last clause of C06_number_learned_station holds in EVERY reachable state: whatever
   history of events (frames of any kind, sends, cache learning, announcements, renumberings, timer) a freshly bound
   node has seen, its cache is filed under the numbers of its own ports (`filed`), so a station's cache is filed
   under its adapter's number - hence a station never loses a path by learning or changing its number *)
Theorem C06_cache_filed_under_own_ports : forall es x x' l,
  filed (x_node x) -> run_xscript x es = (x', l) -> filed (x_node x').
Proof. exact run_xscript_filed. Qed.
Print Assumptions C06_cache_filed_under_own_ports.

Theorem C06_station_cache_filed : forall n0 es x l a,
  rcache n0 = [] -> run_xscript (xinit n0) es = (x, l) -> adapters (x_node x) = [a] ->
  keys_on (a_net a) (rcache (x_node x)).
Proof. exact thm_station_cache_filed. Qed.
Print Assumptions C06_station_cache_filed.

(* non-vacuity: a station told nothing learns a router from an I-Am-Router-To-Network, then its number, is renumbered,
   learns from an SADR - the cache ends up filed under the last number and both paths are there *)
Example C06_station_cache_filed_example :
  let x := fst (run_xscript (xinit (mkNode [mkAd None None] true [] []))
     [XE (EArrive 0 [9] LBcast (i_am [7])); XE (EArrive 0 [9] LBcast (num_is 12 0));
      XE (EArrive 0 [9] LBcast (num_is 13 0));
      XE (EArrive 0 [8] LBcast (mkNpdu None (Some (5, [1])) 0 None [16; 99]))]) in
  adapters (x_node x) = [mkAd (Some 13) None] /\
  rcache (x_node x) = [((Some 13, 7), [9]); ((Some 13, 5), [8])].
Proof. vm_compute. split; reflexivity. Qed.
