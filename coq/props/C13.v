(* C13 — B/IP broadcasts reach every node once; foreign registrations expire on time.
   Property theorems only; proofs live in Bac.BipFacts, BipLifeFacts (tables, life cycle),
   BipDelivFacts (delivery tree), Cascade* (cascade model, any size), IpNetFacts, BipDelivTie (family).
   Models: Bac.Bip (bvllservice.BIPSimple/BIPForeign/BIPBBMD), Bac.IpNet (vlan.IPNetwork/IPRouter,
   multiplexer, timers).  `bbmd_run b es` is the BBMD after ANY history es of arriving frames,
   own broadcasts and 1 s ticks. *)
From Coq Require Import Permutation.
From Bac Require Import Base Bip BipFacts IpNet IpNetFacts BipDeliv BipDelivFacts BipDelivTie CascadeTree CascadeNet CascadeFacts CascadeStep BipLife BipLifeFacts.
Open Scope N_scope.

(* one table entry per address, under any history *)
Theorem C13_fdt_nodup : forall b es, b_fdt b = [] -> NoDup (map fd_addr (b_fdt (bbmd_run b es))).
Proof. intros b es H. apply run_nodup. rewrite H. constructor. Qed.
Print Assumptions C13_fdt_nodup.

(* registered with time-to-live T: listed after every history containing fewer than T+5 ticks
   (remaining time T+5-k), absent from tick T+5 on — unless it registers again or is deleted
   (`quiet src` excludes exactly those two events, everything else is arbitrary) *)
Theorem C13_fdt_served_window : forall b src d T es,
  NoDup (map fd_addr (b_fdt b)) -> Forall (quiet src) es ->
  let b1 := fst (bbmd_step b (BConf src d (RegisterFD T))) in
  (ticks es < T + 5 -> listed (b_fdt (bbmd_run b1 es)) src = true) /\
  (T + 5 <= ticks es -> listed (b_fdt (bbmd_run b1 es)) src = false) /\
  (ticks es < T + 5 -> exists a', a' = src /\
     find (b_fdt (bbmd_run b1 es)) src = Some (mkFdte a' T (T + 5 - ticks es))).
Proof. exact fdt_served_window. Qed.
Print Assumptions C13_fdt_served_window.

(* "served" = addressed by the BBMD's forwarding: exactly the listed addresses *)
Theorem C13_served_iff_listed : forall b o p a,
  (listed (b_fdt b) a = true ->
     In (Down (DStation a) (Forwarded o p)) (snd (bbmd_confirmation b o DBcast (OrigBroadcast p)))) /\
  (listed (b_fdt b) a = false ->
     ~ In (Down (DStation a) (Forwarded o p)) (to_fdt (b_fdt b) (Forwarded o p))).
Proof. exact served_iff_listed. Qed.
Print Assumptions C13_served_iff_listed.

(* the device re-registers after T s; exactly T of the BBMD's ticks fall in between, fewer than
   the T+5 its entry lasts (with C13_fdt_served_window: still listed, 5 s to spare) *)
Theorem C13_renewal_before_expiry : forall now f f' acts t a,
  f_bbmd f = Some a -> f_ttl f = Some t -> (0 < t)%Z ->
  foreign_renew now f = Ok (f', acts) ->
  f_renew f' = Some (now + t * 1000)%Z /\
  acts = [Down (DStation a) (RegisterFD (Z.to_N t mod 65536))] /\
  ((now + t * 1000) / 1000 - now / 1000 = t)%Z /\ (t < t + 5)%Z.
Proof.
  intros now f f' acts t a Hb Ht P H. unfold foreign_renew in H. rewrite Hb, Ht in H.
  inversion H; subst. cbn [f_renew]. repeat split; [rewrite Z.div_add by lia; lia | lia].
Qed.
Print Assumptions C13_renewal_before_expiry.

(* the device's own view: an acknowledgement arms a T+30 s timeout (not shorter than the BBMD's T+5) *)
Theorem C13_ack_sets_expiry : forall now f src d t a,
  f_status f <> (-2)%Z -> f_bbmd f = Some a -> f_ttl f = Some t -> src = a ->
  exists f', foreign_confirmation now f src d (Result 0) = Ok (f', []) /\
             f_status f' = 0%Z /\ f_expire f' = Some (now + (t + 30) * 1000)%Z /\ (t + 5 <= t + 30)%Z.
Proof.
  intros now f src d t a S Hb Ht E. subst src. unfold foreign_confirmation.
  assert ((f_status f =? -2)%Z = false) as -> by lia. rewrite Hb, addr_eqb_refl, Ht. cbn [negb N.eqb].
  eexists. split; [reflexivity|]. cbn [f_status f_expire]. repeat split. lia.
Qed.
Print Assumptions C13_ack_sets_expiry.

(* Delete-Foreign-Device-Table-Entry takes effect with the frame itself *)
Theorem C13_delete_immediate : forall b s d a,
  NoDup (map fd_addr (b_fdt b)) ->
  let r := bbmd_confirmation b s d (DeleteFDT a) in
  listed (b_fdt (fst r)) a = false /\
  snd r = [Down (DStation s) (Result (if listed (b_fdt b) a then 0 else 80))].
Proof. exact delete_immediate. Qed.
Print Assumptions C13_delete_immediate.

(* unregister(): the device stops at once on its own side ... *)
Theorem C13_unregister_stops_device : forall f f' acts,
  foreign_unregister f = Ok (f', acts) ->
  (exists a, f_bbmd f = Some a /\ acts = [Down (DStation a) (RegisterFD 0)]) /\
  f_status f' = (-2)%Z /\
  (forall p, foreign_indication f' DBcast p = Ok []) /\
  (forall now src d a p, foreign_confirmation now f' src d (Forwarded a p) = Ok (f', [])).
Proof.
  intros f f' acts H. unfold foreign_unregister in H. destruct (f_bbmd f) as [a|] eqn:B; [|discriminate].
  inversion H; subst. repeat split; try reflexivity. exists a. auto.
Qed.
Print Assumptions C13_unregister_stops_device.

(* ... and its entry (time-to-live 0) is gone after 5 ticks, the grace period *)
Theorem C13_unregister_within_grace : forall b src d es,
  NoDup (map fd_addr (b_fdt b)) -> Forall (quiet src) es -> 5 <= ticks es ->
  listed (b_fdt (bbmd_run (fst (bbmd_step b (BConf src d (RegisterFD 0)))) es)) src = false.
Proof.
  intros b src d es N Q H. destruct (fdt_served_window b src d 0 es N Q) as [_ [G _]]. apply G. lia.
Qed.
Print Assumptions C13_unregister_within_grace.

(* per-frame forwarding decisions, any state, any frame *)
Theorem C13_source_preserved : forall b s d m o p,
  (m = OrigBroadcast p /\ o = s) \/ (m = Distribute p /\ o = s) \/ (m = Forwarded o p) ->
  Forall (fun a => origin_of a = Some (o, p)) (snd (bbmd_confirmation b s d m)).
Proof. exact bbmd_source_preserved. Qed.
Print Assumptions C13_source_preserved.

Theorem C13_no_reforward : forall b s d a p x m,
  In (Down x m) (snd (bbmd_confirmation b s d (Forwarded a p))) ->
  (x = DBcast /\ exists u, d = DStation u) \/ (exists y, x = DStation y /\ listed (b_fdt b) y = true).
Proof. exact bbmd_no_reforward. Qed.
Print Assumptions C13_no_reforward.

Theorem C13_distribute_no_echo : forall b s m,
  ~ In (Down (DStation s) m) (to_fdt (filter (fun e => negb (addr_eqb (fd_addr e) s)) (b_fdt b)) m).
Proof.
  intros b s m I. unfold to_fdt in I. apply in_map_iff in I. destruct I as [e [E I]].
  inversion E; subst. apply filter_In in I. destruct I as [_ I]. rewrite addr_eqb_refl in I. discriminate.
Qed.
Print Assumptions C13_distribute_no_echo.

Theorem C13_simple_delivers_once : forall s d p o,
  simple_confirmation s d (OrigBroadcast p) = [Up s DBcast p] /\
  simple_confirmation s d (Forwarded o p) = [Up o DBcast p].
Proof. intros. split; reflexivity. Qed.
Print Assumptions C13_simple_delivers_once.

Theorem C13_foreign_accepts_from_bbmd : forall now f s d o p b,
  f_bbmd f = Some b ->
  foreign_confirmation now f s d (Forwarded o p) =
  Ok (f, if (f_status f =? 0)%Z && addr_eqb s b then [Up o DBcast p] else []).
Proof. exact foreign_accepts_from_bbmd. Qed.
Print Assumptions C13_foreign_accepts_from_bbmd.

(* ---------------------------------------------------------------------------------------------
   C13_broadcast_once for configurations of ARBITRARY size.
   `acfg` (BipDeliv.v) = any list of subnets (BBMD, the mask its peers list it with — /32 "two-hop"
   or the subnet mask "one-hop", chosen per peer —, its broadcast address, any list of ordinary
   nodes), any list of foreign devices each registered with one of the BBMDs, and `a_keep` = which
   BBMD lists which (full c := everybody lists everybody, itself included).  `wf c`: node
   addresses pairwise different, broadcast addresses pairwise different and different from node
   addresses, every device's BBMD exists, every entry's forwarding address is the peer itself or
   the peer's subnet broadcast (decidable: C13_wf_decidable).
   `broadcast n c o p` = the deliveries caused by node o broadcasting p, computed with Bip.v's
   step functions (simple_/bbmd_/foreign_confirmation, *_indication — the functions tied to the
   code by the node-* correspondence) along the delivery tree, to depth 4+n for any n.
   PROVED FOR ALL SIZES (the delivery list in closed form, BipDelivFacts.broadcast_closed, then every
   receiver belongs to exactly one subnet): every delivery is a broadcast showing the originator; no
   address receives two copies; the originator receives none; with full tables every other node
   receives one.
   That the delivery-tree semantics coincides with the FIFO cascade of IpNet.v (IP masks, router,
   queue) is proved for all sizes too: C13_cascade_equals_delivery below.  The link is also (a)
   evaluated on the completely swept family of 774 configurations and every origin, on the worlds
   the registration steps themselves leave (C13_deliv_matches_cascade, C13_family_wf), and (b)
   checked on every run against the IMPLEMENTATION directly by the deliv-* correspondence cases
   (random configurations of up to 8 BBMD subnets, 5 ordinary nodes each, 6 foreign devices, full
   and partial tables). *)
Theorem C13_broadcast_once : forall c o n p, wf c -> In o (all_rcvs c) ->
  let D := broadcast n c o p in
  (forall d, In d D -> d = (d_who d, rcv_addr o, DBcast, p)) /\
  NoDup (map d_addr D) /\
  ~ In (rcv_addr o) (map d_addr D) /\
  (full c -> forall a, In a (all_addrs c) -> a <> rcv_addr o -> In a (map d_addr D)).
Proof. exact broadcast_once_any_size. Qed.
Print Assumptions C13_broadcast_once.

Theorem C13_broadcast_count : forall c o n p a, wf c -> full c -> In o (all_rcvs c) -> In a (all_addrs c) ->
  count_occ addr_eq_dec (map d_addr (broadcast n c o p)) a = if addr_eq_dec a (rcv_addr o) then 0%nat else 1%nat.
Proof. exact broadcast_count_any_size. Qed.
Print Assumptions C13_broadcast_count.

(* partial distribution tables (ANY a_keep, any size; "_partial" = partial tables, the statement is
   proved in full): no duplicates, no echo, true source *)
Theorem C13_no_duplicates_no_echo_partial : forall c o n p, wf c -> In o (all_rcvs c) ->
  let D := broadcast n c o p in
  NoDup (map d_addr D) /\ ~ In (rcv_addr o) (map d_addr D) /\
  (forall d, In d D -> d = (d_who d, rcv_addr o, DBcast, p)).
Proof.
  intros c o n p W I. destruct (broadcast_once_any_size c o n p W I) as [L [N [E _]]]. auto.
Qed.
Print Assumptions C13_no_duplicates_no_echo_partial.

Theorem C13_wf_decidable : forall c, wf_b c = true -> wf c.
Proof. exact wf_b_sound. Qed.
Print Assumptions C13_wf_decidable.

(* tie of the delivery-tree semantics to the network model, swept family *)
Theorem C13_family_wf : forall c, In c family -> wf (abs_cfg c).
Proof. exact family_wf. Qed.
Print Assumptions C13_family_wf.
Theorem C13_deliv_matches_cascade : forall c, In c family -> same_deliveries c = true.
Proof. exact deliv_matches_cascade. Qed.
Print Assumptions C13_deliv_matches_cascade.

(* The cascade model itself (IpNet.v) on the completely swept family of 774 well-formed
   configurations (1..3 subnets each with a BBMD and 0..2 ordinary nodes, every per-peer choice of
   /32 two-hop or /24 one-hop table entries, full tables, 0..2 foreign devices registered from a
   BBMD-less subnet) and every originating node: running the network model to quiescence hands the
   broadcast to every other node exactly once, as a broadcast, showing the originator's address,
   and never to the originator (bcast_ok, spelled out by C13_broadcast_once_spec).
   The members are run from the worlds that real registration steps leave (cfg_world: timers armed,
   clock advanced).  For configurations of arbitrary size the same statement about IpNet.cascade and
   IpNet.do_event is C13_cascade_broadcast_once / C13_do_event_broadcast_once below, on the worlds
   world_of builds directly. *)
Theorem C13_broadcast_once_partial : forall c w o,
  In c family -> cfg_world c = Ok w -> (o < length (w_nodes w))%nat -> bcast_ok w o = true.
Proof. exact broadcast_once_family. Qed.
Print Assumptions C13_broadcast_once_partial.

Theorem C13_broadcast_once_spec : forall w o, bcast_ok w o = true ->
  exists no w' log, nth_error (w_nodes w) o = Some no /\ step w 900%Z (EBcast o 777) = Ok (w', log) /\
    (forall i s d p, In (i, s, d, p) (ups log) -> s = n_addr no /\ d = DBcast /\ p = 777) /\
    (forall i, (i < length (w_nodes w))%nat ->
       length (filter (fun x => match x with (j, _, _, _) => Nat.eqb i j end) (ups log))
       = if Nat.eqb i o then 0%nat else 1%nat).
Proof. exact bcast_ok_spec. Qed.
Print Assumptions C13_broadcast_once_spec.

(* reported separately (known finding C13-K1, not a failure of the served-window clause): a BBMD
   distributes a Distribute-Broadcast-To-Network from a source it does not list *)
Theorem C13_distribute_from_unlisted_refuted :
  exists b s p, listed (b_fdt b) s = false /\
    In (Down DBcast (Forwarded s p)) (snd (bbmd_confirmation b s (DStation (b_addr b)) (Distribute p))).
Proof.
  exists (mkBbmd (mkA 167837954 47808) [mkBdte (mkA 167837954 47808) 4294967295] [] true),
         (mkA 180879400 47808), 7.
  split; vm_compute; auto.
Qed.
Print Assumptions C13_distribute_from_unlisted_refuted.

(* ---------------------------------------------------------------------------------------------
   The delivery-tree semantics EQUALS the cascade model (IpNet.v: masks, router, FIFO
   queue) on EVERY well-formed configuration, any size, any mix of entry styles, full or partial
   tables.  `world_of c lans sl fl now` is the IpNet world of configuration c: the nodes of c in
   the order of all_rcvs, subnet s on LAN `sl s`, foreign device x on LAN `fl x`.  `net_ok` says the
   placement is sound: the router sends every node / broadcast address to exactly its own LAN
   (`homes`, computed with the same mask test as IpNet.routed), LAN `sl s` has broadcast address
   sb_bcast s, one BBMD subnet per LAN, foreign devices on LANs without BBMD, no node address is a
   LAN broadcast address.  `emitted ... o (originate c o p)` are the datagrams node o puts on its
   LAN (IpNet.emit), i.e. the queue IpNet.do_event (EBcast) starts the cascade with.
   Proof: (1) CascadeTree.cascade_is_forest — for any world, as long as no node changes state the
   FIFO cascade's log is a permutation of the delivery forest of its queue (queue order is
   irrelevant); (2) hop / arrive_ucast / arrive_bcast — away from its home LAN nobody hears a
   datagram and the router copies it to the home LAN only; there exactly BipDeliv.receivers hear
   it; (3) react_flow — reactions to Original-Broadcast / Forwarded-NPDU (and a BBMD's to
   Distribute-Broadcast) are stateless and stay in that class; (4) pend_origin — the tree of a
   broadcast is complete within depth 4; induction over the depth (cascade_spread: one level of the
   tree is at most two of the cascade forest, sender's LAN then home LAN, hence 2 * (3 + n)).
   The fuel hypothesis is necessary: IpNet.cascade stops with OutOfFuel otherwise (IpNet.act
   supplies cascade_fuel = 4000 datagrams). *)
Theorem C13_cascade_equals_delivery : forall c lans sl fl now, wf c -> net_ok c lans sl fl ->
  forall o n p fuel, In o (all_rcvs c) ->
  (list_sum (map (tsize (2 * (3 + n)) (world_of c lans sl fl now)) (emitted c lans sl fl now o (originate c o p))) < fuel)%nat ->
  exists log, cascade fuel (world_of c lans sl fl now) (emitted c lans sl fl now o (originate c o p)) [] = Ok (world_of c lans sl fl now, log) /\
              Permutation (up_addrs (world_of c lans sl fl now) log) (map dl (broadcast n c o p)).
Proof. exact cascade_equals_delivery. Qed.
Print Assumptions C13_cascade_equals_delivery.

(* C13_broadcast_once for the cascade model itself, every size *)
Theorem C13_cascade_broadcast_once : forall c lans sl fl now o n p fuel,
  wf c -> net_ok c lans sl fl -> In o (all_rcvs c) ->
  let w := world_of c lans sl fl now in
  let q := emitted c lans sl fl now o (originate c o p) in
  (list_sum (map (tsize (2 * (3 + n)) w) q) < fuel)%nat ->
  exists log, cascade fuel w q [] = Ok (w, log) /\
    let D := up_addrs w log in
    (forall d, In d D -> d = (a_rcv d, rcv_addr o, DBcast, p)) /\
    NoDup (map a_rcv D) /\
    ~ In (rcv_addr o) (map a_rcv D) /\
    (full c -> forall a, In a (all_addrs c) -> a <> rcv_addr o -> In a (map a_rcv D)).
Proof. exact cascade_broadcast_once. Qed.
Print Assumptions C13_cascade_broadcast_once.

(* the same through the model's own event function IpNet.do_event (EBcast i p), with the fuel the
   model supplies (cascade_fuel = 4000 datagrams) *)
Theorem C13_do_event_broadcast_once : forall c lans sl fl now i o n p,
  wf c -> net_ok c lans sl fl -> nth_error (all_rcvs c) i = Some o ->
  let w := world_of c lans sl fl now in
  (list_sum (map (tsize (2 * (3 + n)) w) (emitted c lans sl fl now o (originate c o p))) < cascade_fuel)%nat ->
  exists log, do_event w (EBcast i p) [] = Ok (w, log) /\
    let D := up_addrs w log in
    Permutation D (map dl (broadcast n c o p)) /\
    (forall d, In d D -> d = (a_rcv d, rcv_addr o, DBcast, p)) /\
    NoDup (map a_rcv D) /\ ~ In (rcv_addr o) (map a_rcv D) /\
    (full c -> forall a, In a (all_addrs c) -> a <> rcv_addr o -> In a (map a_rcv D)).
Proof. exact do_event_broadcast_once. Qed.
Print Assumptions C13_do_event_broadcast_once.

(* the queue lemma on its own: any world, any queue order *)
Theorem C13_cascade_order_irrelevant : forall n w fuel q log,
  Forall (good n w) q -> (list_sum (map (tsize n w) q) < fuel)%nat ->
  exists log', cascade fuel w q log = Ok (w, log') /\ Permutation log' (log ++ flat_map (tree n w) q).
Proof. exact cascade_is_forest. Qed.
Print Assumptions C13_cascade_order_irrelevant.

(* ---------------------------------------------------------------------------------------------
   ONE REGISTRATION, BOTH ENDS, ANY NUMBER OF RENEWALS (BipLife.v).  `pair_run me rounds s`
   composes Bip.v's own step functions: per round the device's task fires at its due instant r
   (foreign_renew; an expiry of _registration_timeout_task due by then fires first: fire_expiry),
   the frames it addresses to the BBMD go through bbmd_confirmation, the frames the BBMD addresses
   to the device go through foreign_confirmation d ms later (again after a due expiry), then the
   BBMD lives through `es` (1 s ticks, any frames).  `inv` = the state register() leaves
   (C13_register_starts_life); `round_fine` = the answer takes 0 <= d < 30 s, the BBMD sees fewer
   than T+5 ticks and no other registration / deletion of this address before the next renewal
   (exactly T ticks lie between two renewals: C13_renewal_before_expiry).  0 < T < 65536: the TTL
   field of Register-Foreign-Device has 16 bits.
   After EVERY such sequence of rounds (every prefix is one): status 0, listed with T+5-ticks
   seconds left, own expiry at least 30 s beyond the next renewal — hence (C13_no_expiry_while_renewing)
   the expiry never fires while the renewals go on, and (C13_alive_is_served) the BBMD addresses a
   copy of every broadcast to the device, the device hands it up and distributes its own. *)
Theorem C13_renewing_device_stays_served : forall me T rounds s d es,
  (0 < T < 65536)%Z -> inv me T s -> Forall (round_fine me T) (rounds ++ [(d, es)]) ->
  exists s', pair_run me (rounds ++ [(d, es)]) s = Ok s' /\ alive me T es s'.
Proof. exact pair_alive. Qed.
Print Assumptions C13_renewing_device_stays_served.

Theorem C13_no_expiry_while_renewing : forall me T last s, alive me T last s ->
  exists r, f_renew (p_dev s) = Some r /\
    forall t, (t < r + 30000)%Z -> fire_expiry t (p_dev s) = p_dev s /\ f_status (fire_expiry t (p_dev s)) = 0%Z.
Proof. exact no_expiry_while_renewing. Qed.
Print Assumptions C13_no_expiry_while_renewing.

Theorem C13_alive_is_served : forall me T last s o p now d, alive me T last s ->
  In (Down (DStation me) (Forwarded o p)) (snd (bbmd_confirmation (p_bbmd s) o DBcast (OrigBroadcast p))) /\
  foreign_confirmation now (p_dev s) (b_addr (p_bbmd s)) d (Forwarded o p) = Ok (p_dev s, [Up o DBcast p]) /\
  foreign_indication (p_dev s) DBcast p = Ok [Down (DStation (b_addr (p_bbmd s))) (Distribute p)].
Proof. exact alive_is_served. Qed.
Print Assumptions C13_alive_is_served.

Theorem C13_register_starts_life : forall me T f f' b,
  foreign_register f (b_addr b) T = Ok f' -> NoDup (map fd_addr (b_fdt b)) -> inv me T (mkPair f' b) /\ (0 < T)%Z.
Proof. exact register_gives_inv. Qed.
Print Assumptions C13_register_starts_life.

(* T < 65536 is necessary in C13_renewing_device_stays_served: with TTL 65537 (outside the property's 1..300 s) the
   Register-Foreign-Device frame carries 1, and after one fine round with six ticks the acknowledged device
   (status 0) is no longer listed *)
Theorem C13_ttl_over_16_bits_refuted :
  exists me T f' b d es s',
    foreign_register (mkForeign (-1) None None None None) (b_addr b) T = Ok f' /\
    inv me T (mkPair f' b) /\ round_fine me T (d, es) /\ (65536 <= T)%Z /\
    pair_run me [(d, es)] (mkPair f' b) = Ok s' /\
    f_status (p_dev s') = 0%Z /\ listed (b_fdt (p_bbmd s')) me = false.
Proof. exact ttl_over_16_bits_witness. Qed.
Print Assumptions C13_ttl_over_16_bits_refuted.

(* ... and when the answers stop, the device gives up by itself at the instant the last
   acknowledgement armed (last ack + (T+30) s: C13_ack_sets_expiry): status -1, nothing accepted,
   nothing distributed.  (The BBMD's side of the same silence is C13_fdt_served_window.) *)
Theorem C13_device_expires_after_silence : forall t f e, f_expire f = Some e -> (e <= t)%Z ->
  f_status (fire_expiry t f) = (-1)%Z /\ f_expire (fire_expiry t f) = None /\
  (forall now s d a p, f_bbmd f <> None -> exists b, f_bbmd f = Some b /\
      foreign_confirmation now (fire_expiry t f) s d (Forwarded a p) = Ok (fire_expiry t f, [])) /\
  (forall p, foreign_indication (fire_expiry t f) DBcast p = Ok []).
Proof. exact expiry_fires. Qed.
Print Assumptions C13_device_expires_after_silence.

(* the 1 s tick, entry by entry: the table after a tick is the list of entries with more than one
   second left, in the same order, each one second older — no entry is skipped or aged twice,
   whatever is removed next to it *)
Theorem C13_tick_ages_every_entry : forall t,
  fdt_tick t = map dec (filter (fun e => 1 <? fd_remain e) t).
Proof. exact tick_ages_every_entry. Qed.
Print Assumptions C13_tick_ages_every_entry.

Theorem C13_tick_listed : forall t a,
  listed (fdt_tick t) a = true <-> exists e, In e t /\ fd_addr e = a /\ 1 < fd_remain e.
Proof. exact tick_listed. Qed.
Print Assumptions C13_tick_listed.

(* several devices registered with the same time-to-live between two ticks (any number, any order,
   any other quiet traffic afterwards): each is listed exactly while fewer than T+5 ticks have passed —
   they all leave the table in the same tick *)
Theorem C13_group_expiry : forall srcs b d T es,
  NoDup (map fd_addr (b_fdt b)) -> NoDup srcs ->
  (forall s, In s srcs -> Forall (quiet s) es) ->
  forall s, In s srcs ->
  listed (b_fdt (bbmd_run (register_all b d T srcs) es)) s = (ticks es <? T + 5).
Proof. exact group_expiry. Qed.
Print Assumptions C13_group_expiry.

(* a foreign device never hands an Original-Broadcast-NPDU to its network layer (the copy that counts
   is its BBMD's Forwarded-NPDU), in any state; what it does hand up as a broadcast is a
   Forwarded-NPDU from its own BBMD while registered (or a unicast that arrived by broadcast) *)
Theorem C13_foreign_drops_original_broadcast : forall now f s d p,
  foreign_confirmation now f s d (OrigBroadcast p) = Ok (f, []).
Proof. exact foreign_drops_original_broadcast. Qed.
Print Assumptions C13_foreign_drops_original_broadcast.

Theorem C13_foreign_up_only_from_bbmd : forall now f s d m f' acts src p,
  foreign_confirmation now f s d m = Ok (f', acts) -> In (Up src DBcast p) acts ->
  (exists a, m = Forwarded a p /\ src = a /\ f_bbmd f = Some s /\ f_status f = 0%Z) \/
  (m = OrigUnicast p /\ d = DBcast /\ src = s).
Proof. exact foreign_up_only_from_bbmd. Qed.
Print Assumptions C13_foreign_up_only_from_bbmd.

(* non-vacuity *)
Example C13_window_example :
  let b := mkBbmd (mkA 167837954 47808) [] [] true in
  let src := mkA 180879400 47808 in
  let es := [BTick; BConf (mkA 167838042 47808) (DStation (mkA 167837954 47808)) ReadFDT; BTick; BInd DBcast 9; BTick] in
  NoDup (map fd_addr (b_fdt b)) /\ Forall (quiet src) es /\ ticks es = 3 /\
  find (b_fdt (bbmd_run (fst (bbmd_step b (BConf src DBcast (RegisterFD 1)))) es)) src = Some (mkFdte src 1 3).
Proof.
  cbv zeta. split; [constructor|]. split; [repeat constructor|]. split; vm_compute; reflexivity.
Qed.
Example C13_family_example :
  In (mkCfg [2; 0; 1]%nat [true; false; true] 2) family /\
  exists w, cfg_world (mkCfg [2; 0; 1]%nat [true; false; true] 2) = Ok w /\ length (w_nodes w) = 8%nat.
Proof. exact family_member. Qed.
Example C13_renewal_example :
  exists f', foreign_renew 500 (mkForeign 0 (Some (mkA 167837954 47808)) (Some 30%Z) None None) = Ok f'.
Proof. eexists. reflexivity. Qed.

Example C13_any_size_example :
  let c := mkAcfg
    (map (fun k => mkSub (mkA (167772162 + 65536 * k) 47808) (if N.even k then 4294967295 else 4294967040)
                         (mkA (167772415 + 65536 * k) 47808)
                         (map (fun j => mkA (167772170 + 65536 * k + j) 47808) [0; 1; 2; 3; 4; 5; 6]))
         [1; 2; 3; 4; 5; 6; 7; 8; 9; 10; 11; 12])
    (map (fun j => (mkA (180879400 + j) 47808, mkA (167772162 + 65536 * (1 + j mod 12)) 47808)) [0; 1; 2; 3; 4; 5; 6; 7; 8; 9])
    keep_all in
  wf c /\ full c /\ length (all_rcvs c) = 106%nat /\
  length (broadcast 0 c (RS (nth 3 (a_subs c) (mkSub (0,0) 0 (0,0) [])) (mkA (167772170 + 65536 * 4 + 2) 47808)) 5) = 105%nat.
Proof.
  cbv zeta. split; [apply wf_b_sound; vm_compute; reflexivity|]. split; [intros b p; reflexivity|].
  split; vm_compute; reflexivity.
Qed.

(* net_ok and wf are satisfiable together: two subnets (one listed /32, one with its subnet mask),
   three ordinary nodes, two foreign devices on a third LAN; the cascade with 100 datagrams of fuel *)
Definition ex_c : acfg :=
  mkAcfg [mkSub (mkA 167837954 47808) 4294967295 (mkA 167838207 47808) [mkA 167837962 47808];
          mkSub (mkA 167903746 47808) 4294967040 (mkA 167903999 47808) [mkA 167903754 47808; mkA 167903755 47808]]
         [(mkA 180879400 47808, mkA 167837954 47808); (mkA 180879401 47808, mkA 167903746 47808)] keep_all.
Definition ex_lans : list lan := [mkLan 167837952 4294967040 47808; mkLan 167903744 4294967040 47808; mkLan 180879360 4294967040 47808].
Definition ex_sl (s : sub) : nat := if fst (sb_bbmd s) =? 167837954 then 0%nat else 1%nat.
Definition ex_fl (x : addr * addr) : nat := 2%nat.
Example C13_net_ok_example :
  wf ex_c /\ net_ok ex_c ex_lans ex_sl ex_fl /\
  (list_sum (map (tsize (2 * (3 + 0)) (world_of ex_c ex_lans ex_sl ex_fl 0))
                 (emitted ex_c ex_lans ex_sl ex_fl 0 (RF (mkA 180879401 47808, mkA 167903746 47808))
                          (originate ex_c (RF (mkA 180879401 47808, mkA 167903746 47808)) 9))) < 100)%nat.
Proof.
  split; [apply wf_b_sound; vm_compute; reflexivity|]. split.
  - split.
    + intros r I; cbn in I; repeat (destruct I as [<-|I]; [vm_compute; lia|]); contradiction.
    + intros r I; cbn in I; repeat (destruct I as [<-|I]; [vm_compute; reflexivity|]); contradiction.
    + intros s I; cbn in I; repeat (destruct I as [<-|I]; [vm_compute; reflexivity|]); contradiction.
    + intros s I; cbn in I; repeat (destruct I as [<-|I]; [vm_compute; reflexivity|]); contradiction.
    + intros l Hl. destruct l as [|[|[|l]]]; [vm_compute; auto | vm_compute; auto | vm_compute; auto | cbn in Hl; lia].
    + intros s s' I I' E; cbn in I, I'.
      repeat (destruct I as [<-|I]; [repeat (destruct I' as [<-|I']; [first [reflexivity | vm_compute in E; discriminate]|]); contradiction|]); contradiction.
    + intros x s Ix Is; cbn in Ix, Is.
      repeat (destruct Ix as [<-|Ix]; [repeat (destruct Is as [<-|Is]; [vm_compute; discriminate|]); contradiction|]); contradiction.
    + intros r l I Hl. destruct l as [|[|[|l]]]; [| | | cbn in Hl; lia];
        cbn in I; repeat (destruct I as [<-|I]; [vm_compute; discriminate|]); contradiction.
  - vm_compute. lia.
Qed.

(* a device registers with TTL 7 (not a divisor of 30), renews five times with
   answers 0..29.999 s late while two other devices come and go at the BBMD: still alive *)
Example C13_life_example :
  let me := mkA 180879400 47808 in
  let b := mkBbmd (mkA 167837954 47808) [] [mkFdte (mkA 180879401 47808) 30 12] true in
  let other := BConf (mkA 180879402 47808) (DStation (mkA 167837954 47808)) (RegisterFD 1) in
  let es := [BTick; BTick; other; BTick; BTick; BTick; BInd DBcast 5; BTick; BTick] in
  let rounds := [(0, es); (29999, es); (1, es); (250, es); (12000, es ++ [BTick; BTick; BTick])]%Z in
  exists f' s', foreign_register (mkForeign (-2) None None None None) (b_addr b) 7 = Ok f' /\
    inv me 7 (mkPair f' b) /\ Forall (round_fine me 7) rounds /\
    pair_run me rounds (mkPair f' b) = Ok s' /\ f_status (p_dev s') = 0%Z /\
    f_renew (p_dev s') = Some 35000%Z /\ f_expire (p_dev s') = Some 77000%Z /\
    find (b_fdt (p_bbmd s')) me = Some (mkFdte me 7 2).
Proof.
  cbv zeta. eexists. eexists. split; [reflexivity|]. split.
  - apply (register_gives_inv _ 7%Z (mkForeign (-2) None None None None)); [reflexivity|].
    cbn. constructor; [intros []|constructor].
  - split.
    + repeat (constructor; [split; [cbn; lia|split; [repeat constructor; cbn; try discriminate; congruence|vm_compute; reflexivity]]|]). constructor.
    + split; [vm_compute; reflexivity|]. repeat split.
Qed.
Example C13_group_example :
  let b := mkBbmd (mkA 167837954 47808) [] [] true in
  let srcs := [mkA 180879400 47808; mkA 180879401 47808; mkA 180879402 47808] in
  NoDup srcs /\ (forall s, In s srcs -> Forall (quiet s) [BTick; BTick; BTick; BTick; BTick; BTick]) /\
  b_fdt (bbmd_run (register_all b DBcast 1 srcs) [BTick; BTick; BTick; BTick; BTick]) =
    map (fun s => mkFdte s 1 1) srcs /\
  b_fdt (bbmd_run (register_all b DBcast 1 srcs) [BTick; BTick; BTick; BTick; BTick; BTick]) = [].
Proof.
  cbv zeta. split.
  - repeat constructor; cbn; intuition discriminate.
  - split; [intros s _; repeat constructor|]. split; vm_compute; reflexivity.
Qed.
