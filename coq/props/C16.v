(* C16 — COV subscribers are told of every qualifying change, and only while subscribed.
   Property theorems over the model Bac.Cov (the code after the four C16 `fix:` commits), in which the
   deferred-function queue is a state component: `Write`, `SubscribeNow`, `CancelNow`, `ReadNow` leave it alone,
   `StepQ` runs its head, `Drain` all of it, `Subscribe`/`Cancel`/`ReadActive` = Drain; request; Drain.
   Proofs live in Bac.CovFacts / Bac.CovRun / Bac.CovQueue / Bac.CovRound.  `inv` is the reachable-state invariant
   (no two table entries with one key; object identifiers distinct; every entry unexpired),
   `wf_ev` says lifetimes are unsigned and time does not run backwards. *)
From Bac Require Import Base Cov CovFacts CovRun CovQueue CovRound.
Open Scope Z_scope.

(* every state reachable from a device with distinct object identifiers, by ANY interleaving of well-formed events,
   satisfies the table invariant (one entry per key, every entry unexpired) *)
Theorem C16_reachable_inv : forall os es, NoDup (oids os) -> Forall wf_ev es -> inv (fst (run (init os) es)).
Proof. exact (fun os es Ho Hw => run_inv es (init os) (init_inv os Ho) Hw). Qed.
Print Assumptions C16_reachable_inv.

(* ... and the three invariants together are kept by every run: table, identities of Subscription objects unique,
   deferred queue consistent with the trigger flags (CovQueue.run_q_init: they hold from `init`) *)
Theorem C16_reachable_all : forall es s, inv s -> idinv s -> qinv s -> Forall wf_ev es ->
  let s' := fst (run s es) in inv s' /\ idinv s' /\ qinv s'.
Proof. exact run_q. Qed.
Print Assumptions C16_reachable_all.

(* a re-subscription replaces: at most one table entry per (client, process, object), whatever the history *)
Theorem C16_table_nodup : forall os es, NoDup (oids os) -> Forall wf_ev es ->
  NoDup (keys (subs (fst (run (init os) es)))).
Proof. exact (fun os es Ho Hw => proj1 (run_inv es (init os) (init_inv os Ho) Hw)). Qed.
Print Assumptions C16_table_nodup.

(* SubscribeCOV on an object that supports COV: acknowledged, table entry with the requested mode and
   lifetime, re-timed to now + lifetime (absent or 0 = no expiry), and an initial notification in the
   requested mode with the current values and the full lifetime as time remaining *)
Theorem C16_subscribe_ack_initial : forall s c p o cf life s' out ob,
  inv s -> idinv s -> wf_ev (Subscribe c p o cf life) -> step s (Subscribe c p o cf life) = (s', out) ->
  find_obj o (objs s) = Some ob -> okind ob <> KNoCov ->
  o_ack out = 1 /\
  In (mkNtf c p o cf (life_of life) (pv ob) (fl ob) (now s)) (o_ntfs out) /\
  queue s' = [] /\
  exists x, find_sub c p o (subs s') = Some x /\ s_conf x = cf /\ s_life x = life_of life /\
    (life_of life = 0 -> s_task x = None) /\
    (0 < life_of life -> exists k, s_task x = Some (now s + life_of life * TICKS, k)).
Proof. exact subscribe_initial. Qed.
Print Assumptions C16_subscribe_ack_initial.

(* analog objects: the filter fires exactly when |new - last reported| >= increment *)
Theorem C16_increment_criterion : forall pr v i, inc_filter pr v i = true <-> i <= Z.abs (v - pr).
Proof. intros. rewrite inc_filter_abs. lia. Qed.
Print Assumptions C16_increment_criterion.

(* ... and that filter is what a write of presentValue evaluates (first qualifying write of a round) *)
Theorem C16_increment_write : forall o v pr,
  bound o = true -> trig o = false -> reports_prev (okind o) = true -> prev o = Some pr ->
  trig (write_obj o PPv v) = (inc o <=? Z.abs (v - pr)) /\ pv (write_obj o PPv v) = v
  /\ prev (write_obj o PPv v) = Some pr.
Proof.
  intros o v pr Hb Ht Hk Hp. destruct (write_pv_reference o v Hb Ht Hk) as [T Pr]. unfold reference in T, Pr. rewrite Hp in T, Pr.
  split; [exact T|]. split; [apply write_pv_vals|exact Pr].
Qed.
Print Assumptions C16_increment_write.

(* other tracked properties (value of binary / multi-state objects, status flags, the increment of analog
   objects): any change triggers, an equal value does not *)
Theorem C16_any_change_write : forall o p v,
  bound o = true -> trig o = false -> tracked (okind o) p = true ->
  (p = PPv -> reports_prev (okind o) = false) ->
  trig (write_obj o p v) = negb (get_val o p =? v).
Proof. exact write_generic_trig. Qed.
Print Assumptions C16_any_change_write.

(* bursts coalesce: once triggered, later writes of the round only update the reported values *)
Theorem C16_burst_coalesces : forall o p v, trig o = true ->
  trig (write_obj o p v) = true /\ prev (write_obj o p v) = prev o /\ get_val (write_obj o p v) p = v.
Proof. exact write_triggered. Qed.
Print Assumptions C16_burst_coalesces.

(* one _execute = one notification round: when the pending _execute of the live detection instance of object o
   runs (StepQ, at any point of any interleaving), every subscription the object has at that moment gets exactly
   one notification with the then-current values, nobody else gets anything, the trigger is cleared and the
   reported value becomes the reference *)
Theorem C16_one_per_qualifying_change : forall s o g r ob s' out, inv s -> queue s = DExec o g :: r ->
  find_obj o (objs s) = Some ob -> bound ob = true -> gen ob = g ->
  step s StepQ = (s', out) ->
  o_ntfs out = map (mk_ntf (now s) ob) (subs_of o (subs s)) /\
  NoDup (map nkey (o_ntfs out)) /\
  (forall x, In x (subs s) -> s_oid x = o -> In (mk_ntf (now s) ob x) (o_ntfs out)) /\
  (forall n, In n (o_ntfs out) -> n_oid n = o /\ n_pv n = pv ob /\ n_fl n = fl ob) /\
  queue s' = r /\ subs s' = subs s /\
  exists ob', find_obj o (objs s') = Some ob' /\ trig ob' = false /\ pv ob' = pv ob /\
    (reports_prev (okind ob) = true -> prev ob' = Some (pv ob)).
Proof. exact execute_step. Qed.
Print Assumptions C16_one_per_qualifying_change.

(* ... and in every reachable state (qinv) a triggered detection has exactly one such _execute pending, an
   untriggered one none (bursts coalesce at the queue, whatever is interleaved), and an empty queue means that
   nothing is triggered *)
Theorem C16_pending_execute : forall s ob, qinv s -> In ob (objs s) ->
  (bound ob = true -> trig ob = true -> In (DExec (oid ob) (gen ob)) (queue s)) /\
  (bound ob = true -> (cnt (DExec (oid ob) (gen ob)) (queue s) <= 1)%nat) /\
  (bound ob = true -> In (DExec (oid ob) (gen ob)) (queue s) -> trig ob = true) /\
  (queue s = [] -> trig ob = false).
Proof. exact pending_execute. Qed.
Print Assumptions C16_pending_execute.

(* a write enqueues the _execute exactly when it sets the trigger *)
Theorem C16_write_enqueues : forall s i p v o s' out, nth_error (objs s) i = Some o -> has_prop (okind o) p = true ->
  step s (Write i p v) = (s', out) ->
  queue s' = (if negb (trig o) && trig (write_obj o p v) then queue s ++ [DExec (oid o) (gen o)] else queue s) /\
  (trig o = true -> queue s' = queue s) /\ o_ntfs out = [] /\ subs s' = subs s.
Proof.
  intros s i p v o s' out N Hp S. cbn [step] in S. unfold write_ev in S. rewrite N, Hp in S. inversion S; subst s' out.
  cbn. split; [reflexivity|]. split; [intro Ht; rewrite Ht; reflexivity|auto].
Qed.
Print Assumptions C16_write_enqueues.

(* the _execute of a detection instance that was unbound meanwhile (last subscription cancelled or expired, perhaps
   re-created since) reaches nobody *)
Theorem C16_stale_execute : forall s o g r s' out, queue s = DExec o g :: r ->
  (forall ob, find_obj o (objs s) = Some ob -> bound ob = false \/ gen ob <> g) ->
  step s StepQ = (s', out) -> o_ntfs out = [] /\ s' = set_queue s r.
Proof. exact stale_execute_step. Qed.
Print Assumptions C16_stale_execute.

(* the deferred initial notification goes to that Subscription object if it is still in the table and is dropped
   otherwise (fix C16-F4) *)
Theorem C16_initial_step : forall s i r s' out, queue s = DInit i :: r -> step s StepQ = (s', out) ->
  match find_id i (subs s) with
  | Some x => forall ob, find_obj (s_oid x) (objs s) = Some ob -> o_ntfs out = [mk_ntf (now s) ob x]
  | None => o_ntfs out = [] /\ s' = set_queue s r
  end.
Proof.
  intros s i r s' out Q S. cbn [step] in S. rewrite Q in S. cbn [run_dfn] in S. cbn [subs objs set_queue] in S.
  destruct (find_id i (subs s)) as [x|].
  - intros ob F. rewrite F in S. inversion S; reflexivity.
  - inversion S; auto.
Qed.
Print Assumptions C16_initial_step.

(* every notification of every event: addressed to a table entry (or the subscription just made), in that
   entry's mode, emitted no later than its expiry instant, time remaining = max 1 (whole seconds left), 0 iff
   the subscription is indefinite.  (DESIGN.md expected this one refuted; it holds after the renewal fix.) *)
Theorem C16_time_remaining : forall s e s' out n,
  inv s -> wf_ev e -> step s e = (s', out) -> In n (o_ntfs out) ->
  exists x, (In x (subs s) \/ (In x (subs s') /\ is_subscribe_of (key x) e)) /\
    nkey n = key x /\ n_conf n = s_conf x /\ now s <= n_at n <= now s' /\
    match s_task x with
    | Some (t, _) => n_at n <= t /\ n_trem n = remaining (s_life x) t (n_at n) /\ 0 < s_life x
    | None => n_trem n = 0 /\ s_life x = 0
    end.
Proof. exact notification_content. Qed.
Print Assumptions C16_time_remaining.

(* after an acknowledged cancellation (drained or not) nothing is sent to that subscriber until it subscribes again,
   whatever is still in the deferred queue *)
Theorem C16_no_notify_after_cancel : forall s e k s' out es,
  inv s -> is_cancel_of k e -> step s e = (s', out) -> o_ack out = 1 ->
  Forall wf_ev es -> Forall (fun e => ~ is_subscribe_of k e) es ->
  forall n, In n (all_ntfs (snd (run s' es))) -> nkey n <> k.
Proof. exact no_notify_after_cancel. Qed.
Print Assumptions C16_no_notify_after_cancel.

(* a subscription with expiry instant t that is not renewed is never notified after t (equality only when a
   pulse-converter period boundary falls on t and its timer is ahead in the heap), always in its own mode *)
Theorem C16_no_notify_after_expiry : forall es s x t k,
  inv s -> In x (subs s) -> s_task x = Some (t, k) -> Forall wf_ev es ->
  Forall (fun e => ~ is_subscribe_of (key x) e) es ->
  forall n, In n (all_ntfs (snd (run s es))) -> nkey n = key x ->
  n_at n <= t /\ n_trem n = remaining (s_life x) t (n_at n) /\ n_conf n = s_conf x.
Proof. exact no_notify_after_expiry. Qed.
Print Assumptions C16_no_notify_after_expiry.

(* ... and the table never holds an elapsed subscription *)
Theorem C16_table_unexpired : forall os es, NoDup (oids os) -> Forall wf_ev es ->
  let s := fst (run (init os) es) in
  forall x, In x (subs s) ->
    match s_task x with Some (t, _) => now s < t /\ 0 < s_life x | None => s_life x = 0 end.
Proof.
  intros os es Ho Hw s x Hx. pose proof (run_inv es (init os) (init_inv os Ho) Hw) as [_ [_ Hl]].
  rewrite Forall_forall in Hl. specialize (Hl x Hx). unfold sub_live in Hl.
  destruct (s_task x) as [[t k]|]; [tauto|exact Hl].
Qed.
Print Assumptions C16_table_unexpired.

(* the activeCovSubscriptions list is the table: same keys in the same order, no duplicates, each with its
   mode and the time remaining of an unexpired entry *)
Theorem C16_active_list_exact : forall s c s' out, inv s -> (step s (ReadActive c) = (s', out) \/ step s (ReadNow c) = (s', out)) ->
  exists l, o_act out = Some l /\ map akey l = keys (subs s) /\ NoDup (map akey l) /\
    forall a, In a l -> exists x, In x (subs s) /\ akey a = key x /\ a_conf a = s_conf x /\
      match s_task x with
      | Some (t, _) => now s < t /\ a_trem a = remaining (s_life x) t (now s)
      | None => a_trem a = 0 /\ s_life x = 0
      end.
Proof. exact active_list_exact. Qed.
Print Assumptions C16_active_list_exact.

(* ... and an entry leaves the table only by its own cancellation, replacement or expiry *)
Theorem C16_subscription_persists : forall s e s' out x, inv s -> wf_ev e -> step s e = (s', out) ->
  In x (subs s) -> ~ is_subscribe_of (key x) e -> ~ is_cancel_of (key x) e ->
  (forall t, e = Advance t -> not_due_before x (now s + t)) ->
  In x (subs s').
Proof.
  intros s e s' out x Hi Hwf S Hx Hns Hnc Hadv. apply (sp_keep _ _ _ _ (step_facts _ _ _ _ Hi Hwf S) x Hx). intro Hd.
  destruct e; cbn in Hd, Hns, Hnc; try tauto. destruct Hd as [tx [k [E Hle]]].
  specialize (Hadv t eq_refl). unfold not_due_before in Hadv. rewrite E in Hadv. lia.
Qed.
Print Assumptions C16_subscription_persists.

(* ---- whole rounds, from one quiescent instant (empty deferred queue) to the next: the sentence of the property itself.
   `reference o` = COVIncrementCriteria.previous_reported_value (the value of the last notification; the value the object
   had while nothing has been reported yet).  A presentValue write on an analog / pulse-converter object followed by the
   drain: at least one increment away from the reference => every subscription of the object gets exactly one
   notification (mode, time remaining of its entry; the written value, the current flags) and the written value is the
   new reference; less than one increment => nobody gets anything and the reference stays. *)
Theorem C16_change_round_increment : forall s i v o s1 o1 s2 out,
  inv s -> qinv s -> queue s = [] -> nth_error (objs s) i = Some o -> bound o = true -> reports_prev (okind o) = true ->
  step s (Write i PPv v) = (s1, o1) -> step s1 Drain = (s2, out) ->
  o_ntfs o1 = [] /\ queue s2 = [] /\ subs s2 = subs s /\
  (inc o <= Z.abs (v - reference o) ->
     o_ntfs out = map (fun x => mkNtf (s_cli x) (s_proc x) (s_oid x) (s_conf x) (trem (now s) x) v (fl o) (now s))
                      (subs_of (oid o) (subs s)) /\
     NoDup (map nkey (o_ntfs out)) /\
     exists ob', find_obj (oid o) (objs s2) = Some ob' /\ reference ob' = v /\ pv ob' = v /\ trig ob' = false) /\
  (Z.abs (v - reference o) < inc o ->
     o_ntfs out = [] /\
     exists ob', find_obj (oid o) (objs s2) = Some ob' /\ reference ob' = reference o /\ pv ob' = v /\ trig ob' = false).
Proof. exact change_round_increment. Qed.
Print Assumptions C16_change_round_increment.

(* ... for the other objects (and for status flags / the increment of analog objects): any change of a tracked
   property notifies every subscription of the object once, an equal value nobody *)
Theorem C16_change_round_generic : forall s i p v o s1 o1 s2 out,
  inv s -> qinv s -> queue s = [] -> nth_error (objs s) i = Some o -> bound o = true ->
  has_prop (okind o) p = true -> tracked (okind o) p = true -> (p = PPv -> reports_prev (okind o) = false) ->
  step s (Write i p v) = (s1, o1) -> step s1 Drain = (s2, out) ->
  (get_val o p <> v ->
     o_ntfs out = map (mk_ntf (now s) (set_val o p v)) (subs_of (oid o) (subs s)) /\ NoDup (map nkey (o_ntfs out))) /\
  (get_val o p = v -> o_ntfs out = []).
Proof. exact change_round_generic. Qed.
Print Assumptions C16_change_round_generic.

(* bursts within one instant: the first write crosses the increment, ANY number of further presentValue writes follow
   before the deferred notification runs.  One notification per subscription, carrying the LAST value written, and that
   value - the one actually reported, not the one that set the trigger - is the reference of the increment test from
   then on (DetectionMonitor.property_change mirrors every write into the algorithm before the _triggered short-cut). *)
Theorem C16_burst_reports_last : forall vs s i v1 o s' outs,
  inv s -> qinv s -> queue s = [] -> nth_error (objs s) i = Some o -> bound o = true -> reports_prev (okind o) = true ->
  inc o <= Z.abs (v1 - reference o) ->
  run s (Write i PPv v1 :: map (Write i PPv) vs ++ [Drain]) = (s', outs) ->
  let w := last vs v1 in
  all_ntfs outs = map (fun x => mkNtf (s_cli x) (s_proc x) (s_oid x) (s_conf x) (trem (now s) x) w (fl o) (now s))
                      (subs_of (oid o) (subs s)) /\
  NoDup (map nkey (all_ntfs outs)) /\ subs s' = subs s /\ queue s' = [] /\
  exists ob', find_obj (oid o) (objs s') = Some ob' /\ reference ob' = w /\ pv ob' = w /\ trig ob' = false.
Proof. exact burst_reports_last. Qed.
Print Assumptions C16_burst_reports_last.

(* C16-F3 (known finding): the increment reference is per object and is moved by the initial notification of
   somebody else.  Witness: increment 10.0; subscriber 2 is told 0.0 and nothing ever again, while the value creeps
   8.0 at a time between (re)subscriptions of subscriber 3 and ends at 30.0 = three increments away. *)
Definition f3_cfg : list obj := [mkObj0 8388609 KInc 0 0 40 0].
Definition f3_events : list ev :=
  [Subscribe 2 1 8388609 false (Some 0); Write 0 PPv 32; Subscribe 3 1 8388609 false (Some 0); Write 0 PPv 64;
   Subscribe 3 1 8388609 false (Some 0); Write 0 PPv 96; Subscribe 3 1 8388609 false (Some 0); Write 0 PPv 120; Drain].
Theorem C16_reference_reset_refuted :
  NoDup (oids f3_cfg) /\ Forall wf_ev f3_events /\
  let '(s, outs) := run (init f3_cfg) f3_events in
  map n_pv (filter (fun n => n_cli n =? 2) (all_ntfs outs)) = [0] /\
  option_map s_cli (find_sub 2 1 8388609 (subs s)) = Some 2 /\
  map pv (objs s) = [120] /\ map inc (objs s) = [40] /\ queue s = [].
Proof. split; [repeat constructor; cbn; intuition discriminate|]. split; [repeat constructor; cbn; lia|]. vm_compute. auto. Qed.
Print Assumptions C16_reference_reset_refuted.

(* ---- non-vacuity: a concrete device and timeline meeting the hypotheses *)
Definition ex_av : Z := 8388609.          (* analogValue,1 *)
Definition ex_cfg : list obj := [mkObj0 ex_av KInc 0 0 40 0; mkObj0 20971521 KGen 0 0 0 0; mkObj0 100663297 KPulse 0 0 40 3].
Definition ex_s1 : st := fst (run (init ex_cfg) [Subscribe 2 1 ex_av true (Some 5); Subscribe 3 1 ex_av false None; Write 0 PPv 40]).

Example C16_ex_cfg_nodup : NoDup (oids ex_cfg).
Proof. repeat constructor; cbn; intuition discriminate. Qed.
Example C16_ex_events_wf : Forall wf_ev [Subscribe 2 1 ex_av true (Some 5); Subscribe 3 1 ex_av false None; Write 0 PPv 40; Advance 40].
Proof. repeat constructor; cbn; lia. Qed.
Example C16_ex_inv : inv ex_s1 /\ idinv ex_s1 /\ qinv ex_s1.
Proof. apply run_q_init; [exact C16_ex_cfg_nodup|repeat constructor|repeat constructor; cbn; lia]. Qed.
(* a quiescent state with two subscriptions of the analog value: the hypotheses of the round theorems hold; the burst
   0 -> 48 -> 40 (increment 10.0 = 40 quarters) is reported once to each with 40, and 40 is the new reference:
   the next round 40 -> 79 is silent, 40 -> 80 is not *)
Definition ex_s0 : st := fst (run (init ex_cfg) [Subscribe 2 1 ex_av true (Some 5); Subscribe 3 1 ex_av false None]).
Example C16_ex_round_hyps : inv ex_s0 /\ qinv ex_s0 /\ queue ex_s0 = [] /\
  exists o, nth_error (objs ex_s0) 0 = Some o /\ bound o = true /\ reports_prev (okind o) = true /\
    reference o = 0 /\ inc o <= Z.abs (48 - reference o) /\ Z.abs (39 - reference o) < inc o.
Proof.
  assert (H : inv ex_s0 /\ idinv ex_s0 /\ qinv ex_s0)
    by (apply run_q_init; [exact C16_ex_cfg_nodup|repeat constructor|repeat constructor; cbn; lia]).
  destruct H as [A [_ B]]. split; [exact A|]. split; [exact B|]. split; [vm_compute; reflexivity|].
  eexists. split; [vm_compute; reflexivity|]. vm_compute. repeat split; congruence.
Qed.
Example C16_ex_burst :
  map (fun o => map canon_ntf (o_ntfs o))
      (snd (run ex_s0 [Write 0 PPv 48; Write 0 PPv 40; Drain; Write 0 PPv 79; Drain; Write 0 PPv 1; Drain; Write 0 PPv 0; Drain])) =
  [[]; []; [[2; 1; ex_av; 1; 5; 40; 0]; [3; 1; ex_av; 0; 0; 40; 0]]; []; []; []; []; []; [[2; 1; ex_av; 1; 5; 0; 0]; [3; 1; ex_av; 0; 0; 0; 0]]].
Proof. vm_compute. reflexivity. Qed.
(* the stepped queue: a subscribe delivered between trigger and execute gets the change notification and then its
   initial one; a cancel overtaking the deferred initial notification silences it *)
Example C16_ex_stepped :
  map (fun o => map canon_ntf (o_ntfs o))
      (snd (run ex_s1 [SubscribeNow 4 1 ex_av true None; StepQ; StepQ; SubscribeNow 4 2 ex_av false None; CancelNow 4 2 ex_av; StepQ])) =
  [[]; [[2; 1; ex_av; 1; 5; 40; 0]; [3; 1; ex_av; 0; 0; 40; 0]; [4; 1; ex_av; 1; 0; 40; 0]]; [[4; 1; ex_av; 1; 0; 40; 0]]; []; []; []].
Proof. vm_compute. reflexivity. Qed.
(* the write of exactly the increment is pending; the drain notifies both subscribers once, each in its mode,
   5 s and indefinite remaining *)
Example C16_ex_round :
  map canon_ntf (o_ntfs (snd (step ex_s1 Drain))) = [[2; 1; ex_av; 1; 5; 40; 0]; [3; 1; ex_av; 0; 0; 40; 0]].
Proof. vm_compute. reflexivity. Qed.
Example C16_ex_below_increment :
  o_ntfs (snd (step (fst (run (init ex_cfg) [Subscribe 2 1 ex_av true (Some 5); Write 0 PPv 39])) Drain)) = [].
Proof. vm_compute. reflexivity. Qed.
Example C16_ex_cancel_acked : o_ack (snd (step ex_s1 (Cancel 2 1 ex_av))) = 1.
Proof. vm_compute. reflexivity. Qed.
Example C16_ex_expiry_task : option_map s_task (find_sub 2 1 ex_av (subs ex_s1)) = Some (Some (T0 + 40, 1)).
Proof. vm_compute. reflexivity. Qed.
(* advancing exactly onto the expiry removes the entry; the other one stays and is still served *)
Example C16_ex_expired :
  keys (subs (fst (step ex_s1 (Advance 40)))) = [(3, 1, ex_av)] /\
  map canon_ntf (o_ntfs (snd (step (fst (step (fst (step ex_s1 (Advance 40))) (Write 0 PPv 0))) Drain))) = [[3; 1; ex_av; 0; 0; 0; 0]].
Proof. vm_compute. split; reflexivity. Qed.
Example C16_ex_active :
  option_map (map canon_act) (o_act (snd (step ex_s1 (ReadActive 4)))) = Some [[2; 1; ex_av; 1; 5; 1; 40]; [3; 1; ex_av; 0; 0; 1; 40]].
Proof. vm_compute. reflexivity. Qed.
