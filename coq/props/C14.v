(* C14 — Scheduled work runs once, in order, never early; failures stay isolated.
   The theorems of the property and examples that meet their hypotheses; models in Bac.Sched / Bac.Deferred /
   Bac.SchedIv / Bac.DeferredExn, lemmas in Bac.SchedFacts, Bac.SchedThms, Bac.SchedPassive, Bac.SchedOrder,
   Bac.SchedC14, Bac.SchedIvFacts, Bac.DeferredFacts, Bac.DeferredExnFacts.

   Vocabulary: `run_ops guard jit c st0 ops = (s, ev)` — the history `ops` (install at t / after d /
   re-install / suspend / resume / advance / poll / defer / run_once / run) executed from the empty
   TaskManager gives state s and event trace ev; `reachable` = s is such a state.  An entry
   is (due time, TaskManager counter at installation, task).  `fired ev` = the entries fired in ev,
   in order.  guard = true is the tree with the per-call guard in the deferred loop (the fix:
   commit); jit is the 1 us jitter of RecurringTask in clock ticks.
   Callbacks (of tasks and of deferred functions) may defer functions AND perform scheduling
   actions (install / re-install / suspend / resume of themselves or of other tasks).
   `passive_cfg c` / `passive_dq s`: no callback of the configuration / of the queued deferred
   functions has a scheduling action.  Ghost events: `EvPop e rest` (e popped, rest stayed queued),
   `EvInst i auto` (install_task succeeded for i; auto = re-install of a recurring task by process_task). *)
From Bac Require Import Base Deferred DeferredFacts Sched SchedFacts SchedThms SchedPassive SchedOrder SchedC14 SchedIv SchedIvFacts DeferredExn DeferredExnFacts.
From Coq Require Import Permutation Sorted.
Open Scope Z_scope.

(* callbacks without scheduling actions: within one run_once pass or one core.run the firings are
   strictly increasing in (due, install counter) *)
Theorem C14_fire_order : forall guard jit c s s' ev, passive_cfg c -> passive_dq s -> 0 <= jit -> reachable guard jit c s ->
  (run_once guard jit c s = (s', ev) \/ run guard jit c s = (s', ev)) ->
  StronglySorted key_lt (fired ev) /\ forall k, In k (fired ev) -> e_when k <= now s.
Proof.
  intros guard jit c s s' ev Hc Hp Hj Hr H.
  destruct (pass_facts _ _ _ _ _ _ Hc Hp Hj (reachable_inv _ _ _ _ Hr) H) as [_ [_ [_ [Hs [Hk _]]]]].
  split; [apply sorted_key_lt, Hs | exact Hk].
Qed.
Print Assumptions C14_fire_order.

(* any program (callbacks may install / suspend anything): at every firing of every history the
   entry fired is smaller in (due, install counter) than every entry that stayed queued *)
Theorem C14_fire_least_pending : forall guard jit c ops s ev, run_ops guard jit c st0 ops = (s, ev) ->
  forall e rest, In (EvPop e rest) ev -> forall y, In y rest -> key_lt e y.
Proof.
  intros guard jit c ops s ev H e rest Hin y Hy. apply elt_key_lt.
  exact (proj1 (Forall_forall _ _) (proj2 (run_ops_inv_events _ _ _ _ _ _ _ Inv_st0 H)) _ Hin y Hy).
Qed.
Print Assumptions C14_fire_least_pending.

(* whatever get_next_task hands out is the least of the queue *)
Theorem C14_fire_is_min : forall guard jit c s e s1 z, reachable guard jit c s ->
  get_next_task s = (Some e, s1, z) -> forall x, In x (heap s1) -> key_lt e x.
Proof.
  intros guard jit c s e s1 z Hr G x Hx. destruct (get_next_some _ _ _ _ G) as [rest [Hh [_ [-> _]]]].
  apply elt_key_lt. exact (Inv_head_min _ _ _ (reachable_inv _ _ _ _ Hr) Hh x Hx).
Qed.
Print Assumptions C14_fire_is_min.

Theorem C14_never_early : forall guard jit c ops s ev, run_ops guard jit c st0 ops = (s, ev) ->
  forall i due n at_, In (EvFire i due n at_) ev -> due <= at_.
Proof.
  intros guard jit c ops s ev H i due n at_ Hin.
  exact (proj1 (Forall_forall _ _) (proj2 (run_ops_inv_events _ _ _ _ _ _ _ Inv_st0 H)) _ Hin).
Qed.
Print Assumptions C14_never_early.

(* every firing consumes a distinct installation (counter value) *)
Theorem C14_once_per_install : forall guard jit c ops s ev, run_ops guard jit c st0 ops = (s, ev) ->
  NoDup (map e_seq (fired ev)).
Proof. exact reach_once. Qed.
Print Assumptions C14_once_per_install.

(* "does not fire after being suspended" is false of the code when the suspend comes from the
   task's own callback: process_task re-installs a recurring task unconditionally.  Witness: a
   recurring task whose callback suspends itself fires at slot 10 and again at slot 20; between
   the two firings the only installation recorded is the automatic one.  (finding
   C14-recurring-self-suspend-rearmed) *)
Theorem C14_suspend_cancels_refuted :
  exists ops a b d due n at_ due' n' at',
    t_acts (cfg_get self_suspender 0) = [ASuspend 0] /\
    snd (run_ops true 1 self_suspender st0 ops) = a ++ EvFire 0 due n at_ :: b ++ EvFire 0 due' n' at' :: d /\
    forallb (fun x => negb (is_inst 0 x) || match x with EvInst _ auto => auto | _ => false end) b = true.
Proof.
  exists [Reinstall 0; ToDue; Poll; ToDue; Poll], [EvInst 0 false; EvPop (10, 0%N, 0%nat) []],
         [EvInst 0 true; EvPop (20, 1%N, 0%nat) []], [EvInst 0 true], 10, 0%N, 10, 20, 1%N, 20.
  vm_compute. repeat split.
Qed.
Print Assumptions C14_suspend_cancels_refuted.

(* _partial: after suspend, in any continuation by any program, the task does not fire unless an
   installation of it (by the history, by a callback, or the automatic one) is recorded *)
Theorem C14_suspend_cancels_partial : forall guard jit c s i ops s' ev, reachable guard jit c s ->
  run_ops guard jit c s (Suspend i :: ops) = (s', ev) ->
  has_inst i ev = false -> forall due n at_, ~ In (EvFire i due n at_) ev.
Proof.
  intros guard jit c s i ops s' ev Hr H Hno due n at_ Hin. cbn [run_ops step do_act lift] in H.
  destruct (run_ops guard jit c (tm_suspend s i) ops) as [s2 ev2] eqn:R. inversion H; subst.
  destruct (suspend_removes s i (reachable_inv _ _ _ _ Hr)) as [Hni _].
  exact (run_ops_quiet _ _ _ _ _ _ _ _ Hni R Hno _ Hin eq_refl).
Qed.
Print Assumptions C14_suspend_cancels_partial.

(* at most one queue entry per task; installing leaves exactly the new one *)
Theorem C14_reinstall_moves : forall guard jit c s, reachable guard jit c s ->
  NoDup (map e_tid (heap s)) /\
  forall i t s', do_install_when c s i t = Ok s' ->
    In (t, ctr s, i) (heap s') /\ (forall x, In x (heap s') -> e_tid x = i -> x = (t, ctr s, i)) /\
    (forall x, e_tid x <> i -> (In x (heap s') <-> In x (heap s))) /\
    length (heap s') = (if sched s i then length (heap s) else S (length (heap s))).
Proof.
  intros guard jit c s Hr. apply reachable_inv in Hr. split; [exact (Inv_nodup s Hr)|].
  intros i t s' H. exact (install_moves _ _ _ _ _ Hr H).
Qed.
Print Assumptions C14_reinstall_moves.

(* _partial: exact (integer/rational) arithmetic only.  Missing: the binary64 evaluation of
   (now - off) + iv - ((now - off) % iv) + off in RecurringTask.install_task is not modelled (no
   fmod on Coq's primitive floats); the correspondence compares slot indices on the grid. *)
Theorem C14_recurring_slots_partial : forall jit iv off, 0 < iv -> 0 <= jit ->
  (forall t, exists k, next_slot jit iv off t = off + iv * k /\ t + jit < off + iv * k /\
                       (forall m, t + jit < off + iv * m -> k <= m) /\ t < next_slot jit iv off t) /\
  (jit < iv -> forall k, next_slot jit iv off (off + iv * k) = off + iv * (k + 1)) /\
  (forall k t, off + iv * k <= t + jit < off + iv * (k + 1) -> next_slot jit iv off t = off + iv * (k + 1)) /\
  (forall guard c s e s1 z s2 ev r, passive_cfg c -> passive_dq s -> reachable guard jit c s -> get_next_task s = (Some e, s1, z) ->
     process_task jit c s1 e = (s2, ev, r) -> t_kind (cfg_get c (e_tid e)) = Recurring iv off ->
     t_raises (cfg_get c (e_tid e)) = false ->
     In (next_slot jit iv off (now s), ctr s, e_tid e) (heap s2)).
Proof.
  intros jit iv off Hiv Hj. split; [intros t; apply next_slot_grid; assumption|].
  split; [intros Hlt k; apply next_slot_successive; lia|]. split; [intros k t Hb; apply next_slot_late; assumption|].
  intros guard c s e s1 z s2 ev r Hc _ _ G P K Hnr. destruct (get_next_some _ _ _ _ G) as [rest [_ [_ [-> _]]]].
  exact (proj2 (process_task_requeues _ _ _ _ _ _ _ _ _ Hc P K Hnr Hiv)).
Qed.
Print Assumptions C14_recurring_slots_partial.

(* with the guard: the loop ends with an empty queue; the calls L satisfy
   L = q ++ (what the calls of L submitted, in call order), i.e. call order = submission order;
   L is a permutation of everything ever handed to the queue (each exactly once) *)
Theorem C14_deferred_once_in_order : forall q,
  exists L, drain_all true q = (L, [], DDone) /\ L = q ++ flat_map d_spawns L /\ Permutation L (f_all q)
            /\ (NoDup (map d_id (f_all q)) -> NoDup (map d_id L)).
Proof.
  intros q. destruct (drain_all_guarded q) as [L [H1 [H2 H3]]]. exists L. repeat split; try assumption.
  exact (Permutation_NoDup (Permutation_map d_id (Permutation_sym H3))).
Qed.
Print Assumptions C14_deferred_once_in_order.

(* the loop of the model, whatever the callbacks do to the schedule: ends with an empty queue and
   calls, in order, exactly the functions the pure loop above calls *)
Theorem C14_deferred_loop_calls : forall jit c s s' ev x, do_drain true jit c s = (s', ev, x) ->
  exists L, drain_all true (dq s) = (L, [], DDone) /\ x = false /\ dq s' = [] /\ calls_of ev = map d_id L.
Proof. intros jit c s s' ev x H. exact (sdrain_calls _ _ _ _ _ _ _ (le_n _) H). Qed.
Print Assumptions C14_deferred_loop_calls.

(* the pinned tree (no per-call guard): [raising; plain] — plain is neither called nor queued *)
Theorem C14_deferred_unguarded_refuted :
  exists q d, In d q /\ (let '(c, r, s) := drain_all false q in ~ In d c /\ ~ In d r /\ s = DRaised).
Proof. exact drain_unguarded_loses. Qed.
Print Assumptions C14_deferred_unguarded_refuted.

(* ... and behaves like the guarded loop when no (transitive) member raises *)
Theorem C14_deferred_unguarded_partial : forall fuel q,
  forallb (fun d => negb (d_raises d)) (f_all q) = true -> drain false fuel q = drain true fuel q.
Proof. exact (drain_noraise false). Qed.
Print Assumptions C14_deferred_unguarded_partial.

Theorem C14_task_exception_isolated : forall jit c s, passive_cfg c -> passive_dq s -> 0 <= jit -> reachable true jit c s ->
  (forall e s1, t_raises (cfg_get c (e_tid e)) = true ->
     process_task jit c s1 e = (set_dq s1 (dq s1 ++ t_defers (cfg_get c (e_tid e))), [fire_of s1 e], true)) /\
  (forall s' ev, run_once true jit c s = (s', ev) -> forall x, In x (heap s) -> In x (heap s') \/ In x (fired ev)) /\
  (forall s' ev, run_once true jit c s = (s', ev) ->
     ~ In (EvErr OutOfFuel) ev /\
     (due_count s' = 0%nat \/ (In EvRaise ev /\ (due_count s' < due_count s)%nat))) /\
  (forall s' ev, run_ops true jit c s (repeat RunOnce (S (due_count s))) = (s', ev) ->
     forall x, In x (heap s) -> e_when x <= now s -> In x (fired ev)).
Proof.
  intros jit c s Hc Hp Hj Hr. apply reachable_inv in Hr. split; [intros e s1; apply process_task_raising, Hc|].
  split; [intros s' ev H; apply (pass_facts _ _ _ _ _ _ Hc Hp Hj Hr (or_introl H))|].
  split; [intros s' ev; apply run_once_progress; assumption|].
  intros s' ev. apply due_tasks_fire_despite_raises; assumption.
Qed.
Print Assumptions C14_task_exception_isolated.

(* core.run (spin 0, no sockets): ends within its fuel with nothing due and nothing deferred; every
   entry that was due has fired, whichever callbacks raised *)
Theorem C14_run_fires_all_due : forall jit c s s' ev, passive_cfg c -> passive_dq s -> 0 <= jit -> reachable true jit c s ->
  run true jit c s = (s', ev) ->
  ~ In (EvErr OutOfFuel) ev /\ dq s' = [] /\ due_count s' = 0%nat /\
  forall x, In x (heap s) -> e_when x <= now s -> In x (fired ev).
Proof.
  intros jit c s s' ev Hc Hp Hj Hr. exact (run_fires_all_due _ _ _ _ _ Hc Hp Hj (reachable_inv _ _ _ _ Hr)).
Qed.
Print Assumptions C14_run_fires_all_due.

Definition ex_cfg : cfg :=
  [mkT OneShot false [] []; mkT OneShot true [DF 7 true [] []; DF 8 false [] []] []; mkT OneShot false [] [];
   mkT (Recurring 300000 1000) false [] []].
Definition ex_ops : list op :=
  [Install 2 5; Install 0 5; Install 1 5; Reinstall 3; Install 2 5; Suspend 0; Resume 0; Advance 5].
Definition visible (ev : list event) : list event := filter (fun x => negb (is_ghost x)) ev.

Example C14_ex_passive : passive_cfg ex_cfg.
Proof. intros i. do 5 (destruct i as [|i]; [split; reflexivity|]). split; destruct i; reflexivity. Qed.
(* a reachable state with three colliding due entries (one of them raising) and a recurring one *)
Example C14_ex_reachable : reachable true 3 ex_cfg (fst (run_ops true 3 ex_cfg st0 ex_ops)).
Proof. exists ex_ops, (snd (run_ops true 3 ex_cfg st0 ex_ops)). apply surjective_pairing. Qed.
Example C14_ex_due : due_count (fst (run_ops true 3 ex_cfg st0 ex_ops)) = 3%nat
                     /\ passive_dq (fst (run_ops true 3 ex_cfg st0 ex_ops)).
Proof. vm_compute. split; reflexivity. Qed.
(* first pass: task 1 (installed 3rd, counter 2) fires first, raises, the pass ends; second pass:
   its deferred functions 7 (raising) and 8 run, then tasks 2 (counter 4) and 0 (re-installed by
   resume, counter 5) in that order *)
Example C14_ex_passes :
  visible (snd (run_ops true 3 ex_cfg st0 (ex_ops ++ [RunOnce; RunOnce])))
  = [EvFire 1 5 2 5; EvRaise; EvFire 2 5 4 5; EvCall 7; EvRaise; EvCall 8; EvFire 0 5 5 5].
Proof. vm_compute. reflexivity. Qed.
(* core.run from the same state: every try is per iteration, so all three fire in one call *)
Example C14_ex_run :
  visible (snd (run_ops true 3 ex_cfg st0 (ex_ops ++ [Run])))
  = [EvFire 1 5 2 5; EvRaise; EvFire 2 5 4 5; EvCall 7; EvRaise; EvCall 8; EvFire 0 5 5 5].
Proof. vm_compute. reflexivity. Qed.
Example C14_ex_recurring :
  heap (fst (run_ops true 3 ex_cfg st0 [Reinstall 3; ToDue; Poll; ToDue; Poll]))
  = [(601000, 2%N, 3%nat)].
Proof. vm_compute. reflexivity. Qed.
(* callbacks with actions: task 0 installs task 1 at an earlier time than its own; task 1's deferred
   function re-installs task 0; the trace shows the pops with what stayed queued *)
Example C14_ex_actions :
  snd (run_ops true 1 [mkT OneShot false [] [AInstall 1 2]; mkT OneShot false [DF 0 false [] [AInstallAfter 0 1]] []] st0
         [Install 0 5; Advance 5; RunOnce; RunOnce])
  = [EvInst 0 false; EvPop (5, 0%N, 0%nat) []; EvFire 0 5 0 5; EvInst 1 false;
     EvPop (2, 1%N, 1%nat) []; EvFire 1 2 1 5; EvCall 0; EvInst 0 false].
Proof. vm_compute. reflexivity. Qed.
(* the hypothesis of C14_suspend_cancels_partial is satisfiable: no installation of task 0 below *)
Example C14_ex_suspend_hyp :
  has_inst 0 (snd (run_ops true 1 [mkT OneShot false [] []; mkT OneShot false [] [ASuspend 0]]
                     (fst (run_ops true 1 [mkT OneShot false [] []; mkT OneShot false [] [ASuspend 0]] st0 [Install 0 3; Install 1 3]))
                     [Suspend 0; Advance 9; RunOnce])) = false.
Proof. vm_compute. reflexivity. Qed.
Example C14_ex_deferred :
  drain_all true [DF 0 true [DF 2 false [] []] []; DF 1 false [DF 3 true [] []] [ASuspend 0]]
  = ([DF 0 true [DF 2 false [] []] []; DF 1 false [DF 3 true [] []] [ASuspend 0]; DF 2 false [] []; DF 3 true [] []], [], DDone).
Proof. vm_compute. reflexivity. Qed.

(* the drain loop with exception VALUES and kinds of callable (DeferredExn.v), handler of the tree
   (`h_code`: hands `err` to the logger, looks at neither err.args nor fn): for every batch, whatever
   each member raises (no arguments, several, unprintable, any class) and whatever callable it is,
   every function handed over is called once, in submission order, and the queue ends empty *)
Theorem C14_exception_values_isolated : forall q,
  exists L, xdrain_all h_code q = (L, [], DDone) /\
            map xerase L = map xerase q ++ flat_map d_spawns (map xerase L) /\
            Permutation (map xerase L) (f_all (map xerase q)).
Proof. exact xdrain_all_code. Qed.
Print Assumptions C14_exception_values_isolated.

(* ... and that is exactly the handlers that never raise: a handler that raises on some (callable,
   exception value) loses a function of a batch of two *)
Theorem C14_isolation_iff_handler_total : forall h : handler,
  (forall k e, h k e = false) <-> (forall q, exists L, xdrain_all h q = (L, [], DDone)).
Proof. exact isolation_iff_handler_total. Qed.
Print Assumptions C14_isolation_iff_handler_total.

Theorem C14_handler_raises_refuted : forall (h : handler) k e, h k e = true ->
  exists q d, In d q /\ (let '(c, r, s) := xdrain_all h q in ~ In d c /\ ~ In d r /\ s = DRaised).
Proof. exact raising_handler_loses. Qed.
Print Assumptions C14_handler_raises_refuted.

(* RecurringTask.taskInterval / taskIntervalOffset as attributes (SchedIv.v).  After ANY history — any
   operations of Sched.v (suspend, resume, install_task(), firings, raising or scheduling callbacks) and any
   install_task(interval=, offset=) calls, refused or not — the attributes are those of `attrs_after`
   (the last value handed over, else the constructor's), and install_task(interval=, offset=) then either
   is refused (interval in force unset / <= 0; schedule untouched) or leaves the task's entry at the
   least slot of the interval / offset IN FORCE strictly after now *)
Theorem C14_recurring_interval_in_force : forall guard jit c ctor ops m s ev i oiv ooff m' s' ev',
  0 <= jit -> is_rec c i = true ->
  run_ops2 guard jit c (attrs0 ctor, st0) ops = ((m, s), ev) ->
  step2 guard jit c (m, s) (InstallIv i oiv ooff) = ((m', s'), ev') ->
  m = attrs_after c (attrs0 ctor) ops /\
  m' = set_attrs m i oiv ooff /\
  (if iv_force m' i <=? 0 then s' = s /\ ev' = [EvErr RuntimeErr]
   else let t := next_slot jit (iv_force m' i) (off_force m' i) (now s) in
        ttime s' i = Some t /\ In (t, ctr s, i) (heap s') /\ ev' = [EvInst i false] /\
        now s < t /\ (t - off_force m' i) mod (iv_force m' i) = 0).
Proof.
  intros guard jit c ctor ops m s ev i oiv ooff m' s' ev' Hj Hr R S.
  split; [exact (run_ops2_attrs _ _ _ _ _ _ _ _ _ R) | exact (installiv_uses_in_force _ _ _ _ _ _ _ _ _ _ _ Hj Hr S)].
Qed.
Print Assumptions C14_recurring_interval_in_force.

(* the attributes of task i after a history ending in calls that are not install_task(interval=, offset=)
   of task i: the last values handed over *)
Theorem C14_recurring_attrs_last : forall c i pre oiv ooff post m, is_rec c i = true ->
  (forall j a b, In (InstallIv j a b) post -> j <> i) ->
  attrs_after c m (pre ++ InstallIv i oiv ooff :: post) i =
    (merge oiv (fst (attrs_after c m pre i)), merge ooff (snd (attrs_after c m pre i))).
Proof. exact attrs_after_last. Qed.
Print Assumptions C14_recurring_attrs_last.

(* install_task() (history operation, callback action, automatic re-install): slot of the attributes in force.
   _partial: stated per installation; the trace-level form (every EvFire of a recurring task lies on the grid in
   force when its entry was queued, through callbacks and both loops) is not proved — it needs the generic
   preservation principle of SchedFacts.v with an install hypothesis that knows the time being set *)
Theorem C14_recurring_reinstall_in_force_partial : forall jit c m s i s', is_rec c i = true ->
  do_reinstall jit (eff c m) s i = Ok s' ->
  0 < iv_force m i /\ ttime s' i = Some (next_slot jit (iv_force m i) (off_force m i) (now s)).
Proof. exact reinstall_uses_in_force. Qed.
Print Assumptions C14_recurring_reinstall_in_force_partial.

(* constructed with 0.1 s, installed with 0.25 s + 20 ms, suspended, installed again with the offset reset to 0
   (1 tick = 1/3 us): slots 0.02 s, 0.27 s, then 0.5 s (next: 0.75 s); the attributes end as (0.25 s, 0) *)
Example C14_ex_interval_in_force :
  canon_run2 1 (run_ops2 true 3 [mkT (Recurring 300000 0) false [] []] (attrs0 [(Some 300000, None)], st0)
     [Plain (Advance 777); InstallIv 0 (Some 750000) (Some 60000); Plain ToDue; Plain Poll; Plain ToDue; Plain Poll;
      Plain (Suspend 0); InstallIv 0 None (Some 0); Plain ToDue; Plain Poll])
  = [3; 1; 0; 60000; 60000; 1; 0; 810000; 810000; 1; 0; 1500000; 1500000;
     1; 2250000; 4; 0; 5; 1500000; 1; 1; 2250000; 0; 1; 750000; 1; 0].
Proof. vm_compute. reflexivity. Qed.
Example C14_ex_exception_values :
  xdrain_all h_code [XF 0 KPartial (Some (mkExn 1 [] true)) [XF 2 KCallable (Some (mkExn 2 [7; 8] false)) [] []] []; XF 1 KFunction None [] []]
  = ([XF 0 KPartial (Some (mkExn 1 [] true)) [XF 2 KCallable (Some (mkExn 2 [7; 8] false)) [] []] []; XF 1 KFunction None [] [];
      XF 2 KCallable (Some (mkExn 2 [7; 8] false)) [] []], [], DDone)
  /\ h_first_arg KFunction (mkExn 0 [] true) = true /\ h_fn_name KPartial (mkExn 0 [1] true) = true.
Proof. vm_compute. repeat split. Qed.
