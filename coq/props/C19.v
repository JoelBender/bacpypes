(* C19 — routing knowledge stays coherent: one next hop per destination, newest wins.
   Property theorems only; the model is Bac.RouterCache (netservice.RouterInfoCache with the four
   fix: commits of this property), the lemmas behind them are in Bac.RouterCacheFacts / RouterCacheRenum /
   RouterCacheSweep / RouterNodeFacts.

   Coherent s  :=  (get_router_info s sn d = Some a  <->  router (sn, a) is filed and credited with d)
                   /\ every filed router's source network is a key of self.routers.
   "At most one next hop per (snet, dnet)" is the functionality of the lookup together with
   C19_one_next_hop. *)
From Bac Require Import Base RouterCache RouterCacheFacts RouterCacheRenum RouterCacheSweep RouterNode RouterNodeFacts.
Open Scope Z_scope.

Theorem C19_init : Coherent empty.
Proof. exact coherent_empty. Qed.
Print Assumptions C19_init.

(* every destination credited to a router can be looked up and leads to that router; nothing else can *)
Theorem C19_lookup_sound_complete : forall s sn d a, Coherent s ->
  (get_router_info s sn d = Some a <-> credited s sn a d).
Proof. intros s sn d a H. exact (proj1 H sn d a). Qed.
Print Assumptions C19_lookup_sound_complete.

Theorem C19_one_next_hop : forall s sn a b d, Coherent s ->
  credited s sn a d -> credited s sn b d -> a = b.
Proof.
  intros s sn a b d [Hc _] Ha Hb. apply Hc in Ha. apply Hc in Hb. congruence.
Qed.
Print Assumptions C19_one_next_hop.

(* an announcement never fails on a coherent cache and leaves it coherent *)
Theorem C19_update_preserves : forall s sn a ds st, Coherent s ->
  exists s', update_router_info s sn a ds st = Ok s' /\ Coherent s'.
Proof. intros s sn a ds st H. destruct (update_ok s sn a ds st H) as [s' [H1 [H2 _]]]. eauto. Qed.
Print Assumptions C19_update_preserves.

(* newest wins, and nothing else moves: one equation for every lookup afterwards *)
Theorem C19_update_newest_wins : forall s sn a ds st s', Coherent s ->
  update_router_info s sn a ds st = Ok s' ->
  forall sn0 d0, get_router_info s' sn0 d0 =
    if (sn0 =? sn) && zmem d0 ds then Some a else get_router_info s sn0 d0.
Proof.
  intros s sn a ds st s' H E. destruct (update_ok s sn a ds st H) as [s'' [H1 [_ H3]]].
  assert (s'' = s') by congruence. subst. exact H3.
Qed.
Print Assumptions C19_update_newest_wins.

Theorem C19_status_preserves : forall s sn a st, Coherent s ->
  Coherent (update_router_status s sn a st) /\
  forall sn0 d0, get_router_info (update_router_status s sn a st) sn0 d0 = get_router_info s sn0 d0.
Proof. exact status_ok. Qed.
Print Assumptions C19_status_preserves.

(* forgetting a router (delete_router_info(snet, address) or with an empty list) removes exactly
   the destinations it was credited with and the record itself; all else is kept *)
Theorem C19_forget_router : forall s sn a dso, Coherent s -> (dso = None \/ dso = Some []) ->
  exists s', delete_router_info s sn (Some a) dso = Ok s' /\ Coherent s' /\
    (forall sn0 d0, get_router_info s' sn0 d0 =
       match get_router_info s sn0 d0 with
       | Some x => if (sn0 =? sn) && (x =? a) then None else Some x
       | None => None
       end) /\
    rget s' sn a = None /\
    (forall sn0 a0, (sn0, a0) <> (sn, a) -> rget s' sn0 a0 = rget s sn0 a0).
Proof. exact forget_router. Qed.
Print Assumptions C19_forget_router.

(* forgetting destinations of one router removes those it holds, never another router's *)
Theorem C19_forget_router_dnets : forall s sn a d r, Coherent s ->
  exists s', delete_router_info s sn (Some a) (Some (d :: r)) = Ok s' /\ Coherent s' /\
    (forall sn0 d0, get_router_info s' sn0 d0 =
       if (sn0 =? sn) && zmem d0 (d :: r) &&
          match get_router_info s sn0 d0 with Some x => x =? a | None => false end
       then None else get_router_info s sn0 d0) /\
    (forall sn0 a0, (sn0, a0) <> (sn, a) -> rget s' sn0 a0 = rget s sn0 a0).
Proof. exact forget_router_dnets. Qed.
Print Assumptions C19_forget_router_dnets.

(* forgetting destinations whoever serves them (no NameError any more) *)
Theorem C19_forget_dnets : forall s sn ds, Coherent s ->
  exists s', delete_router_info s sn None (Some ds) = Ok s' /\ Coherent s' /\
    (forall sn0 d0, get_router_info s' sn0 d0 =
       if (sn0 =? sn) && zmem d0 ds then None else get_router_info s sn0 d0).
Proof. exact forget_dnets. Qed.
Print Assumptions C19_forget_dnets.

Theorem C19_forget_neither_refused : forall s sn, delete_router_info s sn None None = Err RuntimeErr.
Proof. reflexivity. Qed.
Print Assumptions C19_forget_neither_refused.

(* The model keeps Python dicts as association lists; WF says no key occurs twice in `routers` or in
   any record's `dnets` (a dict cannot), Inv s := Coherent s /\ WF s.  Both hold initially and are
   re-established by every operation (C19_history_invariant). *)

(* renumbering a source network under which something is filed: never an exception, the invariant
   is kept, exactly the old network's lookups and records move to the new number (replacing whatever
   was filed there), every other network is untouched *)
Theorem C19_renumber : forall s old new, Inv s -> zmem old (nets s) = true ->
  exists s', update_source_network s old new = Ok s' /\ Inv s' /\
    (forall sn0 d0, get_router_info s' sn0 d0 =
       if sn0 =? new then get_router_info s old d0
       else if sn0 =? old then None else get_router_info s sn0 d0) /\
    (forall sn0 a0, rget s' sn0 a0 =
       if sn0 =? new then rget s old a0 else if sn0 =? old then None else rget s sn0 a0).
Proof. exact renumber_ok. Qed.
Print Assumptions C19_renumber.

(* ... and with nothing filed under the old number it changes nothing *)
Theorem C19_renumber_unknown : forall s old new, zmem old (nets s) = false ->
  update_source_network s old new = Ok s.
Proof. exact renumber_unknown. Qed.
Print Assumptions C19_renumber_unknown.

(* the boolean coherence test (used by tests) implies the invariant's first half *)
Theorem C19_coherence_test_sound : forall s, coh_b s = true -> Coherent s.
Proof. exact coh_b_sound. Qed.
Print Assumptions C19_coherence_test_sound.

(* histories of ANY length over {learn, status, all forms of forget, renumber}: the invariant holds
   throughout, hence the cache is coherent *)
Theorem C19_history_invariant : forall h, Inv (run empty h).
Proof. exact history_inv. Qed.
Print Assumptions C19_history_invariant.

Theorem C19_history_coherent : forall h, Coherent (run empty h).
Proof. intros h. exact (proj1 (history_inv h)). Qed.
Print Assumptions C19_history_coherent.

(* every operation after any history succeeds or is the refused delete_router_info(snet) *)
Theorem C19_history_no_exception : forall h o,
  (exists s', step (run empty h) o = Ok s' /\ Inv s') \/
  (refused o /\ step (run empty h) o = Err RuntimeErr).
Proof. intros h o. exact (step_inv _ o (history_inv h)). Qed.
Print Assumptions C19_history_no_exception.

(* after any history the newest announcement decides, and only for its destinations *)
Theorem C19_history_newest_wins : forall h sn a ds st d, In d ds ->
  get_router_info (run empty (h ++ [Learn sn a ds st])) sn d = Some a.
Proof. exact history_newest_wins_all. Qed.
Print Assumptions C19_history_newest_wins.

Theorem C19_history_frame : forall h sn a ds st sn0 d0, (sn0 <> sn \/ ~ In d0 ds) ->
  get_router_info (run empty (h ++ [Learn sn a ds st])) sn0 d0 = get_router_info (run empty h) sn0 d0.
Proof. exact history_frame_all. Qed.
Print Assumptions C19_history_frame.

(* after any history a renumbering moves exactly the old network's lookups *)
Theorem C19_history_renumber : forall h old new sn0 d0,
  get_router_info (run empty (h ++ [Renum old new])) sn0 d0 =
    if zmem old (nets (run empty h))
    then (if sn0 =? new then get_router_info (run empty h) old d0
          else if sn0 =? old then None else get_router_info (run empty h) sn0 d0)
    else get_router_info (run empty h) sn0 d0.
Proof. exact history_renumber. Qed.
Print Assumptions C19_history_renumber.

(* learning does not depend on relaying: the I-Am-Router-To-Network handler records the announcement
   before it relays it, so whatever the other adapters' links do (relay_ok), after any history the
   announced destinations lead to the announcing router and nothing else changes; the exception flag
   (second component of on_iam) is the only thing relay_ok influences *)
Theorem C19_observed_is_learned : forall up s sn a ds,
  fst (on_iam up s sn a ds) = update_router_info s sn a ds 0.
Proof. reflexivity. Qed.
Print Assumptions C19_observed_is_learned.

Theorem C19_history_observed_is_learned : forall h up sn a ds,
  exists s', fst (on_iam up (run empty h) sn a ds) = Ok s' /\ Inv s' /\
    (forall sn0 d0, get_router_info s' sn0 d0 =
       if (sn0 =? sn) && zmem d0 ds then Some a else get_router_info (run empty h) sn0 d0).
Proof. exact on_iam_after_history. Qed.
Print Assumptions C19_history_observed_is_learned.

(* ---- the traffic a node EMITS follows its current knowledge (model RouterNode: the node's cache, its
   attached networks in look-up order, the application requests parked while no router is known) *)

(* an I-Am-Router-To-Network heard on net sn from router a listing ds: recorded (newest wins for every
   listed network, attached or remote, everything else unchanged); NO listed destination keeps parked
   requests, wherever it stands in the list and whether or not the other listed networks had any;
   every parked request for a listed destination is handed to a on sn; nothing else is released *)
Theorem C19_announcement_releases_pending : forall n sn a ds, Inv (ncache n) ->
  exists n', fst (node_iam n sn a ds) = Ok n' /\ Inv (ncache n') /\ nadapters n' = nadapters n /\
    (forall sn0 d0, get_router_info (ncache n') sn0 d0 =
       if (sn0 =? sn) && zmem d0 ds then Some a else get_router_info (ncache n) sn0 d0) /\
    (forall d, In d ds -> aget Z.eqb d (npending n') = None) /\
    (forall d tags t, In d ds -> aget Z.eqb d (npending n) = Some tags -> In t tags ->
       In (Send sn a d t None) (snd (node_iam n sn a ds))) /\
    (forall e, In e (snd (node_iam n sn a ds)) -> exists d t, e = Send sn a d t None /\ In d ds).
Proof. exact node_iam_ok. Qed.
Print Assumptions C19_announcement_releases_pending.

(* a request to a destination with nothing parked goes to the first attached network's router the cache
   names - and only there *)
Theorem C19_request_follows_knowledge : forall n d t sn x,
  aget Z.eqb d (npending n) = None -> route n d = Some (sn, x) ->
  node_req n d t = (n, [Send sn x d t None]) /\ In sn (nadapters n) /\ get_router_info (ncache n) sn d = Some x.
Proof.
  intros n d t sn x Hp Hr. split; [apply node_req_known; assumption|]. apply route_in_sound in Hr. exact Hr.
Qed.
Print Assumptions C19_request_follows_knowledge.

(* after an announcement heard on an attached network every later request for a listed destination
   leaves at once, towards a router the cache now names for it *)
Theorem C19_request_after_announcement : forall n sn a ds n' d t, Inv (ncache n) -> In sn (nadapters n) ->
  fst (node_iam n sn a ds) = Ok n' -> In d ds ->
  exists sn0 x, node_req n' d t = (n', [Send sn0 x d t None]) /\ In sn0 (nadapters n') /\
                get_router_info (ncache n') sn0 d = Some x.
Proof. exact req_after_iam. Qed.
Print Assumptions C19_request_after_announcement.

(* routed through-traffic to a remote network is handed to the router the look-up over ALL attached
   networks gives - the adapter it arrived on plays no part *)
Theorem C19_forward_follows_knowledge : forall n arr a snet d n' out sn x,
  node_fwd n arr a snet d = (Ok n', out) ->
  zmem snet (nadapters n) = false -> zmem d (nadapters n) = false -> (d =? arr) = false ->
  route n' d = Some (sn, x) -> out = [Send sn x d 0 (Some snet)].
Proof. exact node_fwd_known. Qed.
Print Assumptions C19_forward_follows_knowledge.

Theorem C19_forward_uses_router_on_arrival_network : forall n arr a snet d x, Inv (ncache n) -> In arr (nadapters n) ->
  zmem snet (nadapters n) = false -> zmem d (nadapters n) = false -> snet <> d ->
  get_router_info (ncache n) arr d = Some x ->
  (forall sn, In sn (nadapters n) -> sn <> arr -> get_router_info (ncache n) sn d = None) ->
  exists n', node_fwd n arr a snet d = (Ok n', [Send arr x d 0 (Some snet)]).
Proof. exact node_fwd_arrival_net. Qed.
Print Assumptions C19_forward_uses_router_on_arrival_network.

(* the two other knowledge-dependent emissions of NetworkServiceElement.
   The announcement handler repeats what it heard on every OTHER adapter, after recording it and before the
   parked requests are released; the recorded knowledge and the releases are those of node_iam. *)
Theorem C19_announcement_relayed_after_recording : forall n sn a ds,
  fst (node_iam_full n sn a ds) = fst (node_iam n sn a ds) /\
  (forall n', fst (node_iam n sn a ds) = Ok n' ->
     snd (node_iam_full n sn a ds) = iam_relay n sn ds ++ snd (node_iam n sn a ds)) /\
  (forall x, (2 <= length (nadapters n))%nat -> In x (nadapters n) -> x <> sn -> In (IAmR x None ds) (iam_relay n sn ds)) /\
  (forall e, In e (iam_relay n sn ds) -> exists x, e = IAmR x None ds /\ In x (nadapters n) /\ x <> sn).
Proof.
  intros n sn a ds. destruct (node_iam_full_spec n sn a ds) as [Hfst Hsnd].
  split; [exact Hfst|split; [exact Hsnd|split]].
  - intros x Hlen Hin Hne. apply iam_relay_in. eauto.
  - intros e He. exact (proj2 (proj1 (iam_relay_in n sn ds e) He)).
Qed.
Print Assumptions C19_announcement_relayed_after_recording.

(* Who-Is-Router-To-Network d (d not attached) heard on net arr from station a: whatever the node emits is
   EITHER the single claim I-Am-Router-To-Network [d] to the asker, and then the look-up over the attached
   networks names a next hop for d on an adapter other than arr; OR the question relayed on another adapter
   with the asker as SADR, and then no attached network has a next hop for d.  Never a claim without knowledge. *)
Theorem C19_whois_claims_only_known : forall n arr a d e, zmem d (nadapters n) = false -> In e (node_whois n arr a d) ->
  (e = IAmR arr (Some a) [d] /\ node_whois n arr a d = [e] /\
   exists sn x, route n d = Some (sn, x) /\ In sn (nadapters n) /\ sn <> arr /\ get_router_info (ncache n) sn d = Some x)
  \/ (exists sn, e = WhoIsFwd sn d arr a /\ In sn (nadapters n) /\ sn <> arr /\
      forall sn0, In sn0 (nadapters n) -> get_router_info (ncache n) sn0 d = None).
Proof. exact node_whois_claim. Qed.
Print Assumptions C19_whois_claims_only_known.

Theorem C19_whois_answered_when_known_elsewhere : forall n arr a d sn x,
  (2 <= length (nadapters n))%nat -> zmem d (nadapters n) = false ->
  get_router_info (ncache n) arr d = None -> In sn (nadapters n) -> get_router_info (ncache n) sn d = Some x ->
  node_whois n arr a d = [IAmR arr (Some a) [d]].
Proof. exact node_whois_answered. Qed.
Print Assumptions C19_whois_answered_when_known_elsewhere.

Theorem C19_whois_unknown_is_relayed : forall n arr a d, (2 <= length (nadapters n))%nat -> zmem d (nadapters n) = false -> arr <> -1 ->
  (forall sn, In sn (nadapters n) -> get_router_info (ncache n) sn d = None) ->
  node_whois n arr a d = map (fun sn => WhoIsFwd sn d arr a) (filter (fun sn => negb (sn =? arr)) (nadapters n)).
Proof. exact node_whois_unknown. Qed.
Print Assumptions C19_whois_unknown_is_relayed.

Theorem C19_whois_after_announcement : forall n sn a ds n' arr b d, Inv (ncache n) ->
  (2 <= length (nadapters n))%nat -> In sn (nadapters n) -> sn <> arr -> zmem d (nadapters n) = false -> In d ds ->
  get_router_info (ncache n) arr d = None ->
  fst (node_iam n sn a ds) = Ok n' ->
  node_whois n' arr b d = [IAmR arr (Some b) [d]].
Proof. exact node_whois_after_announcement. Qed.
Print Assumptions C19_whois_after_announcement.

(* non-vacuity: a coherent non-empty cache, and the repaired-defect histories evaluated *)
Example C19_example_history :
  let s := run empty [Learn 1 1 [10; 11] 0; Learn 1 2 [11; 12] 0; Learn 2 3 [10] 0] in
  (get_router_info s 1 10, get_router_info s 1 11, get_router_info s 1 12, get_router_info s 2 10)
  = (Some 1, Some 2, Some 2, Some 3).
Proof. vm_compute. reflexivity. Qed.
Example C19_example_coherent_nonempty : exists s, Coherent s /\ get_router_info s 1 10 = Some 1.
Proof.
  exists (run empty [Learn 1 1 [10; 11] 0]). split; [|vm_compute; reflexivity].
  apply C19_history_coherent.
Qed.
(* the same MAC on two source networks: forgetting on network 1 leaves network 2 alone *)
Example C19_example_same_mac :
  let s := run empty [Learn 1 1 [10; 11] 0; Learn 2 1 [10; 12] 0; Forget 1 (Some 1) None] in
  (get_router_info s 1 10, get_router_info s 1 11, get_router_info s 2 10, get_router_info s 2 12, zlen (routers s))
  = (None, None, Some 1, Some 1, 1).
Proof. vm_compute. reflexivity. Qed.
(* a third router takes destinations from two different owners: both lose them *)
Example C19_example_two_owners :
  let s := run empty [Learn 1 1 [10; 12] 0; Learn 1 2 [11] 0; Learn 1 3 [10; 11] 0] in
  (get_router_info s 1 10, get_router_info s 1 11, get_router_info s 1 12, rget s 1 2, zlen (routers s), zlen (paths s))
  = (Some 3, Some 3, Some 1, None, 2, 3).
Proof. vm_compute. reflexivity. Qed.
Example C19_example_renumber_hypothesis :
  zmem 1 (nets (run empty [Learn 1 1 [10] 0; Learn 2 2 [10] 0])) = true.
Proof. vm_compute. reflexivity. Qed.
(* an announcement arriving while the other adapter's link is down: learned, handler left by the exception *)
Example C19_example_outage :
  let r := on_iam [false] (run empty [Learn 1 1 [10] 0]) 1 2 [10; 11] in
  (match fst r with Ok s' => (get_router_info s' 1 10, get_router_info s' 1 11) | Err _ => (None, None) end, snd r)
  = ((Some 2, Some 2), true).
Proof. vm_compute. reflexivity. Qed.
(* emitted traffic: a request parked while nothing is known, then an announcement listing [10; 11] with only
   11 waiting releases it to the announcer; a later request goes straight out; through-traffic arriving on
   net 1 for a destination known via a router on net 1 goes to that router *)
Example C19_example_traffic :
  let n0 := mkN empty [1; 2] [] in
  let (n1, o1) := node_step n0 (NReq 11 1) in
  let (n2, o2) := node_step n1 (NIAm 1 1 [10; 11]) in
  let (n3, o3) := node_step n2 (NReq 11 2) in
  let (n4, o4) := node_step n3 (NFwd 1 2 12 10) in
  (o1, o2, o3, o4, npending n4)
  = ([WhoIs 1 11; WhoIs 2 11], [IAmR 2 None [10; 11]; Send 1 1 11 1 None], [Send 1 1 11 2 None], [Send 1 1 10 0 (Some 12)], []).
Proof. vm_compute. reflexivity. Qed.
(* Who-Is-Router on a node with an UNNUMBERED adapter (-1) next to net 2: unknown and asked from the unnumbered
   side -> not relayed (no SADR can be formed), asked from net 2 -> relayed with the asker as SADR; after router 3
   on net 2 announced 10, a question from the unnumbered side is answered, one from net 2
   is not (same network); after the withdrawal the question is relayed again - and a look-up from the
   unnumbered network never sees what is known on net 2 *)
Example C19_example_whois :
  let n0 := mkN empty [-1; 2] [] in
  let (n1, o1) := node_step n0 (NWhoIs (-1) 7 10) in
  let (n2, o2) := node_step n1 (NIAm 2 3 [10]) in
  let (n3, o3) := node_step n2 (NWhoIs (-1) 7 10) in
  let (n4, o4) := node_step n3 (NWhoIs 2 7 10) in
  let (n5, o5) := node_step n4 (NOps [Forget 2 None (Some [10])]) in
  let (n6, o6) := node_step n5 (NWhoIs (-1) 7 10) in
  let (n7, o7) := node_step n6 (NWhoIs 2 7 10) in
  (o1, o2, o3, o4, o6, o7, get_router_info (ncache n4) (-1) 10, route n4 10)
  = ([], [IAmR (-1) None [10]], [IAmR (-1) (Some 7) [10]], [], [], [WhoIsFwd (-1) 10 2 7], None, Some (2, 3)).
Proof. vm_compute. reflexivity. Qed.
Example C19_example_whois_hypotheses :
  let n := mkN (run empty [Learn 2 3 [10] 0]) [1; 2] [] in
  (2 <= length (nadapters n))%nat /\ zmem 10 (nadapters n) = false /\ get_router_info (ncache n) 1 10 = None /\
  In 2 (nadapters n) /\ get_router_info (ncache n) 2 10 = Some 3.
Proof. vm_compute. repeat split; auto. Qed.
(* the three repaired defects, on the model of the repaired code *)
Example C19_example_forget_dnets_no_nameerror :
  step (run empty [Learn 1 1 [10; 11] 0]) (Forget 1 None (Some [10])) <> Err NameErr /\
  get_router_info (run empty [Learn 1 1 [10; 11] 0; Forget 1 None (Some [10])]) 1 11 = Some 1.
Proof. split; [vm_compute; discriminate | vm_compute; reflexivity]. Qed.
Example C19_example_forget_router_dnets_no_orphan :
  let s := run empty [Learn 1 1 [10; 11] 0; Forget 1 (Some 1) (Some [10])] in
  (get_router_info s 1 10, get_router_info s 1 11, rget s 1 1 <> None) = (None, Some 1, rget s 1 1 <> None)
  /\ zlen (routers s) = 1.
Proof. split; vm_compute; reflexivity. Qed.
Example C19_example_renumber_replaces :
  let s := run empty [Learn 1 1 [10; 11] 0; Learn 2 2 [10; 12] 0; Renum 1 2] in
  (get_router_info s 2 10, get_router_info s 2 11, get_router_info s 2 12, get_router_info s 1 10, zlen (paths s))
  = (Some 1, Some 1, None, None, 2).
Proof. vm_compute. reflexivity. Qed.
