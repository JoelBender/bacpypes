(* C12 — what is sent respects what the peer said it can accept.
   Property theorems only; model Bac.Ssm, Bac.SsmWorld for the I-Am records of a node, Bac.SsmDevInfo for DeviceInfoCache;
   proofs in Bac.SsmC12 / Bac.SsmDevInfoFacts. *)
From Bac Require Import Base PyRt Ssm SsmFacts SsmC04a SsmC12 SsmWorld SsmDevInfo SsmDevInfoFacts.
From BacGen Require Import ApduFns.
Open Scope Z_scope.

(* the APDU is NOT bounded by the peer's maximum: the slice is, and the header comes on top (56 octets towards max 50) *)
Theorem C12_len_le_peer_max_refuted :
  match get_segment over_sender 1 with Ok a => enc_len a = 56 /\ client_segsize over_sender = 50 | Err _ => False end.
Proof. exact over_witness. Qed.
Print Assumptions C12_len_le_peer_max_refuted.

(* what does hold: the payload part is within the segment size, the APDU within segment size + 6; the segment size is what
   ClientSSM.indication computes, and that never exceeds the maximum recorded from the peer's I-Am (nor the path's max NPDU) *)
Theorem C12_len_le_peer_max_partial : forall s i a, 0 <= s_segsize s -> get_segment s i = Ok a ->
  zlen (a_data a) <= s_segsize s /\ enc_len a <= s_segsize s + 6.
Proof.
  intros s i a Hz H. destruct (get_segment_inv _ _ _ H) as (c & _ & _ & Ht & Hd & _).
  assert (Hl := slice_length (a_data c) (i * s_segsize s) (s_segsize s) Hz). rewrite <- Hd in Hl.
  split; [exact Hl|]. unfold enc_len, hdr_len. destruct Ht as [-> | ->]; cbn [Z.eqb Pos.eqb]; destruct (a_seg a); lia.
Qed.
Print Assumptions C12_len_le_peer_max_partial.

Theorem C12_request_segment_size : forall a st, a_type a = 0 -> s_segsize (h_s (fst (c_indication a st))) = client_segsize (h_s st).
Proof.
  intros a [s outs ctr now live] Ht. destruct_ssm s. unfold c_indication, c_abort. rewrite Ht. cbn [Z.eqb negb].
  path_split; unfold client_segsize; mcbn; reflexivity.
Qed.
Print Assumptions C12_request_segment_size.

Theorem C12_segment_size_le_iam : forall s d m, s_dinfo s = Some d -> d_maxapdu d = Some m -> client_segsize s <= m.
Proof. exact client_segsize_le_peer. Qed.
Print Assumptions C12_segment_size_le_iam.

Theorem C12_response_segment_size : forall s, server_segsize s <= s_maxapdu s.
Proof. intros s. unfold server_segsize. destruct (s_dinfo s) as [d|]; [destruct (d_maxnpdu d)|]; lia. Qed.
Print Assumptions C12_response_segment_size.

(* I-Am data: the latest I-Am always wins.  After the application has recorded an I-Am (SsmWorld.iam_update = DeviceInfoCache.
   iam_device_info), whether or not transactions with that peer are open, the record carries the announced maximum and
   segmentation support, every open transaction that holds a record of that peer sees it, and a request submitted from then
   on is cut to at most the announced length *)
Theorem C12_latest_iam_wins : forall addr peer ma sg w n, get_node addr (w_nodes w) = Some n -> c_raw (n_cfg n) = false ->
  exists n' d, get_node addr (w_nodes (iam_update addr peer ma sg w)) = Some n' /\
    assoc peer (c_know (n_cfg n')) = Some d /\ d_maxapdu d = Some ma /\ d_seg d = sg /\
    (forall t, In t (n_ctr n' ++ n_str n') -> s_peer t = peer -> s_dinfo t <> None -> s_dinfo t = Some d) /\
    client_segsize (new_ssm (n_cfg n') peer true) <= ma.
Proof. exact iam_update_record. Qed.
Print Assumptions C12_latest_iam_wins.

(* the limit the server holds is the one decoded from the request when nothing is recorded about the client ... *)
Theorem C12_response_limit_from_request : forall a st dec, a_type a = 0 -> decode_max_apdu_length_accepted (a_maxresp a) = Ok (Some dec) ->
  s_dinfo (h_s st) = None -> s_maxapdu (h_s (fst (s_idle a st))) = dec.
Proof. exact s_idle_limit. Qed.
Print Assumptions C12_response_limit_from_request.

(* ... and the recorded I-Am value when that is larger (request says 50, record says 480: 480 is used) *)
Theorem C12_response_limit_prefers_iam_refuted :
  let s := mkSsm 1 (-1) IDLE None 0 0 0 0 false 0 0 None 3 3000 1500 3 (Some 64) 1476 false None
                 (Some (mkDinfo (Some 480) 3 None None)) 2 3000 in
  s_maxapdu (h_s (fst (s_idle (mk_creq false false true (-1) (-1) 0 0 5 12 [1]) (mkH s [] 0 0 true)))) = 480.
Proof. exact iam_preferred_witness. Qed.
Print Assumptions C12_response_limit_prefers_iam_refuted.

(* a response is segmented only if this side can transmit segments, the request allowed segmented responses, and the
   count is within the request's limit ... *)
Theorem C12_segmented_only_if_allowed : forall s cnt, s_refuse s cnt = None -> 1 < cnt ->
  can_tx (s_segsupp s) = true /\ s_sra s = true /\ forall m, s_maxsegs s = Some m -> cnt <= m.
Proof. exact s_refuse_none. Qed.
Print Assumptions C12_segmented_only_if_allowed.

(* the limit on the number of segments of a response is the one decoded from the request being answered — and the
   segmented-response-accepted flag is the request's SA bit — whatever the record of the client says; the check itself
   never looks at the record *)
Theorem C12_response_segment_limit_from_request : forall a st dec ms, a_type a = 0 ->
  decode_max_apdu_length_accepted (a_maxresp a) = Ok (Some dec) -> dec_maxsegs (a_maxsegs a) = Ok ms ->
  s_maxsegs (h_s (fst (s_idle a st))) = ms /\ s_sra (h_s (fst (s_idle a st))) = a_sa a.
Proof. exact s_idle_maxsegs. Qed.
Print Assumptions C12_response_segment_limit_from_request.

Theorem C12_refusal_ignores_record : forall s d cnt, s_refuse (set_dinfo_f d s) cnt = s_refuse s cnt.
Proof. reflexivity. Qed.
Print Assumptions C12_refusal_ignores_record.

(* ... otherwise the requester gets an abort (segmentation not supported / APDU too long) and nothing else is sent *)
Theorem C12_segments_le_max_else_abort : forall a st cnt r, a_type a = 3 -> h_outs st = [] ->
  seg_count (zlen (a_data a)) (server_segsize (h_s st)) = Ok cnt -> s_refuse (h_s st) cnt = Some r ->
  s_state (h_s st) <> COMPLETED -> s_state (h_s st) <> ABORTED ->
  h_outs (fst (s_confirmation a st)) = [Tx (mk_abort true (s_invoke (h_s st)) r)] /\ h_live (fst (s_confirmation a st)) = false.
Proof. exact s_confirmation_refused. Qed.
Print Assumptions C12_segments_le_max_else_abort.

Theorem C12_abort_reasons : forall s cnt r, s_refuse s cnt = Some r -> 1 < cnt /\ (r = R_SEG_NOT_SUPPORTED \/ r = R_APDU_TOO_LONG).
Proof. exact s_refuse_reason. Qed.
Print Assumptions C12_abort_reasons.

(* a request is segmented only if this side can transmit segments and, when the peer's data is recorded, the peer can
   receive them and the count is within its limit; otherwise the application gets a local abort and nothing is sent *)
Theorem C12_request_segmented_only_to_capable_peer : forall s cnt, c_refuse s cnt = None -> 1 < cnt ->
  can_tx (s_segsupp s) = true /\
  forall d, s_dinfo s = Some d -> can_rx (d_seg d) = true /\ forall m, d_maxsegs d = Some m -> m <> 0 -> cnt <= m.
Proof. exact c_refuse_none. Qed.
Print Assumptions C12_request_segmented_only_to_capable_peer.

Theorem C12_request_refused_locally : forall a st cnt r, a_type a = 0 -> h_outs st = [] ->
  seg_count (zlen (a_data a)) (client_segsize (h_s st)) = Ok cnt -> c_refuse (h_s st) cnt = Some r ->
  s_state (h_s st) <> COMPLETED -> s_state (h_s st) <> ABORTED ->
  h_outs (fst (c_indication a st)) = [ToApp (mk_abort false (a_invoke a) r)] /\ h_live (fst (c_indication a st)) = false.
Proof. exact c_indication_refused. Qed.
Print Assumptions C12_request_refused_locally.

(* windows: what a server grants never exceeds what the client proposed ... *)
Theorem C12_window_le_proposed : forall a st x, a_type a = 0 -> a_seg a = true -> h_outs st = [] ->
  In (Tx x) (h_outs (fst (s_idle a st))) -> a_type x = 4 ->
  a_win x = Z.min (a_win a) (s_propwin (h_s st)) /\ a_win x <= a_win a.
Proof. exact s_idle_window. Qed.
Print Assumptions C12_window_le_proposed.

(* ... but values from the wire are not checked against 1..127: a proposed 0 is granted as 0, an acknowledged 200 is adopted,
   used (3 segments left, all sent) and echoed in the segments *)
Theorem C12_window_range_refuted :
  h_outs (fst (s_idle (mk_creq true true true 0 0 0 0 5 12 [1; 2; 3]) (mkH idle_server [] 0 0 true))) = [Tx (mk_segack false true 5 0 0)]
  /\ let st := fst (c_confirmation (mk_segack false true 1 0 200) (mkH (set_initseq_f 0 over_sender) [] 1 0 true)) in
     s_actwin (h_s st) = Some 200 /\ zlen (tx_frames (h_outs st)) = 3 /\ forallb (fun x => a_win x =? 200) (tx_frames (h_outs st)) = true.
Proof. split; [exact window_zero_witness | exact window_200_witness]. Qed.
Print Assumptions C12_window_range_refuted.

(* the DeviceInfoCache life cycle (model SsmDevInfo.v: records aliased under instance and address keys).
   An Application constructed with a cache uses that very cache whatever it holds — the EMPTY cache included
   (`deviceInfoCache or DeviceInfoCache()`: the class has neither __bool__ nor __len__), so records that reach the caller's
   cache later are the ones the state machines acquire *)
Theorem C12_app_uses_supplied_cache : forall (A : Type) (c fresh : A), app_cache (Some c) fresh = c.
Proof. exact (@app_cache_supplied). Qed.
Print Assumptions C12_app_uses_supplied_cache.

(* the first I-Am recorded into the empty cache: acquire by address and by instance give exactly the announced limits *)
Theorem C12_cache_first_iam : forall inst addr ma seg,
  let c := fst (iam_device_info inst addr ma seg empty_cache) in
  snd (iam_device_info inst addr ma seg empty_cache) = None /\
  snd (acquire (false, addr) c) = Ok (Some (mkDrec inst addr ma seg (Some 1) (Some (inst, addr)))) /\
  snd (acquire (true, inst) c) = Ok (Some (mkDrec inst addr ma seg (Some 1) (Some (inst, addr)))).
Proof.
  intros. unfold c, iam_device_info, update_device_info, acquire, empty_cache.
  cbn -[Z.eqb]. unfold key_eqb. cbn -[Z.eqb]. rewrite !Z.eqb_refl. cbn. repeat split.
Qed.
Print Assumptions C12_cache_first_iam.

(* a further I-Am of a device already recorded under the same instance and address is NOT ignored: keys unchanged, the record
   (shared with every open transaction) takes the new limits.  _partial: the general history (devices that change address or
   instance, two devices claiming one address — where `del` can raise KeyError in the model as in the code) is covered by the
   correspondence cases only *)
Theorem C12_cache_repeated_iam_updates_partial : forall c inst addr ma seg i r n,
  dict_get (true, inst) (dc_dict c) = Some i -> nth_error (dc_heap c) i = Some r ->
  r_keys r = Some (inst, addr) -> r_ref r = Some n ->
  exists c', iam_device_info inst addr ma seg c = (c', None) /\ dc_dict c' = dc_dict c /\
             nth_error (dc_heap c') i = Some (mkDrec inst addr ma seg (Some n) (Some (inst, addr))).
Proof. exact repeated_iam_updates. Qed.
Print Assumptions C12_cache_repeated_iam_updates_partial.

Example C12_cache_example :
  run_cache_ops [CApp true; CIam 5 5 480 3; CIam 5 5 50 0; CAcquire false 5] =
  [23; 1; 20; 20; 21; 1; 5; 5; 50; 0; 1; 24; 0; 5; 5; 5; 50; 0; 1; 24; 1; 5; 5; 5; 50; 0; 1].
Proof. vm_compute. reflexivity. Qed.

Example C12_refuse_examples :
  s_refuse (set_limits_f (Some 2) 50 true idle_server) 3 = Some R_APDU_TOO_LONG /\
  s_refuse (set_limits_f (Some 2) 50 false idle_server) 2 = Some R_SEG_NOT_SUPPORTED /\
  s_refuse (set_limits_f (Some 2) 50 true idle_server) 2 = None /\
  c_refuse over_sender 4 = None.
Proof. vm_compute. repeat split. Qed.
