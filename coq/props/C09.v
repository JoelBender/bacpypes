(* C09 — BACnet/IP frames carry a correct length and round-trip all twelve functions.
   Property theorems only; the model is Bac.Bvll (bvll.py + AnnexJCodec, octets below the codec),
   proofs live in Bac.BvllFacts / BvllRound / BvllTotal / BvllStable and, for the theorems on the
   translated functions, in Bac.BvllGenFacts. *)
From Bac Require Import Base Bvll BvllFacts BvllRound BvllTotal BvllStable BvllRt BvllGen BvllGenFacts.
Open Scope N_scope.

(* every frame the encoder emits — whatever the parameters, whatever bvlciLength the object held
   (`stored`) — starts 0x81, function code, and a length field equal to its octet count, as long as
   that count fits the 16-bit field *)
Theorem C09_length_field : forall stored m bs,
  enc_frame_with stored m = Ok bs -> lenN bs < 65536 ->
  nth 0 bs 0 = 129 /\ nth 1 bs 0 = fn_of m /\ nth 2 bs 0 * 256 + nth 3 bs 0 = lenN bs.
Proof. exact length_field. Qed.
Print Assumptions C09_length_field.

(* the bound is needed: a well-formed 65536-octet frame is emitted with length field 0
   (outside the property's domain: NPDU <= 1497 octets, tables <= 40 entries) *)
Theorem C09_length_field_bound_tight :
  exists m bs, wf_msg m = true /\ enc_frame m = Ok bs /\ lenN bs = 65536 /\
               nth 2 bs 0 * 256 + nth 3 bs 0 = 0.
Proof. exact length_field_bound_tight. Qed.
Print Assumptions C09_length_field_bound_tight.

(* the octet count is the Annex J.2 count for the class: 6, 4+10n, 4, 10+|npdu|, 10, 4+|npdu| *)
Theorem C09_frame_octets : forall m bs,
  wf_msg m = true -> enc_frame m = Ok bs -> lenN bs = frame_len m.
Proof.
  intros m bs W H. destruct (body_roundtrip m W) as (body & Hb & Hl & _).
  rewrite (enc_frame_ok m body Hb Hl) in H. injection H as <-. rewrite lenN_frame_of. exact Hl.
Qed.
Print Assumptions C09_frame_octets.

(* round trip, all twelve functions at once: six-octet addresses, masks < 2^32, TTL / remaining /
   result code < 2^16, tables and payloads of any size that fits the length field *)
Theorem C09_roundtrip : forall m, wf_msg m = true -> frame_len m < 65536 ->
  exists bs, enc_frame m = Ok bs /\ dec_frame bs = Ok m /\ lenN bs = frame_len m.
Proof. exact frame_roundtrip. Qed.
Print Assumptions C09_roundtrip.

(* the twelve, one by one; the bounds are frame_len m < 2^16 solved for the parameter:
   4 + 10 n (tables, n <= 6553), 10 + |d| (Forwarded, |d| <= 65525), 4 + |d| (the NPDU carriers, |d| <= 65531) *)
Theorem C09_roundtrip_result : forall c, (0 <= c < 65536)%Z ->
  exists bs, enc_frame (Result (Some c)) = Ok bs /\ dec_frame bs = Ok (Result (Some c)) /\ lenN bs = 6.
Proof. intros c H. apply (frame_roundtrip (Result (Some c))); cbn [wf_msg wf_short frame_len]; lia. Qed.
Print Assumptions C09_roundtrip_result.

Theorem C09_roundtrip_write_bdt : forall t, forallb wf_bdte t = true -> lenN t <= 6553 ->
  exists bs, enc_frame (WriteBDT t) = Ok bs /\ dec_frame bs = Ok (WriteBDT t) /\ lenN bs = 4 + 10 * lenN t.
Proof. intros t W H. apply (frame_roundtrip (WriteBDT t)); cbn [wf_msg frame_len]; [assumption|lia]. Qed.
Print Assumptions C09_roundtrip_write_bdt.

Theorem C09_roundtrip_read_bdt :
  exists bs, enc_frame ReadBDT = Ok bs /\ dec_frame bs = Ok ReadBDT /\ lenN bs = 4.
Proof. apply (frame_roundtrip ReadBDT); cbn [wf_msg frame_len]; [reflexivity|lia]. Qed.
Print Assumptions C09_roundtrip_read_bdt.

Theorem C09_roundtrip_read_bdt_ack : forall t, forallb wf_bdte t = true -> lenN t <= 6553 ->
  exists bs, enc_frame (ReadBDTAck t) = Ok bs /\ dec_frame bs = Ok (ReadBDTAck t) /\ lenN bs = 4 + 10 * lenN t.
Proof. intros t W H. apply (frame_roundtrip (ReadBDTAck t)); cbn [wf_msg frame_len]; [assumption|lia]. Qed.
Print Assumptions C09_roundtrip_read_bdt_ack.

Theorem C09_roundtrip_forwarded_npdu : forall a d,
  lenN a = 6 -> bytes_ok a = true -> bytes_ok d = true -> lenN d <= 65525 ->
  exists bs, enc_frame (Forwarded (ABytes a) d) = Ok bs /\ dec_frame bs = Ok (Forwarded (ABytes a) d)
             /\ lenN bs = 10 + lenN d.
Proof.
  intros a d Ha Hb Hd H. apply (frame_roundtrip (Forwarded (ABytes a) d)); cbn [wf_msg frame_len]; [|lia].
  now rewrite wf_addr_bytes, Hd.
Qed.
Print Assumptions C09_roundtrip_forwarded_npdu.

Theorem C09_roundtrip_register_fd : forall ttl, (0 <= ttl < 65536)%Z ->
  exists bs, enc_frame (RegisterFD (Some ttl)) = Ok bs /\ dec_frame bs = Ok (RegisterFD (Some ttl)) /\ lenN bs = 6.
Proof. intros ttl H. apply (frame_roundtrip (RegisterFD (Some ttl))); cbn [wf_msg wf_short frame_len]; lia. Qed.
Print Assumptions C09_roundtrip_register_fd.

Theorem C09_roundtrip_read_fdt :
  exists bs, enc_frame ReadFDT = Ok bs /\ dec_frame bs = Ok ReadFDT /\ lenN bs = 4.
Proof. apply (frame_roundtrip ReadFDT); cbn [wf_msg frame_len]; [reflexivity|lia]. Qed.
Print Assumptions C09_roundtrip_read_fdt.

Theorem C09_roundtrip_read_fdt_ack : forall t, forallb wf_fdte t = true -> lenN t <= 6553 ->
  exists bs, enc_frame (ReadFDTAck t) = Ok bs /\ dec_frame bs = Ok (ReadFDTAck t) /\ lenN bs = 4 + 10 * lenN t.
Proof. intros t W H. apply (frame_roundtrip (ReadFDTAck t)); cbn [wf_msg frame_len]; [assumption|lia]. Qed.
Print Assumptions C09_roundtrip_read_fdt_ack.

Theorem C09_roundtrip_delete_fdt_entry : forall a, lenN a = 6 -> bytes_ok a = true ->
  exists bs, enc_frame (DeleteFDT (ABytes a)) = Ok bs /\ dec_frame bs = Ok (DeleteFDT (ABytes a)) /\ lenN bs = 10.
Proof.
  intros a Ha Hb. apply (frame_roundtrip (DeleteFDT (ABytes a))); cbn [wf_msg frame_len]; [now apply wf_addr_bytes | lia].
Qed.
Print Assumptions C09_roundtrip_delete_fdt_entry.

Theorem C09_roundtrip_distribute_broadcast : forall d, bytes_ok d = true -> lenN d <= 65531 ->
  exists bs, enc_frame (Distribute d) = Ok bs /\ dec_frame bs = Ok (Distribute d) /\ lenN bs = 4 + lenN d.
Proof. intros d W H. apply (frame_roundtrip (Distribute d)); cbn [wf_msg frame_len]; [assumption|lia]. Qed.
Print Assumptions C09_roundtrip_distribute_broadcast.

Theorem C09_roundtrip_original_unicast : forall d, bytes_ok d = true -> lenN d <= 65531 ->
  exists bs, enc_frame (OrigUnicast d) = Ok bs /\ dec_frame bs = Ok (OrigUnicast d) /\ lenN bs = 4 + lenN d.
Proof. intros d W H. apply (frame_roundtrip (OrigUnicast d)); cbn [wf_msg frame_len]; [assumption|lia]. Qed.
Print Assumptions C09_roundtrip_original_unicast.

Theorem C09_roundtrip_original_broadcast : forall d, bytes_ok d = true -> lenN d <= 65531 ->
  exists bs, enc_frame (OrigBroadcast d) = Ok bs /\ dec_frame bs = Ok (OrigBroadcast d) /\ lenN bs = 4 + lenN d.
Proof. intros d W H. apply (frame_roundtrip (OrigBroadcast d)); cbn [wf_msg frame_len]; [assumption|lia]. Qed.
Print Assumptions C09_roundtrip_original_broadcast.

(* Address((ip, port)) with a port in 0..65535 yields six well-formed octets carrying ip and port unchanged *)
Theorem C09_ip_port_octets : forall a b c d port,
  a < 256 -> b < 256 -> c < 256 -> d < 256 -> (0 <= port < 65536)%Z ->
  exists l, mk_ip a b c d port = Ok (ABytes l) /\ wf_addr (ABytes l) = true /\
            firstn 4 l = [a; b; c; d] /\ Z.of_N (port_of l) = port.
Proof. exact ip_port_octets. Qed.
Print Assumptions C09_ip_port_octets.

(* ... and any other port is refused at construction (ValueError), so no frame is built from it *)
Theorem C09_ip_port_refused : forall a b c d port,
  (port < 0 \/ 65535 < port)%Z -> mk_ip a b c d port = Err ValueErr.
Proof. exact ip_port_refused. Qed.
Print Assumptions C09_ip_port_refused.

(* a table (or other parameter) changed after construction without the length being recomputed:
   the encoder refuses rather than emit a frame whose length field lies *)
Theorem C09_stale_length_refused : forall stored m, wf_msg m = true ->
  enc_len stored m <> frame_len m -> enc_frame_with stored m = Err EncodingError.
Proof. exact stale_refused. Qed.
Print Assumptions C09_stale_length_refused.

(* inbound: wrong type octet (or no octet at all) is refused *)
Theorem C09_refuses_type : forall bs, hd_error bs <> Some 129 -> dec_frame bs = Err DecodingError.
Proof. exact dec_frame_type. Qed.
Print Assumptions C09_refuses_type.

(* inbound: a length field that differs from the datagram's octet count is refused ... *)
Theorem C09_refuses_length : forall f hi lo body,
  hi * 256 + lo <> lenN body + 4 -> dec_frame (129 :: f :: hi :: lo :: body) = Err DecodingError.
Proof. intros f hi lo body H. rewrite dec_frame_eq. replace (_ && _) with false by lia. reflexivity. Qed.
Print Assumptions C09_refuses_length.

(* ... stated over ALL octet strings and therefore every function code, known or not, and every
   table / payload shape: whenever octets 2-3 do not spell the datagram's octet count, refusal *)
Theorem C09_refuses_length_any : forall bs,
  nth 2 bs 0 * 256 + nth 3 bs 0 <> lenN bs -> dec_frame bs = Err DecodingError.
Proof. exact dec_frame_length_any. Qed.
Print Assumptions C09_refuses_length_any.

(* ... datagrams too short to hold a header are refused ... *)
Theorem C09_refuses_short : forall bs, (length bs < 4)%nat -> dec_frame bs = Err DecodingError.
Proof.
  intros bs. rewrite dec_frame_eq. destruct bs as [|t [|f [|hi [|lo b]]]]; cbn [length]; try reflexivity; lia.
Qed.
Print Assumptions C09_refuses_short.

(* ... so whatever is accepted has type 0x81, a function octet naming the delivered class, and a
   length field equal to the datagram's octet count *)
Theorem C09_accepts_only_consistent : forall bs m, dec_frame bs = Ok m ->
  exists hi lo body, bs = 129 :: fn_of m :: hi :: lo :: body /\ hi * 256 + lo = lenN bs.
Proof. exact dec_frame_accepts. Qed.
Print Assumptions C09_accepts_only_consistent.

(* function codes outside the twelve are refused with DecodingError *)
Theorem C09_refuses_unknown_function : forall f hi lo body,
  12 <= f -> dec_frame (129 :: f :: hi :: lo :: body) = Err DecodingError.
Proof. exact dec_frame_unknown. Qed.
Print Assumptions C09_refuses_unknown_function.

(* arbitrary octets: the decoder terminates (table loops never run out of fuel) with a message or
   DecodingError — no other exception class escapes *)
Theorem C09_decode_total : forall bs,
  (exists m, dec_frame bs = Ok m) \/ dec_frame bs = Err DecodingError.
Proof. exact dec_frame_total. Qed.
Print Assumptions C09_decode_total.

(* whatever is accepted from a datagram of octets is a well-formed message (six-octet addresses,
   masks < 2^32, 16-bit fields) ... *)
Theorem C09_decoded_wellformed : forall bs m,
  bytes_ok bs = true -> dec_frame bs = Ok m -> wf_msg m = true.
Proof. intros bs m B H. apply dec_frame_ok in H as (hi & lo & body & _ & _ & _ & W). exact (W B). Qed.
Print Assumptions C09_decoded_wellformed.

(* ... which re-encodes (never longer than the datagram: fixed-size classes ignore trailing octets)
   to a frame that decodes to the same message *)
Theorem C09_reencode_stable : forall bs m, bytes_ok bs = true -> dec_frame bs = Ok m ->
  exists bs', enc_frame m = Ok bs' /\ dec_frame bs' = Ok m /\ lenN bs' <= lenN bs.
Proof. exact reencode_stable. Qed.
Print Assumptions C09_reencode_stable.

(* the registry read from the source maps exactly the twelve function codes to the twelve classes *)
Theorem C09_registry : forall f k, lookup_fn f bvl_pdu_types = Some k <-> fn_of_kind k = f.
Proof. exact registry_exact. Qed.
Print Assumptions C09_registry.

(* The tie by translation.  BacGen.BvllFns is regenerated from py34/bacpypes/bvll.py on every run by
   translator/gen_bvllfns.py (statement-by-statement translation of the method bodies); the
   theorems below say the translated text and the hand model are the same functions, for all
   inputs, and restate the main results directly on the translated functions. *)

(* klass.messageType, read from the class bodies, is the Annex J code of the class *)
Theorem C09_translated_message_type_is_model : forall k, class_messageType k = fn_of_kind k.
Proof. exact message_type_is_model. Qed.
Print Assumptions C09_translated_message_type_is_model.

(* BVLCI.update copies exactly the three header attributes *)
Theorem C09_translated_update_is_model : forall dst src, BVLCI_update dst src = Ok (hdr_copy dst src, src).
Proof. exact BVLCI_update_is_model. Qed.
Print Assumptions C09_translated_update_is_model.

(* BVLCI.encode + BVLPDU.encode, any object into any PDU: type, function, length check, length, body *)
Theorem C09_translated_bvlpdu_encode_is_model : forall self pdu,
  BVLPDU_encode self pdu =
  do t <- put (bvlciType self);
  do f <- put (bvlciFunction self);
  if negb (bvlciLength self =? lenN (pduData self) + 4) then Err EncodingError
  else Ok (self, py_append pdu (t ++ f ++ put_short (bvlciLength self) ++ pduData self)).
Proof. exact BVLPDU_encode_is_model. Qed.
Print Assumptions C09_translated_bvlpdu_encode_is_model.

(* BVLCI.decode + BVLPDU.decode, any object from any PDU, is dec_bvlci *)
Theorem C09_translated_bvlpdu_decode_is_model : forall self pdu,
  BVLPDU_decode self pdu =
  do (fl, body) <- dec_bvlci (pduData pdu);
  Ok (set_pduData body (set_bvlciLength (snd fl) (set_bvlciFunction (fst fl) (set_bvlciType 129 self))),
      set_pduData [] pdu).
Proof. exact BVLPDU_decode_is_model. Qed.
Print Assumptions C09_translated_bvlpdu_decode_is_model.

(* the twelve encode() methods: any object of any class into any BVLPDU is enc_body / enc_len *)
Theorem C09_translated_class_encode_is_model : forall k self b,
  class_encode k self b =
  do body <- enc_body (msg_of_obj k self);
  Ok (enc_self k self, py_append (hdr_copy b (enc_self k self)) body).
Proof. exact class_encode_is_model. Qed.
Print Assumptions C09_translated_class_encode_is_model.

(* the twelve decode() methods: whatever the receiving object held before, its parameters
   afterwards are dec_body of the octets (so nothing of an earlier frame or of a shared default
   survives in the model of the code) and its header is the BVLPDU's *)
Theorem C09_translated_class_decode_is_model : forall k self b,
  match class_decode k self b with
  | Ok (r, _) => dec_body k (pduData b) = Ok (msg_of_obj k r) /\ same_header r b
  | Err e => dec_body k (pduData b) = Err e
  end.
Proof. exact class_decode_spec. Qed.
Print Assumptions C09_translated_class_decode_is_model.

Theorem C09_translated_enc_frame_is_model : forall stored m, gen_enc_frame_with stored m = enc_frame_with stored m.
Proof. exact gen_enc_frame_with_is_model. Qed.
Print Assumptions C09_translated_enc_frame_is_model.

Theorem C09_translated_dec_frame_is_model : forall fresh bs, gen_dec_frame_from fresh bs = dec_frame bs.
Proof. exact gen_dec_frame_from_is_model. Qed.
Print Assumptions C09_translated_dec_frame_is_model.

(* the delivered object carries the function and length that were read and checked *)
Theorem C09_translated_delivered_header : forall fresh bs k rpdu,
  gen_confirmation fresh bs = Ok (k, rpdu) ->
  exists body, dec_bvlci bs = Ok (bvlciFunction rpdu, bvlciLength rpdu, body) /\ bvlciType rpdu = 129 /\
               lookup_fn (bvlciFunction rpdu) bvl_pdu_types = Some k.
Proof. exact gen_confirmation_header. Qed.
Print Assumptions C09_translated_delivered_header.

Theorem C09_translated_length_field : forall stored m bs,
  gen_enc_frame_with stored m = Ok bs -> lenN bs < 65536 ->
  nth 0 bs 0 = 129 /\ nth 1 bs 0 = fn_of m /\ nth 2 bs 0 * 256 + nth 3 bs 0 = lenN bs.
Proof. exact gen_length_field. Qed.
Print Assumptions C09_translated_length_field.

Theorem C09_translated_roundtrip : forall fresh m, wf_msg m = true -> frame_len m < 65536 ->
  exists bs, gen_enc_frame m = Ok bs /\ gen_dec_frame_from fresh bs = Ok m /\ lenN bs = frame_len m.
Proof. exact gen_frame_roundtrip. Qed.
Print Assumptions C09_translated_roundtrip.

Theorem C09_translated_stale_length_refused : forall stored m, wf_msg m = true ->
  enc_len stored m <> frame_len m -> gen_enc_frame_with stored m = Err EncodingError.
Proof. exact gen_stale_refused. Qed.
Print Assumptions C09_translated_stale_length_refused.

Theorem C09_translated_refuses_type : forall fresh bs,
  hd_error bs <> Some 129 -> gen_dec_frame_from fresh bs = Err DecodingError.
Proof. exact gen_dec_frame_type. Qed.
Print Assumptions C09_translated_refuses_type.

Theorem C09_translated_refuses_length_any : forall fresh bs,
  nth 2 bs 0 * 256 + nth 3 bs 0 <> lenN bs -> gen_dec_frame_from fresh bs = Err DecodingError.
Proof. exact gen_dec_frame_length_any. Qed.
Print Assumptions C09_translated_refuses_length_any.

Theorem C09_translated_refuses_unknown_function : forall fresh f hi lo body,
  12 <= f -> gen_dec_frame_from fresh (129 :: f :: hi :: lo :: body) = Err DecodingError.
Proof. exact gen_dec_frame_unknown. Qed.
Print Assumptions C09_translated_refuses_unknown_function.

Theorem C09_translated_accepts_only_consistent : forall fresh bs m, gen_dec_frame_from fresh bs = Ok m ->
  exists hi lo body, bs = 129 :: fn_of m :: hi :: lo :: body /\ hi * 256 + lo = lenN bs.
Proof. exact gen_dec_frame_accepts. Qed.
Print Assumptions C09_translated_accepts_only_consistent.

Theorem C09_translated_decode_total : forall fresh bs,
  (exists m, gen_dec_frame_from fresh bs = Ok m) \/ gen_dec_frame_from fresh bs = Err DecodingError.
Proof. exact gen_dec_frame_total. Qed.
Print Assumptions C09_translated_decode_total.

(* non-vacuity of the translated definitions: they compute *)
Example C09_translated_example :
  gen_enc_frame (ReadFDTAck [mkFdte (ip_addr 192 168 0 10 47808) (Some 30%Z) (Some 5%Z)])
    = Ok [129; 7; 0; 14; 192; 168; 0; 10; 186; 192; 0; 30; 0; 5]
  /\ gen_dec_frame [129; 7; 0; 14; 192; 168; 0; 10; 186; 192; 0; 30; 0; 5]
    = Ok (ReadFDTAck [mkFdte (ABytes [192; 168; 0; 10; 186; 192]) (Some 30%Z) (Some 5%Z)])
  /\ gen_dec_frame_from (fun _ => obj_of_msg 0 (ReadFDTAck [mkFdte ANone None None])) [129; 7; 0; 4] = Ok (ReadFDTAck [])
  /\ gen_dec_frame [129; 1; 0; 9; 1; 2; 3; 4; 5] = Err DecodingError.
Proof. repeat split; vm_compute; reflexivity. Qed.

(* non-vacuity: concrete messages of every class meet wf_msg and the length bound *)
Example C09_wf_examples :
  forallb (fun m => wf_msg m && (frame_len m <? 65536))
    [Result (Some 0%Z); Result (Some 65535%Z);
     WriteBDT []; WriteBDT [mkBdte (ip_addr 192 168 0 1 47808) (Some (prefix_mask 24))];
     ReadBDT; ReadBDTAck [mkBdte (ip_addr 10 0 0 255 47809) (Some 4294967295%Z); mkBdte (ip_addr 0 0 0 0 0) (Some 0%Z)];
     Forwarded (ip_addr 1 2 3 4 65535) [1; 0; 255]; RegisterFD (Some 30%Z); ReadFDT;
     ReadFDTAck [mkFdte (ip_addr 255 255 255 255 47808) (Some 65535%Z) (Some 0%Z)];
     DeleteFDT (ABytes [1; 2; 3; 4; 186; 192]); Distribute []; OrigUnicast [1; 4; 0]; OrigBroadcast (repeat 7 1497)] = true.
Proof. vm_compute. reflexivity. Qed.
Example C09_roundtrip_example :
  enc_frame (ReadFDTAck [mkFdte (ip_addr 192 168 0 10 47808) (Some 30%Z) (Some 5%Z)])
    = Ok [129; 7; 0; 14; 192; 168; 0; 10; 186; 192; 0; 30; 0; 5]
  /\ dec_frame [129; 7; 0; 14; 192; 168; 0; 10; 186; 192; 0; 30; 0; 5]
    = Ok (ReadFDTAck [mkFdte (ABytes [192; 168; 0; 10; 186; 192]) (Some 30%Z) (Some 5%Z)]).
Proof. split; vm_compute; reflexivity. Qed.
Example C09_stale_example :
  enc_frame_with (ctor_len (WriteBDT [])) (WriteBDT [mkBdte (ip_addr 1 2 3 4 47808) (Some 0%Z)]) = Err EncodingError.
Proof. vm_compute. reflexivity. Qed.
Example C09_refusal_examples :
  dec_frame [130; 2; 0; 4] = Err DecodingError /\ dec_frame [129; 2; 0; 5] = Err DecodingError /\
  dec_frame [129; 2; 0; 4; 0] = Err DecodingError /\ dec_frame [129; 12; 0; 4] = Err DecodingError /\
  dec_frame [129; 2; 0; 4] = Ok ReadBDT.
Proof. repeat split; vm_compute; reflexivity. Qed.
