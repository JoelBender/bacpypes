(* C07 — APDU fixed headers carry every field of all eight PDU types faithfully.
   Property theorems only; proofs live in Bac.ApciHdr / ApciDec / ApciTypes (header codec model
   Bac.Apci) and Bac.ApciFacts (the AST-translated code tables BacGen.ApduFns). *)
From Bac Require Import Base PyRt Apci ApciHdr ApciDec ApciTypes ApciFacts ApciSession ApciSessionFacts ApciRt ApciGenFacts.
From BacGen Require Import ApduFns ApciFns.
Open Scope N_scope.

(* round trip, per PDU type.  `roundtrips a octets` :=  for every payload,
        enc_apdu a payload = Ok (octets ++ payload)  /\  dec_apci (octets ++ payload) = Ok (a, payload):
   every in-range field combination encodes, and decoding restores exactly the same attribute
   set (attributes the type does not carry stay None) with the payload untouched. *)
Theorem C07_roundtrip_confirmed_request : forall seg mor sa ms mr inv sq wn svc,
  ms < 8 -> mr < 16 -> inv < 256 -> sq < 256 -> wn < 256 -> svc < 256 ->
  roundtrips (confirmed_request_attrs seg mor sa ms mr inv sq wn svc)
             (confirmed_request_octets seg mor sa ms mr inv sq wn svc).
Proof. intros. apply (roundtrips_of (ConfirmedRequest seg mor sa ms mr inv sq wn svc)). wf_hyps. Qed.
Print Assumptions C07_roundtrip_confirmed_request.

Theorem C07_roundtrip_unconfirmed_request : forall svc, svc < 256 ->
  roundtrips (unconfirmed_request_attrs svc) [16; svc].
Proof. intros. apply (roundtrips_of (UnconfirmedRequest svc)). wf_hyps. Qed.
Print Assumptions C07_roundtrip_unconfirmed_request.

Theorem C07_roundtrip_simple_ack : forall inv svc, inv < 256 -> svc < 256 ->
  roundtrips (simple_ack_attrs inv svc) [32; inv; svc].
Proof. intros. apply (roundtrips_of (SimpleAck inv svc)). wf_hyps. Qed.
Print Assumptions C07_roundtrip_simple_ack.

Theorem C07_roundtrip_complex_ack : forall seg mor inv sq wn svc,
  inv < 256 -> sq < 256 -> wn < 256 -> svc < 256 ->
  roundtrips (complex_ack_attrs seg mor inv sq wn svc) (complex_ack_octets seg mor inv sq wn svc).
Proof. intros. apply (roundtrips_of (ComplexAck seg mor inv sq wn svc)). wf_hyps. Qed.
Print Assumptions C07_roundtrip_complex_ack.

Theorem C07_roundtrip_segment_ack : forall nak srv inv sq wn, inv < 256 -> sq < 256 -> wn < 256 ->
  roundtrips (segment_ack_attrs nak srv inv sq wn) [64 + 2 * b2n nak + b2n srv; inv; sq; wn].
Proof. intros. apply (roundtrips_of (SegmentAck nak srv inv sq wn)). wf_hyps. Qed.
Print Assumptions C07_roundtrip_segment_ack.

Theorem C07_roundtrip_error : forall inv svc, inv < 256 -> svc < 256 ->
  roundtrips (error_attrs inv svc) [80; inv; svc].
Proof. intros. apply (roundtrips_of (ErrorHdr inv svc)). wf_hyps. Qed.
Print Assumptions C07_roundtrip_error.

Theorem C07_roundtrip_reject : forall inv rsn, inv < 256 -> rsn < 256 ->
  roundtrips (reject_attrs inv rsn) [96; inv; rsn].
Proof. intros. apply (roundtrips_of (Reject inv rsn)). wf_hyps. Qed.
Print Assumptions C07_roundtrip_reject.

Theorem C07_roundtrip_abort : forall srv inv rsn, inv < 256 -> rsn < 256 ->
  roundtrips (abort_attrs srv inv rsn) [112 + b2n srv; inv; rsn].
Proof. intros. apply (roundtrips_of (Abort srv inv rsn)). wf_hyps. Qed.
Print Assumptions C07_roundtrip_abort.

(* layout, per PDU type: APCI.encode produces the bit layout of clause 20.1 (type in the
   high nibble; SEG/MOR/SA at 08/04/02; NAK/SRV at 02/01; 0 max-segs(3) max-resp(4)) *)
Theorem C07_layout_confirmed_request : forall seg mor sa ms mr inv sq wn svc,
  ms < 8 -> mr < 16 -> inv < 256 -> sq < 256 -> wn < 256 -> svc < 256 ->
  enc_apci (confirmed_request_attrs seg mor sa ms mr inv sq wn svc)
  = Ok ([8 * b2n seg + 4 * b2n mor + 2 * b2n sa; 16 * ms + mr; inv]
        ++ (if seg then [sq; wn] else []) ++ [svc]).
Proof. intros. apply (hdr_layout (ConfirmedRequest seg mor sa ms mr inv sq wn svc)). wf_hyps. Qed.
Print Assumptions C07_layout_confirmed_request.

Theorem C07_layout_unconfirmed_request : forall svc, svc < 256 ->
  enc_apci (unconfirmed_request_attrs svc) = Ok [16; svc].
Proof. intros. apply (hdr_layout (UnconfirmedRequest svc)). wf_hyps. Qed.
Print Assumptions C07_layout_unconfirmed_request.

Theorem C07_layout_simple_ack : forall inv svc, inv < 256 -> svc < 256 ->
  enc_apci (simple_ack_attrs inv svc) = Ok [32; inv; svc].
Proof. intros. apply (hdr_layout (SimpleAck inv svc)). wf_hyps. Qed.
Print Assumptions C07_layout_simple_ack.

Theorem C07_layout_complex_ack : forall seg mor inv sq wn svc,
  inv < 256 -> sq < 256 -> wn < 256 -> svc < 256 ->
  enc_apci (complex_ack_attrs seg mor inv sq wn svc)
  = Ok ([48 + 8 * b2n seg + 4 * b2n mor; inv] ++ (if seg then [sq; wn] else []) ++ [svc]).
Proof. intros. apply (hdr_layout (ComplexAck seg mor inv sq wn svc)). wf_hyps. Qed.
Print Assumptions C07_layout_complex_ack.

Theorem C07_layout_segment_ack : forall nak srv inv sq wn, inv < 256 -> sq < 256 -> wn < 256 ->
  enc_apci (segment_ack_attrs nak srv inv sq wn) = Ok [64 + 2 * b2n nak + b2n srv; inv; sq; wn].
Proof. intros. apply (hdr_layout (SegmentAck nak srv inv sq wn)). wf_hyps. Qed.
Print Assumptions C07_layout_segment_ack.

Theorem C07_layout_error : forall inv svc, inv < 256 -> svc < 256 ->
  enc_apci (error_attrs inv svc) = Ok [80; inv; svc].
Proof. intros. apply (hdr_layout (ErrorHdr inv svc)). wf_hyps. Qed.
Print Assumptions C07_layout_error.

Theorem C07_layout_reject : forall inv rsn, inv < 256 -> rsn < 256 ->
  enc_apci (reject_attrs inv rsn) = Ok [96; inv; rsn].
Proof. intros. apply (hdr_layout (Reject inv rsn)). wf_hyps. Qed.
Print Assumptions C07_layout_reject.

Theorem C07_layout_abort : forall srv inv rsn, inv < 256 -> rsn < 256 ->
  enc_apci (abort_attrs srv inv rsn) = Ok [112 + b2n srv; inv; rsn].
Proof. intros. apply (hdr_layout (Abort srv inv rsn)). wf_hyps. Qed.
Print Assumptions C07_layout_abort.

(* the same two facts for all types at once, over the typed header and the independent
   transcription spec20_1 of clause 20.1 *)
Theorem C07_layout_all : forall h, wf_hdr h = true -> enc_apci (to_apci h) = Ok (spec20_1 h).
Proof. exact hdr_layout. Qed.
Print Assumptions C07_layout_all.

Theorem C07_roundtrip_all : forall h payload, wf_hdr h = true ->
  exists bs, enc_apdu (to_apci h) payload = Ok bs /\ bs = spec20_1 h ++ payload /\
             dec_apci bs = Ok (to_apci h, payload).
Proof. exact hdr_roundtrip. Qed.
Print Assumptions C07_roundtrip_all.

(* an unsegmented PDU carries no sequence number / window size, whatever the attributes hold *)
Theorem C07_unsegmented_ignores_seq_win : forall a sq wn, truthy (aSeg a) = false ->
  (aType a = Some 0%Z \/ aType a = Some 3%Z) -> enc_apci (with_seq_win a sq wn) = enc_apci a.
Proof.
  intros a sq wn S [T|T]; unfold enc_apci, with_seq_win;
    cbn [aType aSeg aMor aSA aSrv aNak aSeq aWin aMaxSegs aMaxResp aService aInvokeID aReason];
    rewrite T, S; reflexivity.
Qed.
Print Assumptions C07_unsegmented_ignores_seq_win.

(* distinct headers / payloads never share an encoding *)
Theorem C07_encoding_injective : forall h1 p1 h2 p2, wf_hdr h1 = true -> wf_hdr h2 = true ->
  spec20_1 h1 ++ p1 = spec20_1 h2 ++ p2 -> to_apci h1 = to_apci h2 /\ p1 = p2.
Proof.
  intros h1 p1 h2 p2 W1 W2 E.
  pose proof (hdr_decode h1 p1 W1) as D1. pose proof (hdr_decode h2 p2 W2) as D2.
  rewrite E in D1. rewrite D1 in D2. injection D2 as -> ->. split; reflexivity.
Qed.
Print Assumptions C07_encoding_injective.

(* a PDU type outside 0..7 (or None) is refused by the encoder *)
Theorem C07_invalid_type_refused : forall a,
  (forall k, (0 <= k <= 7)%Z -> aType a <> Some k) -> enc_apci a = Err ValueErr.
Proof. exact enc_invalid_type. Qed.
Print Assumptions C07_invalid_type_refused.

(* arbitrary octet strings: a header or DecodingError, never anything else *)
Theorem C07_decode_total : forall bs,
  (exists a r, dec_apci bs = Ok (a, r)) \/ dec_apci bs = Err DecodingError.
Proof. exact dec_apci_total. Qed.
Print Assumptions C07_decode_total.

(* what is returned as payload is the input minus a 2..6 octet header: no over-read, no loss *)
Theorem C07_no_overread : forall bs a r, dec_apci bs = Ok (a, r) ->
  exists hd, bs = hd ++ r /\ (2 <= length hd <= 6)%nat.
Proof. exact dec_shape. Qed.
Print Assumptions C07_no_overread.

(* a decoded attribute set is a well-formed header of one of the eight types *)
Theorem C07_decode_yields_header : forall bs a r, bytes_ok bs = true -> dec_apci bs = Ok (a, r) ->
  exists h, wf_hdr h = true /\ a = to_apci h.
Proof. exact dec_yields_header. Qed.
Print Assumptions C07_decode_yields_header.

Theorem C07_reencode_stable : forall bs a r, bytes_ok bs = true -> dec_apci bs = Ok (a, r) ->
  exists bs', enc_apdu a r = Ok bs' /\ dec_apci bs' = Ok (a, r).
Proof. exact reencode_stable. Qed.
Print Assumptions C07_reencode_stable.

(* object histories (model Bac.ApciSession: a store of APDU objects; decode into fresh or used
   objects, in-place appends to pduData, objects used as encode targets, typed classes taking a
   decoded APDU, re-encoding).  Decoding is a function of the octets fed, not of the past. *)

(* whatever ran before on whatever objects: decoding into a not yet used object observes dec_apci bs *)
Theorem C07_decode_history_free : forall st o bs, fst (lookup st o) = apci_none ->
  snd (step st (OpDecode o bs)) = framed (canon_dec (dec_apci bs)).
Proof.
  intros st o bs F. cbn [step]. rewrite F, dec_into_fresh.
  destruct (dec_apci bs) as [[a r]|e]; reflexivity.
Qed.
Print Assumptions C07_decode_history_free.

(* into a used object as well: the payload stored is the input minus its 2..6 header octets *)
Theorem C07_decode_payload_from_octets : forall st o bs a r,
  dec_into (fst (lookup st o)) bs = Ok (a, r) ->
  lookup (fst (step st (OpDecode o bs))) o = (a, r) /\
  exists hd, bs = hd ++ r /\ (2 <= length hd <= 6)%nat.
Proof.
  intros st o bs a r D. cbn [step]. rewrite D. cbn [fst]. rewrite lookup_update_same. split; [reflexivity|].
  apply dec_into_inv in D as (a0 & D & _). exact (dec_shape bs a0 r D).
Qed.
Print Assumptions C07_decode_payload_from_octets.

(* an object with arbitrary stale attributes: decoding header + payload into it yields the payload
   fed and attributes that re-encode to exactly the octets fed *)
Theorem C07_reused_object_roundtrip : forall old h p, wf_hdr h = true ->
  dec_into old (spec20_1 h ++ p) = Ok (overlay old (to_apci h), p) /\
  enc_apdu (overlay old (to_apci h)) p = Ok (spec20_1 h ++ p).
Proof. exact reused_object_roundtrip. Qed.
Print Assumptions C07_reused_object_roundtrip.

(* no operation changes an object it does not name (in-place appends stay where they were made) *)
Theorem C07_ops_touch_only_named_objects : forall st x o', ~ In o' (touched x) ->
  lookup (fst (step st x)) o' = lookup st o'.
Proof. exact step_frame. Qed.
Print Assumptions C07_ops_touch_only_named_objects.


(* X.decode(apdu) into a typed object that was used before: attributes and payload are the source's,
   whatever the object held; the source is drained *)
Theorem C07_typed_decode_replaces : forall st dst src, dst <> src ->
  lookup (fst (step st (OpTyped dst src))) dst = lookup st src /\
  lookup (fst (step st (OpTyped dst src))) src = (fst (lookup st src), []).
Proof. exact typed_decode_replaces. Qed.
Print Assumptions C07_typed_decode_replaces.

(* apdu.decode(pdu), pdu an object the application keeps: header + payload in the APDU, the PDU empty *)
Theorem C07_decode_from_drains_source : forall st o src a r, o <> src ->
  dec_into (fst (lookup st o)) (snd (lookup st src)) = Ok (a, r) ->
  lookup (fst (step st (OpDecodeFrom o src))) o = (a, r) /\
  lookup (fst (step st (OpDecodeFrom o src))) src = (fst (lookup st src), []).
Proof. exact decode_from_drains. Qed.
Print Assumptions C07_decode_from_drains_source.

(* relay: decode a frame out of a PDU, encode the APDU back into the same PDU — exactly the frame again *)
Theorem C07_relay_roundtrip : forall st o src h p, o <> src -> wf_hdr h = true ->
  snd (lookup st src) = spec20_1 h ++ p ->
  let st1 := fst (step st (OpDecodeFrom o src)) in
  let st2 := fst (step st1 (OpEncodeTo o src)) in
  lookup st1 o = (overlay (fst (lookup st o)) (to_apci h), p) /\
  snd (lookup st1 src) = [] /\
  snd (lookup st2 src) = spec20_1 h ++ p /\
  lookup st2 o = lookup st1 o.
Proof. exact relay_roundtrip. Qed.
Print Assumptions C07_relay_roundtrip.

(* the SOURCE, translated: BacGen.ApciFns is regenerated from py34/bacpypes/apdu.py by
   translator/gen_apci.py on every run (APCI.update / encode / decode, APDU.encode / decode,
   _APDU.encode / decode, statement by statement).  An object is (attributes, pduData); a translated
   method takes self and its other parameter and returns both.  The translated text equals the hand
   model for ALL inputs, so every theorem above is a theorem about what the source says now. *)
Open Scope Z_scope.

Theorem C07_translated_pdu_types_is_model : pdu_type_constants = [0; 1; 2; 3; 4; 5; 6; 7].
Proof. exact pdu_type_constants_std. Qed.
Print Assumptions C07_translated_pdu_types_is_model.

Theorem C07_translated_update_is_model : forall a sd b bd,
  py_APCI_update a sd b bd = Ok ((b, sd), (b, bd)).
Proof. exact py_APCI_update_eq. Qed.
Print Assumptions C07_translated_update_is_model.

Theorem C07_translated_apci_encode_is_model : forall a sd pa pd,
  py_APCI_encode a sd pa pd = do h <- enc_apci a; Ok ((a, sd), (pa, pd ++ h)).
Proof. exact py_APCI_encode_eq. Qed.
Print Assumptions C07_translated_apci_encode_is_model.

Theorem C07_translated_apci_decode_is_model : forall old sd pa bs,
  py_APCI_decode old sd pa bs
  = do (a, r) <- dec_apci bs; Ok ((overlay old a, if data_taken a then r else sd), (pa, r)).
Proof. exact py_APCI_decode_eq. Qed.
Print Assumptions C07_translated_apci_decode_is_model.

Theorem C07_translated_apdu_encode_is_model : forall a sd pa pd,
  py_APDU_encode a sd pa pd = do bs <- enc_apdu a sd; Ok ((a, sd), (pa, pd ++ bs)).
Proof. exact py_APDU_encode_eq. Qed.
Print Assumptions C07_translated_apdu_encode_is_model.

Theorem C07_translated_apdu_decode_is_model : forall old sd pa bs,
  py_APDU_decode old sd pa bs = do (a, r) <- dec_into old bs; Ok ((a, r), (pa, [])).
Proof. exact py_APDU_decode_eq. Qed.
Print Assumptions C07_translated_apdu_decode_is_model.

Theorem C07_translated_typed_encode_is_model : forall a sd pa pd,
  py__APDU_encode a sd pa pd = Ok ((a, sd), (a, pd ++ sd)).
Proof. exact py__APDU_encode_eq. Qed.
Print Assumptions C07_translated_typed_encode_is_model.

(* the decode of the eight typed classes: the payload the object held (sd) is gone, for every sd *)
Theorem C07_translated_typed_decode_is_model : forall old sd a pd,
  py__APDU_decode old sd a pd = Ok ((a, pd), (a, [])).
Proof. exact py__APDU_decode_eq. Qed.
Print Assumptions C07_translated_typed_decode_is_model.

(* the main statements directly on the translated functions.
   Layout and round trip, for every well-formed header and EVERY payload (no bound on its length):
   no size is refused, the payload is untouched *)
Theorem C07_translated_roundtrip_every_payload_length : forall h payload pa, wf_hdr h = true ->
  py_APDU_encode (to_apci h) payload pa [] = Ok ((to_apci h, payload), (pa, spec20_1 h ++ payload)) /\
  py_APDU_decode apci_none [] pa (spec20_1 h ++ payload) = Ok ((to_apci h, payload), (pa, [])).
Proof. exact gen_roundtrip. Qed.
Print Assumptions C07_translated_roundtrip_every_payload_length.

Theorem C07_translated_layout : forall h sd pa pd, wf_hdr h = true ->
  py_APCI_encode (to_apci h) sd pa pd = Ok ((to_apci h, sd), (pa, pd ++ spec20_1 h)).
Proof. exact gen_layout. Qed.
Print Assumptions C07_translated_layout.

(* arbitrary octets of any length into any object: a header, or DecodingError — nothing else *)
Theorem C07_translated_decode_total : forall old sd pa bs,
  (exists a r, py_APDU_decode old sd pa bs = Ok ((a, r), (pa, []))) \/
  py_APDU_decode old sd pa bs = Err DecodingError.
Proof. exact gen_decode_total. Qed.
Print Assumptions C07_translated_decode_total.

Theorem C07_translated_invalid_type_refused : forall a sd pa pd,
  (forall k, 0 <= k <= 7 -> aType a <> Some k) -> py_APDU_encode a sd pa pd = Err ValueErr.
Proof. exact gen_invalid_type. Qed.
Print Assumptions C07_translated_invalid_type_refused.

(* decode into a USED object of the generic class, and the whole path through a USED typed object *)
Theorem C07_translated_reused_object_roundtrip : forall old sd pa h p, wf_hdr h = true ->
  py_APDU_decode old sd pa (spec20_1 h ++ p) = Ok ((overlay old (to_apci h), p), (pa, [])) /\
  py_APDU_encode (overlay old (to_apci h)) p pa [] = Ok ((overlay old (to_apci h), p), (pa, spec20_1 h ++ p)).
Proof. exact gen_reused_object. Qed.
Print Assumptions C07_translated_reused_object_roundtrip.

Theorem C07_translated_typed_roundtrip : forall old sd told tsd pa h p, wf_hdr h = true ->
  exists a, a = overlay old (to_apci h) /\
  py_APDU_decode old sd pa (spec20_1 h ++ p) = Ok ((a, p), (pa, [])) /\
  py__APDU_decode told tsd a p = Ok ((a, p), (a, [])) /\
  py__APDU_encode a p apci_none [] = Ok ((a, p), (a, p)) /\
  py_APDU_encode a p pa [] = Ok ((a, p), (pa, spec20_1 h ++ p)).
Proof. exact gen_typed_roundtrip. Qed.
Print Assumptions C07_translated_typed_roundtrip.

(* the steps of the object-history model are the translated methods applied to the stored objects *)
Theorem C07_translated_step_decode_from : forall st o src so ss, o <> src ->
  py_APDU_decode (fst (lookup st o)) (snd (lookup st o)) (fst (lookup st src)) (snd (lookup st src)) = Ok (so, ss) ->
  lookup (fst (step st (OpDecodeFrom o src))) o = so /\
  lookup (fst (step st (OpDecodeFrom o src))) src = ss.
Proof. exact step_decode_from_is_translated. Qed.
Print Assumptions C07_translated_step_decode_from.

Theorem C07_translated_step_typed : forall st dst src so ss, dst <> src ->
  py__APDU_decode (fst (lookup st dst)) (snd (lookup st dst)) (fst (lookup st src)) (snd (lookup st src)) = Ok (so, ss) ->
  lookup (fst (step st (OpTyped dst src))) dst = so /\
  lookup (fst (step st (OpTyped dst src))) src = ss.
Proof. exact step_typed_is_translated. Qed.
Print Assumptions C07_translated_step_typed.

Theorem C07_translated_step_encode_to : forall st o dst so sd', o <> dst ->
  py_APDU_encode (fst (lookup st o)) (snd (lookup st o)) (fst (lookup st dst)) (snd (lookup st dst)) = Ok (so, sd') ->
  lookup (fst (step st (OpEncodeTo o dst))) o = so /\
  lookup (fst (step st (OpEncodeTo o dst))) dst = sd'.
Proof. exact step_encode_to_is_translated. Qed.
Print Assumptions C07_translated_step_encode_to.
Open Scope N_scope.

(* the two code tables (generated text of BacGen.ApduFns), for every integer *)
Open Scope Z_scope.

Theorem C07_maxsegs_round_down : forall n, 2 <= n ->
  exists c, encode_max_segments_accepted n = Ok c /\
    (n <= 64 -> 1 <= c <= 6 /\
       exists lo, decode_max_segments_accepted c = Ok (Some lo) /\ lo <= n < 2 * lo /\
         (c < 6 -> decode_max_segments_accepted (c + 1) = Ok (Some (2 * lo)))) /\
    (64 < n -> c = 7).
Proof. exact maxsegs_round_down. Qed.
Print Assumptions C07_maxsegs_round_down.

Theorem C07_maxapdu_round_down : forall n, 50 <= n ->
  exists c lo, encode_max_apdu_length_accepted n = Ok c /\ 0 <= c <= 5 /\
    decode_max_apdu_length_accepted c = Ok (Some lo) /\ lo <= n /\
    (c < 5 -> exists hi, decode_max_apdu_length_accepted (c + 1) = Ok (Some hi) /\ n < hi).
Proof.
  (* in every row: the code, the entry it stands for and the next entry by computation, the bounds from the row *)
  intros n H. destruct (enc_ml_cases n) as [[R E]|[[R E]|[[R E]|[[R E]|[[R E]|[[R E]|[R E]]]]]]]; [lia|..];
    eexists _, _; (split; [exact E|]); (split; [lia|]); (split; [reflexivity|]); (split; [lia|]);
    intros C; try lia; eexists; (split; [reflexivity|lia]).
Qed.
Print Assumptions C07_maxapdu_round_down.

(* never up: what the chosen code stands for is the greatest table entry not above n *)
Theorem C07_maxsegs_never_up : forall n c lo c' v,
  encode_max_segments_accepted n = Ok c -> decode_max_segments_accepted c = Ok (Some lo) ->
  decode_max_segments_accepted c' = Ok (Some v) -> v <= n -> lo <= n /\ v <= lo.
Proof. exact maxsegs_greatest. Qed.
Print Assumptions C07_maxsegs_never_up.

Theorem C07_maxapdu_never_up : forall n c lo c' v,
  encode_max_apdu_length_accepted n = Ok c -> decode_max_apdu_length_accepted c = Ok (Some lo) ->
  decode_max_apdu_length_accepted c' = Ok (Some v) -> v <= n -> lo <= n /\ v <= lo.
Proof. exact maxapdu_greatest. Qed.
Print Assumptions C07_maxapdu_never_up.

Theorem C07_tables_inverse :
  (forall c, 1 <= c <= 6 -> exists v, decode_max_segments_accepted c = Ok (Some v) /\
                                      encode_max_segments_accepted v = Ok c) /\
  (forall c, 0 <= c <= 5 -> exists v, decode_max_apdu_length_accepted c = Ok (Some v) /\
                                      encode_max_apdu_length_accepted v = Ok c).
Proof. exact tables_inverse. Qed.
Print Assumptions C07_tables_inverse.

(* the standard's tables: code c in 1..6 = 2^c segments, 0 and 7 carry no number;
   50/128/206/480/1024/1476 octets, codes 6..15 reserved and refused *)
Theorem C07_maxsegs_table :
  (forall c, 1 <= c <= 6 -> decode_max_segments_accepted c = Ok (Some (2 ^ c))) /\
  decode_max_segments_accepted 0 = Ok None /\ decode_max_segments_accepted 7 = Ok None.
Proof. exact maxsegs_decode_table. Qed.
Print Assumptions C07_maxsegs_table.

Theorem C07_maxapdu_table :
  decode_max_apdu_length_accepted 0 = Ok (Some 50) /\ decode_max_apdu_length_accepted 1 = Ok (Some 128) /\
  decode_max_apdu_length_accepted 2 = Ok (Some 206) /\ decode_max_apdu_length_accepted 3 = Ok (Some 480) /\
  decode_max_apdu_length_accepted 4 = Ok (Some 1024) /\ decode_max_apdu_length_accepted 5 = Ok (Some 1476).
Proof. repeat split; reflexivity. Qed.
Print Assumptions C07_maxapdu_table.

Theorem C07_maxapdu_reserved_refused : forall c, 6 <= c <= 15 ->
  decode_max_apdu_length_accepted c = Err ValueErr.
Proof.
  intros c H.
  assert (Hc : c = 6 \/ c = 7 \/ c = 8 \/ c = 9 \/ c = 10 \/ c = 11 \/ c = 12 \/ c = 13 \/ c = 14 \/ c = 15) by lia.
  repeat (destruct Hc as [-> | Hc]); try subst c; reflexivity.
Qed.
Print Assumptions C07_maxapdu_reserved_refused.

(* refusal below the minimum: nothing to round down to *)
Theorem C07_maxsegs_refuse_below : forall n, n < 0 \/ n = 1 ->
  encode_max_segments_accepted n = Err ValueErr.
Proof. exact maxsegs_refuse_below. Qed.
Print Assumptions C07_maxsegs_refuse_below.

Theorem C07_maxapdu_refuse_below : forall n, n < 50 ->
  encode_max_apdu_length_accepted n = Err ValueErr.
Proof. exact maxapdu_refuse_below. Qed.
Print Assumptions C07_maxapdu_refuse_below.

(* non-vacuity: the hypotheses are met by concrete headers, and the model computes the
   octets the implementation produces (0a 35 c8 01 02 0c + payload for the first one) *)
Open Scope N_scope.
Example C07_wf_examples :
  forallb wf_hdr [ConfirmedRequest true false true 3 5 200 1 2 12; UnconfirmedRequest 8;
                  SimpleAck 255 15; ComplexAck true true 0 255 127 12; SegmentAck true false 1 2 3;
                  ErrorHdr 7 12; Reject 9 4; Abort true 128 65] = true.
Proof. vm_compute. reflexivity. Qed.
Example C07_confirmed_request_octets :
  enc_apdu (confirmed_request_attrs true false true 3 5 200 1 2 12) [120; 121; 122]
  = Ok [10; 53; 200; 1; 2; 12; 120; 121; 122]
  /\ dec_apci [10; 53; 200; 1; 2; 12; 120; 121; 122]
     = Ok (confirmed_request_attrs true false true 3 5 200 1 2 12, [120; 121; 122]).
Proof. split; vm_compute; reflexivity. Qed.
Example C07_decode_examples :
  dec_apci [] = Err DecodingError /\ dec_apci [128] = Err DecodingError /\
  dec_apci [32; 1] = Err DecodingError /\
  dec_apci [32; 1; 2; 3] = Ok (simple_ack_attrs 1 2, [3]).
Proof. repeat split; vm_compute; reflexivity. Qed.
Example C07_history_example :       (* reject decoded, scribbled on, another reject decoded: clean *)
  canon_session [OpDecode 0 [96; 7; 4]%N; OpPut 0 [222; 173]%N; OpDecode 1 [96; 7; 4]%N; OpReencode 1; OpReencode 0]
  = (framed (canon_dec (dec_apci [96; 7; 4]%N)) ++ framed (canon_dec (dec_apci [96; 7; 4]%N))
     ++ framed [0; 96; 7; 4] ++ framed [0; 96; 7; 4; 222; 173])%Z.
Proof. vm_compute. reflexivity. Qed.
Example C07_translated_examples :     (* the translated methods compute: header + payload into an empty PDU and back *)
  py_APDU_encode (confirmed_request_attrs true false true 3 5 200 1 2 12) [120; 121; 122] apci_none []
  = Ok ((confirmed_request_attrs true false true 3 5 200 1 2 12, [120; 121; 122]),
        (apci_none, [10; 53; 200; 1; 2; 12; 120; 121; 122]))
  /\ py_APDU_decode apci_none [9] apci_none [10; 53; 200; 1; 2; 12; 120; 121; 122]
     = Ok ((confirmed_request_attrs true false true 3 5 200 1 2 12, [120; 121; 122]), (apci_none, []))
  /\ py__APDU_decode (reject_attrs 1 2) [7; 7; 7] (simple_ack_attrs 1 2) [3]
     = Ok ((simple_ack_attrs 1 2, [3]), (simple_ack_attrs 1 2, []))
  /\ py_APDU_decode apci_none [] apci_none [128] = Err DecodingError.
Proof. repeat split; vm_compute; reflexivity. Qed.
Example C07_largest_apdu_example :    (* 1476 and 5000 octets: nothing refused, payload untouched *)
  canon_enc_big 1474 3 (enc_apdu (unconfirmed_request_attrs 8) (pat 1474 3)) = [0; 16; 8; 1476; 1]%Z
  /\ canon_dec_big 5000 9 (dec_apci ([80; 1; 2] ++ pat 5000 9))
     = (0 :: canon_apci (error_attrs 1 2) ++ [5000; 1])%Z.
Proof.
  (* by the lemmas for every length: the 1474 and 5000 octets are never written out *)
  split; [exact (enc_big_payload (UnconfirmedRequest 8) 1474 3 eq_refl)|exact (dec_big_payload (ErrorHdr 1 2) 5000 9 eq_refl)].
Qed.
Example C07_relay_example :           (* decode out of PDU 1, encode back into PDU 1: the frame again *)
  canon_session [OpNew 1; OpPut 1 [96; 7; 4; 33]%N; OpDecodeFrom 0 1; OpPeek 1; OpEncodeTo 0 1; OpPeek 1]
  = (framed (canon_dec (dec_apci [96; 7; 4; 33]%N)) ++ framed [] ++ framed [0] ++ framed [96; 7; 4; 33])%Z.
Proof. vm_compute. reflexivity. Qed.
Example C07_table_examples :
  (encode_max_segments_accepted 3 = Ok 1 /\ encode_max_segments_accepted 65 = Ok 7 /\
   encode_max_apdu_length_accepted 1475 = Ok 4 /\ encode_max_apdu_length_accepted 49 = Err ValueErr)%Z.
Proof. repeat split; vm_compute; reflexivity. Qed.
