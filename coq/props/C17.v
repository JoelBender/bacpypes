(* C17 — a commandable value equals its highest-priority command or the default.
   Property theorems only; the model is Bac.Prio, the lemmas behind them are in Bac.PrioFacts / Bac.PrioHold.
   The model is of the tree with the two `fix:` commits named in docs/C17.md. *)
From Bac Require Import Base Prio PrioFacts PrioHold.
Open Scope Z_scope.

(* After ANY list of operations (commands at any priority, valid or not, with or without
   priority; clock advances) the present value is the winner of the priority array — as soon as
   it was so before, or as soon as one command with a priority in 1..16 has been accepted,
   whatever the initial present value was. *)
Theorem C17_pv_is_winner :
  (forall o es, consistent o -> consistent (run o es)) /\
  (forall o p v es, 1 <= prio_index p <= 16 -> consistent (run o (Cmd p v :: es))).
Proof. split; [intros; apply run_consistent; assumption | exact run_consistent_after_command]. Qed.
Print Assumptions C17_pv_is_winner.

(* ... and "winner" means: the value in the lowest-numbered non-null slot, or the relinquish
   default when every slot is null. *)
Theorem C17_winner_is_lowest_nonnull : forall sl d,
  (exists k, nth_error sl k = Some (Some (winner sl d)) /\ forall j, (j < k)%nat -> nth_error sl j = Some None)
  \/ (winner sl d = d /\ forall j, (j < length sl)%nat -> nth_error sl j = Some None).
Proof.
  intros sl d. unfold winner. pose proof (first_some_spec sl) as H.
  destruct (first_some sl) as [v|]; [left | right; split; [reflexivity|]]; exact H.
Qed.
Print Assumptions C17_winner_is_lowest_nonnull.

(* Every slot holds exactly the last value commanded at that priority (a relinquish commands
   null; a write without priority counts for 16; refused commands count for nothing).  Slot 6 is
   included whenever no minimum on/off hold is at work (`quiet`), and excluded otherwise — it
   then belongs to the hold mechanism, see C17_min_on_off. *)
Theorem C17_slot_last_commanded : forall es o j,
  length (slots o) = 16%nat -> (j < 16)%nat -> (j <> 5%nat \/ quiet o) ->
  nth_error (slots (run o es)) j = Some (last_cmd (Z.of_nat j + 1) es (nth j (slots o) None)).
Proof. exact slot_last_commanded. Qed.
Print Assumptions C17_slot_last_commanded.

(* A priority outside 1..16 (slot 0 included) is refused and nothing changes. *)
Theorem C17_refused_unchanged : forall o p v,
  ~ (1 <= prio_index p <= 16) ->
  command o p v = (o, if prio_index p =? 0 then WDenied else WBadIndex).
Proof. intros o p v H. rewrite command_spec. apply write_spec_invalid. exact H. Qed.
Print Assumptions C17_refused_unchanged.

Theorem C17_no_priority_is_16 : forall o v, command o None v = command o (Some 16) v.
Proof. intros o v. unfold command. reflexivity. Qed.
Print Assumptions C17_no_priority_is_16.

(* Minimum on/off time, as stated (the swapped times of the pinned tree are repaired by a fix:
   commit): a command that moves the present value to `active` (`inactive`) while minimumOnTime
   (minimumOffTime) is non-zero writes that state into slot 6 and schedules its release exactly
   that many seconds later. *)
Theorem C17_min_on_off : forall o p v o' r,
  monitored o = true -> length (slots o) = 16%nat ->
  command o p v = (o', r) -> pv o' <> pv o ->
  (pv o' = ACTIVE -> min_on o > 0 ->
     r = WOk /\ slot6 o' = Some (Some ACTIVE) /\ timer o' = Some (now o + min_on o)) /\
  (pv o' = INACTIVE -> min_off o > 0 ->
     r = WOk /\ slot6 o' = Some (Some INACTIVE) /\ timer o' = Some (now o + min_off o)).
Proof. exact min_on_off_hold. Qed.
Print Assumptions C17_min_on_off.

(* Until the deadline only the clock moves (the slot stays held) ... *)
Theorem C17_min_on_off_keep : forall o d dt,
  timer o = Some d -> now o + dt < d -> tick o dt = (with_now o (now o + dt), WOk).
Proof.
  intros o d dt Ht Hlt. rewrite tick_spec. cbv zeta. rewrite Ht.
  replace (d <=? now o + dt) with false by lia. reflexivity.
Qed.
Print Assumptions C17_min_on_off_keep.

(* ... and at the deadline slot 6 is released: the present value becomes the winner of the array
   without slot 6, and if that is the value it already had, releasing is all that happens. *)
Theorem C17_min_on_off_release : forall o d dt o' r,
  timer o = Some d -> d <= now o + dt -> length (slots o) = 16%nat ->
  tick o dt = (o', r) ->
  let rel := set_nth 5 None (slots o) in
  pv o' = winner rel (dflt o) /\
  (pv o' = pv o -> slots o' = rel /\ timer o' = None /\ r = WOk).
Proof. exact min_on_off_release. Qed.
Print Assumptions C17_min_on_off_release.

(* The hold, over whole histories.  `hold_after o g es` (Prio.v) is the hold as the statement
   describes it, computed only from the present value before/after each operation and the clock:
   a change of the present value to active (inactive) with minimumOnTime (minimumOffTime) T > 0 at
   instant t starts a hold of that state until exactly t + T, replacing a hold still running;
   nothing else touches a running hold — not a command at any other priority, not a relinquish,
   not a change to a state whose minimum time is 0 —; it is gone once the clock has reached its
   deadline.  After ANY history that leaves priority 6 to the mechanism (commands at every other
   priority, valid or refused, relinquishes, clock advances of any size), slot 6 holds exactly the
   state of that hold (null when there is none), the release is scheduled exactly at its deadline
   (nothing is scheduled when there is none), and the deadline is still ahead.  The two times are taken >= 0
   because the model tests them for <> 0 where hold_step tests for > 0 (PrioHold.minonoff_ok). *)
Theorem C17_hold_exact : forall es o g,
  monitored o = true -> length (slots o) = 16%nat -> 0 <= min_on o -> 0 <= min_off o ->
  no_user6 es = true -> hold_inv o g ->
  hold_inv (run o es) (hold_after o g es).
Proof. intros es o g Hm Hlen Hon Hoff. exact (hold_exact es o g (conj Hm (conj Hlen (conj Hon Hoff)))). Qed.
Print Assumptions C17_hold_exact.

(* what hold_inv says, and that every constructed object starts without a hold; with
   C17_pv_is_winner: at every instant the present value is the winner of the commanded slots alone
   unless a hold is running, and then slot 6 is that hold's state *)
Theorem C17_hold_meaning :
  (forall o, hold_inv o None -> slot6 o = Some None /\ timer o = None) /\
  (forall o v u, hold_inv o (Some (v, u)) -> slot6 o = Some (Some v) /\ timer o = Some u /\ now o < u) /\
  (forall d p m on off nw, hold_inv (mkObj no_slots d p m on off None nw) None).
Proof. exact (conj hold_inv_none (conj hold_inv_some hold_inv_fresh)). Qed.
Print Assumptions C17_hold_meaning.

(* one step of the hold: it starts exactly at a change to a state with a minimum time > 0 and
   lasts exactly that time; otherwise it is what it was, until the clock reaches its deadline *)
Theorem C17_hold_step : forall on off g p w nw,
  (w <> p -> 0 < min_time on off w -> hold_step on off g p w nw = Some (w, nw + min_time on off w)) /\
  (min_time on off w = 0 -> hold_step on off g p w nw = expire g nw) /\
  (live g nw -> hold_step on off g p p nw = g) /\
  (forall v u, u <= nw -> expire (Some (v, u)) nw = None) /\ (live g nw -> expire g nw = g).
Proof.
  intros on off g p w nw.
  exact (conj (hold_step_new on off g p w nw) (conj (hold_step_free on off g p w nw)
    (conj (hold_step_same on off g p nw) (conj (fun v u => expire_dead v u nw) (expire_live g nw))))).
Qed.
Print Assumptions C17_hold_step.

(* The recursion bound of the model (the monitor re-enters WriteProperty once) is never hit. *)
Theorem C17_fuel_enough : forall o e, snd (step o e) <> WExc OutOfFuel.
Proof.
  intros o [p v|dt]; cbn [step].
  - rewrite command_spec. apply write_spec_no_fuel.
  - rewrite tick_spec. cbv zeta. destruct (timer o) as [d|]; [|discriminate].
    destruct (d <=? now o + dt); [apply write_spec_no_fuel | discriminate].
Qed.
Print Assumptions C17_fuel_enough.

Definition av0 : obj := mkObj no_slots 0 0 false 0 0 None 0.          (* a fresh analog value *)
Definition bv0 : obj := mkObj no_slots 0 0 true 5 9 None 0.           (* binary value, on 5 s, off 9 s *)

Example C17_fresh_objects_meet_hypotheses :
  consistent av0 /\ length (slots av0) = 16%nat /\ quiet av0 /\
  consistent bv0 /\ length (slots bv0) = 16%nat /\ monitored bv0 = true.
Proof. unfold consistent, quiet. cbn. repeat split; auto. Qed.

(* priority 8 then 3, relinquish 3, relinquish 8: 2, 3, 2, default *)
Example C17_scenario_plain :
  map (fun es => pv (run av0 es))
      [[Cmd (Some 8) (Some 2)]; [Cmd (Some 8) (Some 2); Cmd (Some 3) (Some 3)];
       [Cmd (Some 8) (Some 2); Cmd (Some 3) (Some 3); Cmd (Some 3) None];
       [Cmd (Some 8) (Some 2); Cmd (Some 3) (Some 3); Cmd (Some 3) None; Cmd (Some 8) None]]
  = [2; 3; 2; 0].
Proof. vm_compute. reflexivity. Qed.

(* active at priority 8 at t=0 is held in slot 6 until t=5 (on time), not 9 *)
Example C17_scenario_min_on :
  let o1 := run bv0 [Cmd (Some 8) (Some ACTIVE)] in
  let o2 := run o1 [Tick 4] in
  let o3 := run o2 [Tick 1] in
  (slot6 o1, timer o1, slot6 o2, slot6 o3, timer o3, pv o3)
  = (Some (Some ACTIVE), Some 5, Some (Some ACTIVE), Some None, None, ACTIVE).
Proof. vm_compute. reflexivity. Qed.

(* the hypotheses of C17_min_on_off are met by that command *)
Example C17_min_on_off_applies :
  exists o' r, command bv0 (Some 8) (Some ACTIVE) = (o', r) /\ pv o' <> pv bv0 /\ pv o' = ACTIVE /\ min_on bv0 > 0.
Proof. eexists. eexists. split; [vm_compute; reflexivity|]. cbn. repeat split; try lia. Qed.

Example C17_refused_example :
  command av0 (Some 0) (Some 1) = (av0, WDenied) /\ command av0 (Some 17) (Some 1) = (av0, WBadIndex)
  /\ command av0 (Some (-1)) None = (av0, WBadIndex).
Proof. vm_compute. repeat split. Qed.

(* a hold that is overridden: on 5 s, no minimum off time.  active at priority 8 at t=0 (hold
   until 5), inactive at priority 3 at t=2 (no minimum time: the running hold stays), priority 8
   relinquished at t=3; at t=5 slot 6 is released although the state changed in between *)
Definition bv50 : obj := mkObj no_slots 0 0 true 5 0 None 0.
Definition overridden : list op :=
  [Cmd (Some 8) (Some ACTIVE); Tick 2; Cmd (Some 3) (Some INACTIVE); Tick 1; Cmd (Some 8) None; Tick 1].
Example C17_hold_overridden :
  no_user6 (overridden ++ [Tick 1]) = true /\ hold_inv bv50 None /\
  hold_after bv50 None overridden = Some (ACTIVE, 5) /\
  (let o := run bv50 overridden in (pv o, slot6 o, timer o, now o)) = (INACTIVE, Some (Some ACTIVE), Some 5, 4) /\
  hold_after bv50 None (overridden ++ [Tick 1]) = None /\
  (let o := run bv50 (overridden ++ [Tick 1]) in (pv o, slot6 o, timer o, now o)) = (INACTIVE, Some None, None, 5).
Proof. unfold hold_inv, slot6. vm_compute. repeat split; auto. Qed.

(* both times non-zero (on 2, off 3): a flip during the hold starts the new state's own hold *)
Example C17_hold_restarted :
  let o0 := mkObj no_slots 0 0 true 2 3 None 0 in
  let es := [Cmd (Some 8) (Some ACTIVE); Tick 1; Cmd (Some 3) (Some INACTIVE)] in
  hold_after o0 None es = Some (INACTIVE, 4) /\ timer (run o0 es) = Some 4 /\
  slot6 (run o0 (es ++ [Tick 2])) = Some (Some INACTIVE) /\ slot6 (run o0 (es ++ [Tick 3])) = Some None.
Proof. vm_compute. repeat split. Qed.
