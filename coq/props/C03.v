(* C03 — every service PDU and constructed type round-trips.
   The lemmas behind the theorems are in Bac.CodecFacts / CodecWf / CodecTotal (generic codec),
   Bac.ArrayObjFacts (the ArrayOf object) and Bac.SchemaTables (obligations about the tables translated from
   apdu.py / basetypes.py into BacGen.Schemas). *)
From Coq Require Import String.
From Bac Require Import Base.
From Bac Require Import Tag.
From Bac Require Import TagFacts.
From Bac Require Import Schema.
From Bac Require Import Codec.
From Bac Require Import CodecFacts.
From Bac Require Import CodecWf.
From Bac Require Import CodecTotal.
From Bac Require Import SchemaTables.
From Bac Require Import ArrayObj.
From Bac Require Import ArrayObjFacts.
From BacGen Require Import Schemas.
Open Scope N_scope.

(* Round trip of the schema-driven codec, for EVERY schema in the supported fragment that passes the
   determinism check, every value of it (any presence pattern, alternative, list length, nesting
   depth), in front of any continuation the enclosing construct may put there.
   `supported` contains optional lists, un-contexted optional constructs decoded by
   try / roll-back, NameValue, ArrayOf and choices that have an undecodable alternative; ALL 227 translated
   definitions are supported (C03_supported_or_listed).
   _partial only because has_ty (a value may choose an alternative only if Choice.decode can reach and
   select it: sup_alt for it and for every alternative before it) excludes the values of finding C03-K1,
   for which the statement is false (C03_unctx_alternative_refuted). *)
Theorem C03_roundtrip_partial : forall t, supported t = true -> wf_ty t = true ->
  forall v ts rest, has_ty t v -> encode t v = Ok ts -> rest_ok (avoid t) rest ->
  decode t (ts ++ rest) = Ok (v, rest).
Proof. exact roundtrip. Qed.
Print Assumptions C03_roundtrip_partial.

(* through APCISequence and the tag codec (C02) down to octets, and back to identical octets.
   val_wf v: the leaf tags and the tags inside Any values are well-formed tags (octets < 256, length
   field = number of data octets); the well-formedness of everything the encoder adds (context
   re-tagging, opening / closing tags) is derived (CodecWf.encode_tags_wf). *)
Theorem C03_pdu_roundtrip : forall els,
  supported (TSeq els) = true -> wf_ty (TSeq els) = true ->
  forall v, has_ty (TSeq els) v -> val_wf v ->
  exists bs, encode_pdu (TSeq els) v = Ok bs /\ decode_pdu (TSeq els) bs = Ok v /\
             forall v', decode_pdu (TSeq els) bs = Ok v' -> encode_pdu (TSeq els) v' = Ok bs.
Proof. exact pdu_roundtrip_total. Qed.
Print Assumptions C03_pdu_roundtrip.

Theorem C03_encode_tags_wf : forall t, wf_ty t = true -> forall v ts,
  has_ty t v -> val_wf v -> encode t v = Ok ts -> forallb wf_tag ts = true.
Proof. exact encode_tags_wf. Qed.
Print Assumptions C03_encode_tags_wf.

Theorem C03_reencode_identical : forall t, supported t = true -> wf_ty t = true ->
  forall v ts rest v' rest', has_ty t v -> encode t v = Ok ts -> rest_ok (avoid t) rest ->
  decode t (ts ++ rest) = Ok (v', rest') -> rest' = rest /\ encode t v' = Ok ts.
Proof.
  intros t Hs Hw v ts rest v' rest' Hv He Hr Hd.
  rewrite (roundtrip t Hs Hw v ts rest Hv He Hr) in Hd. injection Hd as <- <-. auto.
Qed.
Print Assumptions C03_reencode_identical.

(* APCISequence.decode: a tag left over after a complete PDU is TooManyArguments *)
Theorem C03_trailing_refused : forall els, supported (TSeq els) = true -> wf_ty (TSeq els) = true ->
  forall v ts x bs, has_ty (TSeq els) v -> encode (TSeq els) v = Ok ts ->
  rest_ok (avoid (TSeq els)) [x] -> dec_tags bs = Ok (ts ++ [x]) ->
  decode_pdu (TSeq els) bs = Err TooManyArguments.
Proof.
  intros els Hs Hw v ts x bs Hv He. apply (pdu_trailing_tags_refused els Hs Hw v ts [x] bs Hv He). discriminate.
Qed.
Print Assumptions C03_trailing_refused.

(* the encoder never refuses a well-typed value (any schema) *)
Theorem C03_encode_total : forall t v, has_ty t v -> exists ts, encode t v = Ok ts.
Proof. exact encode_total. Qed.
Print Assumptions C03_encode_total.

(* the decoder on ARBITRARY (hostile) tag lists, for every wf_ty schema: it returns a value and a suffix of
   its input, or fails with one of the listed exception classes (dec_err: DecodingError, InvalidTag,
   MissingRequired, InvalidParameterDatatype, ValueErr, IndexErr, AttrErr, StructErr, UnicodeErr,
   RuntimeErr, OtherErr) — in particular the list loops never run out of fuel: the Python loops terminate *)
Theorem C03_decode_total : forall t, wf_ty t = true -> forall ts,
  (exists v ts', decode t ts = Ok (v, ts') /\ exists pre, ts = pre ++ ts')
  \/ (exists e, decode t ts = Err e /\ dec_err e = true).
Proof. exact decode_total. Qed.
Print Assumptions C03_decode_total.

Theorem C03_fuel_enough : forall t, wf_ty t = true -> forall ts, decode t ts <> Err OutOfFuel.
Proof.
  intros t Hwf ts. destruct (C03_decode_total t Hwf ts) as [(v & ts' & -> & _)|(e & -> & He)]; [discriminate|].
  intros [= ->]. discriminate.
Qed.
Print Assumptions C03_fuel_enough.

(* arbitrary octets through APCISequence.decode: a value, a listed class (InvalidTag for bad framing), or
   TooManyArguments *)
Theorem C03_decode_pdu_total : forall els, wf_ty (TSeq els) = true -> forall bs,
  (exists v, decode_pdu (TSeq els) bs = Ok v)
  \/ (exists e, decode_pdu (TSeq els) bs = Err e /\ (dec_err e = true \/ e = TooManyArguments)).
Proof. exact decode_pdu_total. Qed.
Print Assumptions C03_decode_pdu_total.

(* Any.cast_out(type) on what the encoder produced gives the value back.  cast_out and decode are functions of
   the tag list in the model — they cannot disturb it; what ties this to the implementation is the correspondence
   history "cast_out twice, then read Any.tagList", compared with (result, result, the unchanged input). *)
Theorem C03_cast_out_roundtrip : forall t, supported t = true -> wf_ty t = true ->
  forall v ts, has_ty t v -> encode t v = Ok ts -> cast_out t ts = Ok v.
Proof. exact cast_out_roundtrip. Qed.
Print Assumptions C03_cast_out_roundtrip.

(* table obligations (re-checked by make against the tables translated on this run) *)
Theorem C03_all_wf : forallb wf_ty all_types = true.
Proof. exact SchemaTables.C03_all_wf. Qed.
Print Assumptions C03_all_wf.

Theorem C03_supported_or_listed : forall n t, In (n, t) all_named -> supported t = true.
Proof. exact all_named_supported. Qed.
Print Assumptions C03_supported_or_listed.

(* hence: every registered PDU and every base type round-trips (values as delimited by has_ty) *)
Theorem C03_tables_roundtrip : forall n t, In (n, t) all_named ->
  forall v ts rest, has_ty t v -> encode t v = Ok ts -> rest_ok (avoid t) rest ->
  decode t (ts ++ rest) = Ok (v, rest).
Proof.
  intros n t Hin. apply roundtrip; [exact (all_named_supported n t Hin)|].
  exact (proj1 (forallb_forall wf_ty all_types) SchemaTables.C03_all_wf _ (in_map snd all_named (n, t) Hin)).
Qed.
Print Assumptions C03_tables_roundtrip.

(* fixed defect C03-F3: a required, un-contexted, empty list in front of a closing tag *)
Theorem C03_empty_list_before_closing : forall s c x r, cls x = 3 ->
  dec_el decode (El (TSeqOf s) c false) (x :: r) = Ok (Some (VList []), x :: r)
  /\ dec_el decode (El (TSeqOf s) c false) [] = Ok (Some (VList []), []).
Proof. intros s c x r Hx. cbn [dec_el]. rewrite Hx. split; reflexivity. Qed.
Print Assumptions C03_empty_list_before_closing.

(* known finding C03-K1: whatever the tag, Choice.decode raises NotImplementedError once it reaches a
   constructed alternative without context tag ... *)
Theorem C03_unctx_alternative_refused : forall pre t o post x rest,
  forallb (fun e => match e with El (TAtom k) _ _ => k <=? 12 | _ => false end) pre = true ->
  is_atomic t = false ->
  pmatch_any (flat_map first_el pre) x = false ->
  dec_alts decode (pre ++ El t None o :: post) 0 x rest = Err RuntimeErr.
Proof. exact unctx_alternative_refused. Qed.
Print Assumptions C03_unctx_alternative_refused.

(* ... so the full statement is false of the pinned tables: this value of
   NotificationParametersExtendedParametersType is encoded and cannot be decoded *)
Definition k1_value : val :=
  VChoice 8 (VSeq [Some (VAtom (mkTag 0 12 4 [2;0;0;1])); Some (VAtom (mkTag 0 12 4 [0;0;0;5]));
                   Some (VAtom (mkTag 0 9 1 [85])); None; Some (VTags [mkTag 0 4 4 [66;144;0;0]])]).
Theorem C03_unctx_alternative_refuted :
  exists ts, encode T_NotificationParametersExtendedParametersType k1_value = Ok ts /\
             decode T_NotificationParametersExtendedParametersType ts = Err RuntimeErr.
Proof. eexists. split; vm_compute; reflexivity. Qed.
Print Assumptions C03_unctx_alternative_refuted.

(* worked examples in the style of Annex F (clause 20 hand encodings; the standard's text is not
   available offline — the harness checks the same octets against the implementation and against an
   independent hand encoder).  _partial: these vectors, not all of Annex F. *)
Definition ex_readproperty : val :=      (* ReadProperty(analog-input 5, present-value) *)
  VSeq [Some (VAtom (mkTag 0 12 4 [0;0;0;5])); Some (VAtom (mkTag 0 9 1 [85])); None].
Definition ex_readproperty_ack : val :=  (* ... = REAL 72.3 *)
  VSeq [Some (VAtom (mkTag 0 12 4 [0;0;0;5])); Some (VAtom (mkTag 0 9 1 [85])); None;
        Some (VTags [mkTag 0 4 4 [66;144;153;154]])].
Definition ex_writeproperty : val :=     (* WriteProperty(analog-value 1, present-value, REAL 180.0) *)
  VSeq [Some (VAtom (mkTag 0 12 4 [0;128;0;1])); Some (VAtom (mkTag 0 9 1 [85])); None;
        Some (VTags [mkTag 0 4 4 [67;52;0;0]]); None].
Definition ex_whois : val :=             (* Who-Is 3..3 *)
  VSeq [Some (VAtom (mkTag 0 2 1 [3])); Some (VAtom (mkTag 0 2 1 [3]))].
Definition ex_iam : val :=               (* I-Am device 3, max-APDU 1024, segmentation none (3), vendor 99 *)
  VSeq [Some (VAtom (mkTag 0 12 4 [2;0;0;3])); Some (VAtom (mkTag 0 2 2 [4;0]));
        Some (VAtom (mkTag 0 9 1 [3])); Some (VAtom (mkTag 0 2 1 [99]))].
Definition ex_subscribecov : val :=      (* SubscribeCOV(process 18, analog-input 10, confirmed, lifetime 0) *)
  VSeq [Some (VAtom (mkTag 0 2 1 [18])); Some (VAtom (mkTag 0 12 4 [0;0;0;10]));
        Some (VAtom (mkTag 0 1 1 [])); Some (VAtom (mkTag 0 2 1 [0]))].
Definition ex_atomicreadfile_ack0 : val := (* AtomicReadFile-ACK, record access, start 0, zero records *)
  VSeq [Some (VAtom (mkTag 0 1 1 []));
        Some (VChoice 1 (VSeq [Some (VAtom (mkTag 0 3 1 [0])); Some (VAtom (mkTag 0 2 1 [0])); Some (VList [])]))].

Definition vector_ok (t : ty) (v : val) (bs : list N) : bool :=
  match encode_pdu t v, decode_pdu t bs with
  | Ok e, Ok d => list_eqb N.eqb e bs && list_eqb Z.eqb (canon_val d) (canon_val v)
                  && match encode_pdu t d with Ok e' => list_eqb N.eqb e' bs | _ => false end
  | _, _ => false
  end.
Theorem C03_annexF_partial :
  vector_ok T_ReadPropertyRequest ex_readproperty [12;0;0;0;5;25;85] = true /\
  vector_ok T_ReadPropertyACK ex_readproperty_ack [12;0;0;0;5;25;85;62;68;66;144;153;154;63] = true /\
  vector_ok T_WritePropertyRequest ex_writeproperty [12;0;128;0;1;25;85;62;68;67;52;0;0;63] = true /\
  vector_ok T_WhoIsRequest ex_whois [9;3;25;3] = true /\
  vector_ok T_IAmRequest ex_iam [196;2;0;0;3;34;4;0;145;3;33;99] = true /\
  vector_ok T_SubscribeCOVRequest ex_subscribecov [9;18;28;0;0;0;10;41;1;57;0] = true /\
  vector_ok T_AtomicReadFileACK ex_atomicreadfile_ack0 [17;30;49;0;33;0;31] = true.
Proof. vm_compute. repeat split. Qed.
Print Assumptions C03_annexF_partial.

(* the hypotheses of the round trip are met by concrete values of real tables *)
Example C03_supported_examples :
  forallb (fun t => supported t && wf_ty t)
    [T_ReadPropertyRequest; T_ReadPropertyACK; T_WritePropertyMultipleRequest; T_AtomicReadFileACK;
     T_EventParameter; T_LogData; T_PropertyStates; T_ReadAccessResult] = true.
Proof. vm_compute. reflexivity. Qed.

Example C03_has_ty_readproperty : has_ty T_ReadPropertyRequest ex_readproperty.
Proof. cbn. repeat split; try (vm_compute; reflexivity); try lia. Qed.

Example C03_has_ty_atomicreadfile_ack0 : has_ty T_AtomicReadFileACK ex_atomicreadfile_ack0.
Proof. cbn. repeat split; try (vm_compute; reflexivity); try lia; constructor. Qed.

Example C03_val_wf_readproperty : val_wf ex_readproperty /\ val_wf ex_atomicreadfile_ack0.
Proof. cbn. repeat split; vm_compute; reflexivity. Qed.

Example C03_rest_ok_example : rest_ok (avoid T_ReadPropertyRequest) [mkTag 0 2 1 [7]] /\
                              rest_ok (avoid T_ReadAccessResult) [close_tag 3].
Proof. split; cbn; auto. Qed.

Example C03_instance :   (* the theorem applied: ReadProperty followed by an application tag *)
  decode T_ReadPropertyRequest
    ([mkTag 1 0 4 [0;0;0;5]; mkTag 1 1 1 [85]] ++ [mkTag 0 2 1 [7]]) = Ok (ex_readproperty, [mkTag 0 2 1 [7]]).
Proof.
  apply C03_roundtrip_partial; try (vm_compute; reflexivity).
  - exact C03_has_ty_readproperty.
  - exact (proj1 C03_rest_ok_example).
Qed.

(* definitions that need an optional list, try / roll-back, NameValue or an undecodable alternative *)
Example C03_supported_round2 :
  forallb (fun t => supported t && wf_ty t)
    [T_WhoHasRequest; T_ReadRangeRequest; T_CreateObjectRequest; T_VTCloseError; T_NameValue;
     T_NameValueCollection; T_NotificationParameters; T_ConfirmedEventNotificationRequest;
     T_UnconfirmedEventNotificationRequest; T_EventNotificationParameters] = true.
Proof. vm_compute. reflexivity. Qed.

Definition ex_whohas : val :=   (* Who-Has, no limits (the un-contexted optional WhoHasLimits is absent), object name "x" *)
  VSeq [None; Some (VChoice 1 (VAtom (mkTag 0 7 2 [0;120])))].
Example C03_has_ty_whohas : has_ty T_WhoHasRequest ex_whohas.
Proof. cbn. repeat split; try (vm_compute; reflexivity); try lia. Qed.
Example C03_instance_rollback :   (* the try / roll-back path, through the theorem *)
  decode T_WhoHasRequest ([mkTag 1 3 2 [0;120]] ++ []) = Ok (ex_whohas, []).
Proof.
  apply C03_roundtrip_partial; try (vm_compute; reflexivity); try exact I.
  exact C03_has_ty_whohas.
Qed.

Definition ex_namevalue : val :=  (* NameValue "x" with a DateTime value *)
  VSeq [Some (VAtom (mkTag 0 7 2 [0;120]));
        Some (VSeq [Some (VAtom (mkTag 0 10 4 [92;11;17;2])); Some (VAtom (mkTag 0 11 4 [22;45;30;70]))])].
Example C03_has_ty_namevalue : has_ty T_NameValue ex_namevalue.
Proof. cbn. repeat split; try (vm_compute; reflexivity); try lia. Qed.

Example C03_hostile_input :   (* totality on garbage: a lone closing tag, an unmatched opening tag *)
  decode T_ReadPropertyMultipleACK [mkTag 3 1 0 []] = Ok (VSeq [Some (VList [])], [mkTag 3 1 0 []]) /\
  decode T_ReadAccessResult [mkTag 1 0 4 [0;0;0;1]; mkTag 2 1 0 []; mkTag 2 9 0 []] = Err InvalidTag.
Proof. split; vm_compute; reflexivity. Qed.

Definition canon_val_len (r : res val) : option nat :=
  match r with Ok (VList vs) => Some (length vs) | _ => None end.

(* a list keeps every one of its entries, equal ones included (multiplicity is part of the round trip):
   three equal Unsigned, and Real 0.0 / -0.0 / 0.0 *)
Example C03_list_keeps_duplicates :
  cast_out (TSeqOf (TAtom 2)) [mkTag 0 2 1 [7]; mkTag 0 2 1 [7]; mkTag 0 2 1 [7]]
    = Ok (VList [VAtom (mkTag 0 2 1 [7]); VAtom (mkTag 0 2 1 [7]); VAtom (mkTag 0 2 1 [7])]) /\
  canon_val_len (cast_out (TSeqOf (TAtom 4))
    [mkTag 0 4 4 [0;0;0;0]; mkTag 0 4 4 [128;0;0;0]; mkTag 0 4 4 [0;0;0;0]]) = Some 3%nat.
Proof. split; vm_compute; reflexivity. Qed.


(* the ArrayOf OBJECT, self.value = [count, e1, ..., en]: the representation invariant arr_ok (cell 0 = the
   number of element cells, every other cell an element) is established by the constructor — and a constructor
   given a list holds exactly that list — ... *)
Theorem C03_array_new_invariant : forall fixed dflt init a, arr_new fixed dflt init = Ok a ->
  arr_ok a /\ (forall n, fixed = Some n -> count_of a = Ok n) /\ (forall vs, init = Some vs -> a = arr_of vs).
Proof. exact arr_new_ok. Qed.
Print Assumptions C03_array_new_invariant.

(* ... and kept by every accepted call of append / __setitem__(0, n) (fix_length) / __setitem__(i, v) /
   __delitem__ / decode, for every subtype, fixed or free length, any arguments (a refused call leaves the
   object alone: arr_run), so after ANY history the count equals the number of elements the iterator, the
   encoder and Any.cast_out see *)
Theorem C03_array_invariant : forall s fixed dflt ops a, arr_ok a ->
  let a' := snd (arr_run s fixed dflt ops a) in
  arr_ok a' /\ exists vs, arr_items a' = Ok vs /\ count_of a' = Ok (lenN vs) /\ a' = arr_of vs.
Proof. intros s fixed dflt ops a H. pose proof (arr_run_ok s fixed dflt ops a H) as K. split; [exact K|exact (arr_ok_items _ K)]. Qed.
Print Assumptions C03_array_invariant.

Theorem C03_array_fixed_length : forall s n dflt op a a', arr_ok a -> count_of a = Ok n ->
  arr_step s (Some n) dflt op a = Ok a' -> count_of a' = Ok n.
Proof.
  intros s n dflt op a a' [vs ->] Hc H. injection Hc as Hc. destruct (arr_step_of _ _ _ _ _ _ H) as (ws & -> & L).
  rewrite count_of_of. f_equal. exact (L n eq_refl Hc).
Qed.
Print Assumptions C03_array_fixed_length.

(* Any.cast_out(ArrayOf class), written on the object (decode into a helper, answer helper.value[1:]), IS
   Codec.cast_out at TArrayOf, for ARBITRARY tags: the answer is the element list, the count cell never leaks *)
Theorem C03_array_cast_out_is_elements : forall s fixed ts,
  cast_out (TArrayOf s fixed) ts = do vs <- arr_cast_out s fixed ts; Ok (VList vs).
Proof. exact arr_cast_out_tie. Qed.
Print Assumptions C03_array_cast_out_is_elements.

(* whole-array round trip on the object: the decoded object is the encoded one, count cell included, and
   Any.cast_in / cast_out gives back exactly the elements (any length, 0 included) *)
Theorem C03_array_object_roundtrip : forall s fixed vs ts rest,
  supported (TArrayOf s fixed) = true -> wf_ty (TArrayOf s fixed) = true ->
  has_ty (TArrayOf s fixed) (VList vs) -> arr_encode s (arr_of vs) = Ok ts -> rest_ok [PAny] rest ->
  arr_decode s fixed (ts ++ rest) = Ok (arr_of vs, rest) /\ arr_cast_out s fixed ts = Ok vs.
Proof. exact arr_obj_roundtrip. Qed.
Print Assumptions C03_array_object_roundtrip.

(* item access (ReadProperty / WriteProperty with propertyArrayIndex): index 0 travels as the count, an
   Unsigned (bound: the count fits 32 bits, Unsigned.encode packs '>L'), and reads back as the count ... *)
Theorem C03_array_item_roundtrip_count : forall s dflt vs, lenN vs < 4294967296 ->
  exists t, arr_encode_item s 0 (arr_of vs) = Ok [t] /\
            forall rest, arr_decode_item s dflt 0 ([t] ++ rest) = Ok (CCount (lenN vs), rest).
Proof. exact arr_item_roundtrip_count. Qed.
Print Assumptions C03_array_item_roundtrip_count.

(* ... index i >= 1 travels as the encoding of the i-th element and reads back as that element *)
Theorem C03_array_item_roundtrip_elem : forall s dflt vs i v ts rest,
  supported s = true -> wf_ty s = true -> has_ty s v ->
  1 <= i -> nth_error vs (N.to_nat i - 1) = Some v ->
  arr_encode_item s i (arr_of vs) = Ok ts -> rest_ok (avoid s) rest ->
  encode s v = Ok ts /\ arr_decode_item s dflt i (ts ++ rest) = Ok (CItem v, rest).
Proof. exact arr_item_roundtrip_elem. Qed.
Print Assumptions C03_array_item_roundtrip_elem.

(* non-vacuity: ArrayOf(Unsigned)([10,20,30]); append 40; a[0] = 2 (shrink); a[0] = 4 (grow with the default 0);
   a[1] = 7; del a[2]; a refused a[9] = 7 in between *)
Definition u8 (n : N) : val := VAtom (mkTag 0 2 1 [n]).
Example C03_array_history :
  arr_new None (u8 0) (Some [u8 10; u8 20; u8 30]) = Ok (arr_of [u8 10; u8 20; u8 30]) /\
  arr_run (TAtom 2) None (u8 0)
    [OAppend (u8 40); OSetLen 2; OSet 9 (u8 7); OSetLen 4; OSet 1 (u8 7); ODel 2] (arr_of [u8 10; u8 20; u8 30])
  = ([0; 0; err_code IndexErr; 0; 0; 0]%Z, arr_of [u8 7; u8 0; u8 0]) /\
  arr_new (Some 3) (u8 0) None = Ok (arr_of [u8 0; u8 0; u8 0]) /\
  arr_step (TAtom 2) (Some 3) (u8 0) (OAppend (u8 1)) (arr_of [u8 0; u8 0; u8 0]) = Err TypeErr.
Proof. repeat split; vm_compute; reflexivity. Qed.

Example C03_array_object_instance :   (* the theorems applied: three Unsigned, then per item *)
  arr_cast_out (TAtom 2) None [mkTag 0 2 1 [10]; mkTag 0 2 1 [20]; mkTag 0 2 1 [30]] = Ok [u8 10; u8 20; u8 30] /\
  arr_encode_item (TAtom 2) 0 (arr_of [u8 10; u8 20; u8 30]) = Ok [mkTag 0 2 1 [3]] /\
  arr_decode_item (TAtom 2) (u8 0) 2 ([mkTag 0 2 1 [20]] ++ []) = Ok (CItem (u8 20), []).
Proof.
  split; [|split].
  - apply (C03_array_object_roundtrip (TAtom 2) None [u8 10; u8 20; u8 30] _ []); try (vm_compute; reflexivity); try exact I.
    cbn. split; [|exact I]. repeat constructor.
  - vm_compute. reflexivity.
  - apply (C03_array_item_roundtrip_elem (TAtom 2) (u8 0) [u8 10; u8 20; u8 30] 2 (u8 20));
      try (vm_compute; reflexivity); try exact I; try lia.
    cbn. repeat split.
Qed.
