(* C05 — segmented transfers deliver the exact payload and survive any single fault.
   Property theorems only; model Bac.Ssm / Bac.SsmWorld, proofs in Bac.SsmFacts / Bac.SsmC05. *)
From Bac Require Import Base PyRt Ssm SsmFacts SsmC04a SsmC05 SsmWorld.
Open Scope Z_scope.

(* cutting a message into segments of any positive size and concatenating the pieces gives the message back;
   n is the segment count computed by ClientSSM.indication / ServerSSM.confirmation *)
Theorem C05_slices_concat : forall p sz n, 0 < sz -> seg_count (zlen p) sz = Ok n -> concat (slices p sz n) = p.
Proof. exact slices_concat. Qed.
Print Assumptions C05_slices_concat.

(* a segment produced by get_segment i is piece i, numbered i mod 256, with more-follows iff it is not the last *)
Theorem C05_segment_shape : forall s i a c, s_ctx s = Some c -> get_segment s i = Ok a ->
  i < s_segcount s /\
  a_data a = slice (a_data c) (i * s_segsize s) (s_segsize s) /\
  (s_segcount s <> 1 -> a_seg a = true /\ a_seq a = i mod 256 /\ a_mor a = (i <? s_segcount s - 1)) /\
  (s_segcount s = 1 -> a_seg a = false /\ a_mor a = false).
Proof.
  intros s i a c Hc H. destruct (get_segment_inv _ _ _ H) as (c' & Hc' & Hi & _ & Hd & Hs & Hm & Hq).
  rewrite Hc in Hc'. injection Hc' as <-. rewrite Hm, Hs. split; [exact Hi|]. split; [exact Hd|]. split; intros Hn.
  - replace (s_segcount s =? 1) with false in * by lia. cbn [negb andb]. repeat split. apply Hq. exact Hs.
  - replace (s_segcount s =? 1) with true by lia. split; reflexivity.
Qed.
Print Assumptions C05_segment_shape.

(* fill_window(seqNum) with window w: the frames are segments seqNum, seqNum+1, ... consecutively, at most w of them *)
Theorem C05_sender_frames : forall seqNum st st' e w,
  s_actwin (h_s st) = Some w -> fill_window seqNum st = (st', e) ->
  exists frames, h_outs st' = rev (map Tx frames) ++ h_outs st /\ Z.of_nat (length frames) <= Z.max w 0 /\
    forall j a, nth_error frames j = Some a -> get_segment (h_s st) (seqNum + Z.of_nat j) = Ok a.
Proof.
  intros seqNum st st' e w Hw H. unfold fill_window, withs in H. rewrite Hw in H.
  destruct (fill_loop_run (Z.to_nat w) seqNum 0 st) as (frames & b & e' & H1 & H2 & H3). rewrite H1 in H. injection H as <- _.
  exists frames. split; [reflexivity | split; [lia|]].
  intros j a Hj. rewrite <- (H3 j a Hj). f_equal. lia.
Qed.
Print Assumptions C05_sender_frames.

(* ... but seqNum itself is kept modulo 256: with more than 256 segments the window that should start at segment 256
   starts at segment 0 again (sequence number right, payload wrong) *)
Theorem C05_sender_frames_refuted :
  match first_tx (h_outs (fst (c_confirmation wrap_ack (mkH wrap_sender [] 1 0 true)))) with
  | Some a => a_seq a = 0 /\ a_data a = slice long_payload 0 50 /\ a_data a <> slice long_payload (256 * 50) 50
  | None => False
  end.
Proof. exact wrap_witness. Qed.
Print Assumptions C05_sender_frames_refuted.

(* receiver: whatever arrives — duplicates, frames out of order — as long as each frame numbered s carries piece i with
   i = s mod 256 and |i - next expected| < 128, what has been reassembled is the message cut at a segment boundary *)
Theorem C05_receiver_exact : forall p sz fs k, 0 < sz -> 0 <= k -> frames_ok p sz k fs ->
  let st := fold_left rx_step fs (k, prefix_upto p sz k) in
  k <= fst st /\ snd st = prefix_upto p sz (fst st).
Proof. exact receiver_prefix. Qed.
Print Assumptions C05_receiver_exact.

(* ... and once the last piece is in, it is the whole message *)
Theorem C05_receiver_complete : forall p sz k, 0 < sz -> zlen p <= (k + 1) * sz -> prefix_upto p sz k = p.
Proof.
  intros p sz k Hs H. unfold prefix_upto. apply firstn_all2. unfold zlen in H. lia.
Qed.
Print Assumptions C05_receiver_complete.

(* the two receivers of the code are rx_step: ServerSSM.segmented_request and ClientSSM.segmented_confirmation accept a
   segment iff its number is lastSequenceNumber+1 mod 256, append exactly its payload, and hand the application
   nothing but the reassembled octets, and only on an in-order segment without more-follows *)
Theorem C05_server_receiver_is_rx_step : forall a st c, s_ctx (h_s st) = Some c -> a_type a = 0 -> a_seg a = true ->
  let st' := fst (s_segmented_request a st) in
  (ctx_data (h_s st'), s_lastseq (h_s st')) =
    (if a_seq a =? (s_lastseq (h_s st) + 1) mod 256
     then (a_data c ++ a_data a, (s_lastseq (h_s st) + 1) mod 256) else (a_data c, s_lastseq (h_s st))) /\
  (forall x, In (ToApp x) (h_outs st') -> ~ In (ToApp x) (h_outs st) ->
     a_seq a = (s_lastseq (h_s st) + 1) mod 256 /\ a_mor a = false /\ a_data x = a_data c ++ a_data a).
Proof. exact server_rx_tie. Qed.
Print Assumptions C05_server_receiver_is_rx_step.

Theorem C05_abort_not_garbage : forall a st c, s_ctx (h_s st) = Some c -> a_type a = 3 -> a_seg a = true ->
  let st' := fst (c_segmented_confirmation a st) in
  (ctx_data (h_s st'), s_lastseq (h_s st')) =
    (if a_seq a =? (s_lastseq (h_s st) + 1) mod 256
     then (a_data c ++ a_data a, (s_lastseq (h_s st) + 1) mod 256) else (a_data c, s_lastseq (h_s st))) /\
  (forall x, In (ToApp x) (h_outs st') -> ~ In (ToApp x) (h_outs st) ->
     a_seq a = (s_lastseq (h_s st) + 1) mod 256 /\ a_mor a = false /\ a_data x = a_data c ++ a_data a).
Proof. exact client_rx_tie. Qed.
Print Assumptions C05_abort_not_garbage.

(* fixed defect: a new server transaction never hands the application anything when the first frame it sees is not segment 0 *)
Theorem C05_first_frame_must_be_segment_zero : forall a st, a_type a = 0 -> a_seg a = true -> a_seq a <> 0 -> h_outs st = [] ->
  s_state (h_s st) = IDLE -> forall x, ~ In (ToApp x) (h_outs (fst (s_idle a st))).
Proof. intros a st Ht Hs _ Ho _ x. exact (s_idle_segmented_silent a st x Ht Hs Ho). Qed.
Print Assumptions C05_first_frame_must_be_segment_zero.

(* single-fault recovery does not hold: 180 octets each way at max-APDU 50, window 2, 3 retries; segment 1 of the request lost *)
Theorem C05_single_fault_recovers_refuted :
  let clean := run_chunks base_nodes [base_req] [] (-1) [] in
  let faulty := run_chunks base_nodes [base_req] [(2, [])] (-1) [] in
  existsb (is_conf 3) clean = true /\ n_conf clean = 1 /\
  existsb (is_conf 3) faulty = false /\ existsb (is_conf 7) faulty = true /\ n_conf faulty = 1.
Proof. exact single_drop_witness. Qed.
Print Assumptions C05_single_fault_recovers_refuted.

(* it does hold for unsegmented transactions on the finite family swept completely here: retries 1..3, request lengths
   {0,1,20,46}, simple / 30-octet complex / error answers, each of {drop, duplicate, 500 ms, 2 s delay, 4 s late duplicate}
   at each of the frame indices 0..3 (720 scenarios): exactly one outcome and it is the server's answer *)
Theorem C05_single_fault_recovers_partial : forall x, In x sweep_domain -> sweep_ok x = true.
Proof. apply forallb_forall. exact unsegmented_single_fault_sweep. Qed.
Print Assumptions C05_single_fault_recovers_partial.

Example C05_seg_count_example : seg_count 180 50 = Ok 4 /\ seg_count 0 50 = Ok 1 /\ seg_count 200 50 = Ok 4.
Proof. vm_compute. repeat split. Qed.
Example C05_frames_ok_example :
  frames_ok [1; 2; 3; 4; 5] 2 0 [(1, [3; 4]); (1, [3; 4]); (2, [5])].
Proof.
  cbn [frames_ok]. repeat split.
  - exists 1. vm_compute. repeat split; discriminate.
  - exists 1. vm_compute. repeat split; discriminate.
  - exists 2. vm_compute. repeat split; discriminate.
Qed.
