(* C15 — Property reads and writes over the wire are consistent, typed, all-or-nothing.
   Property theorems only; the model is Bac.Obj, the lemmas behind them are in Bac.ObjFacts / ObjRw / ObjRpm / ObjWire. *)
From Bac Require Import Base PyRt Obj ObjFacts ObjRw ObjRpm ObjWire.
Open Scope Z_scope.

(* After an acknowledged WriteProperty (any datatype, any array index class) ReadProperty of the same property
   and index answers with exactly the items the written value denotes (raw_val of the value the service cast
   out of the request); if one of those items cannot be encoded the read raises that very exception.
   The wildcard device identifier is left out because do_read maps it to the device's own (map_oid) and do_write
   does not. *)
Theorem C15_write_then_read : forall d oid pid idx w d',
  oid <> WILDCARD_DEVICE -> do_write d oid pid idx w = XOk d' ->
  exists o p cur cv,
    find_obj (d_objs d) oid = Some o /\ find_prop o pid = Some (p, cur) /\
    cast_for (p_dt p) idx w = Ok cv /\
    do_read d' oid pid idx = xbind (lift (raw_val cv)) (fun its => XOk (oid, its)).
Proof. exact write_then_read. Qed.
Print Assumptions C15_write_then_read.

(* the atomic instance: the very tag that was written comes back *)
Theorem C15_write_then_read_atom : forall d oid pid w d' o p cur k lo hi c,
  oid <> WILDCARD_DEVICE -> do_write d oid pid None w = XOk d' ->
  find_obj (d_objs d) oid = Some o -> find_prop o pid = Some (p, cur) ->
  p_dt p = DS (SAtom k lo hi) -> w_tags w = [WApp k c] -> k <> 0 ->
  step d' (ORead oid pid None) = (RValue oid pid None [IA k c], d').
Proof. exact write_then_read_atom. Qed.
Print Assumptions C15_write_then_read_atom.

(* every reply other than SimpleAck (Error, Reject, Abort, and all read replies) leaves the whole device unchanged *)
Theorem C15_refused_unchanged : forall d o rep d', step d o = (rep, d') -> rep <> RAck -> d' = d.
Proof.
  intros d o rep d' H Hn. destruct o as [oid pid idx | oid pid idx prio w | specs]; cbn [step] in H.
  - destruct (do_read d oid pid idx) as [[oid' its] | x]; inversion H; reflexivity.
  - destruct (do_write d oid pid idx w) as [d2 | x]; inversion H; subst; [congruence | reflexivity].
  - destruct (do_rpm d specs) as [l | x]; inversion H; reflexivity.
Qed.
Print Assumptions C15_refused_unchanged.

(* an acknowledged write changes nothing but the addressed property of the addressed object *)
Theorem C15_write_frame : forall d oid pid idx w d' oid2 pid2,
  do_write d oid pid idx w = XOk d' -> (oid2, pid2) <> (oid, pid) -> lookup d' oid2 pid2 = lookup d oid2 pid2.
Proof. exact do_write_frame. Qed.
Print Assumptions C15_write_frame.

(* index 0 -> length, 1..n -> the element, anything else -> invalid-array-index *)
Theorem C15_array_index : forall o pid p n l s fixed proto,
  find_prop o pid = Some (p, VArr n l) -> p_dt p = DArray s fixed proto -> n = zlength l ->
  read_any o pid (Some 0) = XOk [IA 2 n] /\
  (forall i, 1 <= i <= n -> exists e, nth_error l (Z.to_nat (i - 1)) = Some e /\
                                      read_any o pid (Some i) = lift (enc_elem s e)) /\
  (forall i, i < 0 \/ n < i -> read_any o pid (Some i) = XErr (ExecErr EC_PROPERTY E_INVALID_ARRAY_INDEX)).
Proof. exact array_index. Qed.
Print Assumptions C15_array_index.

(* its hypothesis n = len(elements) is an invariant of Property.WriteProperty (resize, element and whole writes) *)
Theorem C15_array_invariant : forall p cur idx cv nv,
  ((exists e, cv = VS e) \/ (exists l, cv = VPyList l)) -> wf_val cur ->
  prop_write p cur idx cv = XOk nv -> wf_val nv.
Proof. exact prop_write_wf. Qed.
Print Assumptions C15_array_invariant.

(* and of the objectList updates of Application.add_object / delete_object (ArrayOf.append, index + __delitem__):
   the length slot stays the number of elements, which grows / shrinks by exactly one *)
Theorem C15_object_list_invariant :
  (forall v x v', arr_append v x = Ok v' -> wf_val v' /\ elems v' = elems v ++ [x]) /\
  (forall v x v', wf_val v -> arr_remove v x = Ok v' -> wf_val v' /\ S (length (elems v')) = length (elems v)).
Proof. exact (conj arr_append_wf arr_remove_wf). Qed.
Print Assumptions C15_object_list_invariant.

(* "1..n -> the element" at full strength (always a value) is false of the code: growing an array of a
   constructed element type without prototype appends instances that do not encode (known finding
   C15-grow-constructed-array).  C15_array_index is the true restriction: the answer is enc_elem of the element. *)
Definition ex_p_real := mkP 85 (DS (SAtom 4 0 None)) false true.
Definition ex_p_arr := mkP 87 (DArray (SAtom 2 0 None) None (EAtom 2 0)) true true.
Definition ex_p_cons := mkP 130 (DArray (SCons 5) None (EBad 5 MissingRequired)) true true.
Definition ex_p_name := mkP 77 (DS (SAtom 7 0 None)) false false.
Definition ex_p_list := mkP 53 (DList (SAtom 2 0 None)) true true.
Definition ex_dev := mkDev 100
  [(1, [(ex_p_real, VS (EAtom 4 11)); (ex_p_arr, VArr 2 [EAtom 2 7; EAtom 2 8]); (ex_p_cons, VArr 0 []);
        (ex_p_name, VS (EAtom 7 3)); (ex_p_list, VNone)])].
Definition ex_w (ts : list wtag) := mkW ts (Err OtherErr) (Err OtherErr).

Theorem C15_array_index_refuted : exists d w d',
  do_write d 1 130 (Some 0) w = XOk d' /\
  fst (step d' (ORead 1 130 (Some 0))) = RValue 1 130 (Some 0) [IA 2 1] /\
  fst (step d' (ORead 1 130 (Some 1))) = RReject 5 /\
  fst (step d' (ORead 1 130 None)) = RReject 5.
Proof. exists ex_dev, (ex_w [WApp 2 1]). eexists. repeat split; vm_compute; reflexivity. Qed.
Print Assumptions C15_array_index_refuted.

(* unknown object / unknown property / read-only / wrong atomic datatype / bad index: which reply, state unchanged *)
Theorem C15_error_mapping :
  (forall d oid pid idx, find_obj (d_objs d) (map_oid d oid) = None ->
     step d (ORead oid pid idx) = (RError EC_OBJECT E_UNKNOWN_OBJECT, d)) /\
  (forall d oid pid idx prio w, find_obj (d_objs d) oid = None ->
     step d (OWrite oid pid idx prio w) = (RError EC_OBJECT E_UNKNOWN_OBJECT, d)) /\
  (forall d oid pid idx o, find_obj (d_objs d) (map_oid d oid) = Some o -> find_prop o pid = None ->
     step d (ORead oid pid idx) = (RError EC_PROPERTY E_UNKNOWN_PROPERTY, d)) /\
  (forall d oid pid idx prio w o, find_obj (d_objs d) oid = Some o -> find_prop o pid = None ->
     step d (OWrite oid pid idx prio w) = (RError EC_PROPERTY E_UNKNOWN_PROPERTY, d)) /\
  (forall d oid pid idx prio w o p cur r value,
     find_obj (d_objs d) oid = Some o -> find_prop o pid = Some (p, cur) -> p_mut p = false ->
     prop_read p cur idx = XOk r -> r <> VNone -> cast_for (p_dt p) idx w = Ok value ->
     step d (OWrite oid pid idx prio w) = (RError EC_PROPERTY E_WRITE_ACCESS_DENIED, d)) /\
  (forall d oid pid prio w o p cur k lo hi k' c,
     find_obj (d_objs d) oid = Some o -> find_prop o pid = Some (p, cur) -> cur <> VNone ->
     p_dt p = DS (SAtom k lo hi) -> w_tags w = [WApp k' c] -> k' <> k -> k' <> 0 ->
     step d (OWrite oid pid None prio w) = (RReject 4, d)) /\
  (forall d oid pid i prio w o p n l, find_obj (d_objs d) oid = Some o ->
     find_prop o pid = Some (p, VArr n l) -> is_array (p_dt p) = true -> i < 0 \/ n < i ->
     step d (OWrite oid pid (Some i) prio w) = (RError EC_PROPERTY E_INVALID_ARRAY_INDEX, d)).
Proof.
  exact (conj read_unknown_object (conj write_unknown_object (conj read_unknown_property (conj write_unknown_property
          (conj write_read_only (conj write_wrong_atom write_index_beyond_array)))))).
Qed.
Print Assumptions C15_error_mapping.

(* a Null value is refused by every atomic property (reject, or write-access-denied when read-only) *)
Theorem C15_null_refused : forall d oid pid prio w o p cur k lo hi c,
  find_obj (d_objs d) oid = Some o -> find_prop o pid = Some (p, cur) -> cur <> VNone ->
  p_dt p = DS (SAtom k lo hi) -> w_tags w = [WApp 0 c] ->
  step d (OWrite oid pid None prio w) = (if p_mut p then RReject 3 else RError EC_PROPERTY E_WRITE_ACCESS_DENIED, d).
Proof. exact write_null_atomic. Qed.
Print Assumptions C15_null_refused.

(* ReadPropertyMultiple: an acknowledged result list is the map of the ReadProperty answers over the
   references, the selectors all/required/optional expanded over the object's properties (propertyList and
   absent properties left out); one element is exactly the ReadProperty answer; and the request is
   acknowledged whenever every expanded reference has an answer that can be embedded *)
Theorem C15_rpm_is_map_rp : forall d specs out, do_rpm d specs = XOk out -> out = rpm_spec d specs.
Proof. intros d specs out H. exact (proj2 (proj1 (do_rpm_iff d specs out) H)). Qed.
Print Assumptions C15_rpm_is_map_rp.

Theorem C15_rpm_element_is_rp : forall d oid pid idx r,
  rp_element (obj_of d oid) pid idx = XOk (pid, idx, r) <-> rp_answer d oid pid idx = Some r.
Proof.
  intros d oid pid idx r. rewrite rp_element_iff.
  split; [intros (r' & Hr & E); inversion E; exact Hr | intros Hr; exists r; split; [exact Hr | reflexivity]].
Qed.
Print Assumptions C15_rpm_element_is_rp.

Theorem C15_rpm_total : forall d specs,
  (forall oid refs, In (oid, refs) specs -> forall ref, In ref refs -> ref_answerable d oid ref) ->
  exists out, do_rpm d specs = XOk out.
Proof.
  intros d specs H. exists (rpm_spec d specs). apply do_rpm_iff. split; [| reflexivity].
  apply Forall_forall. intros [oid refs] Hin. apply Forall_forall. exact (H oid refs Hin).
Qed.
Print Assumptions C15_rpm_total.

(* ---- the array index as it travels (context-tagged Unsigned; step_wire = decode the index octets, then step) ----
   An index element that is present in the request is never read as "no index": whatever its octets (any number of
   them, leading zeros, all ones) it is Some i with i their big-endian value; only empty data is refused (Reject
   invalid-tag, by the decoder).  So no index value — in particular none of the all-ones markers 0xFF, 0xFFFF,
   0xFFFFFFFF, ... other stacks use for "all elements" — is an alias of the whole property. *)
Theorem C15_wire_index_total : forall bs, bs <> [] -> octets bs ->
  exists i, wire_index (Some bs) = Ok (Some i) /\ i = be_value 0 bs /\ 0 <= i < 256 ^ zlength bs.
Proof.
  intros bs Hne Ho. exists (be_value 0 bs). split; [| split; [reflexivity | apply be_value_range; exact Ho]].
  destruct bs; [congruence | reflexivity].
Qed.
Print Assumptions C15_wire_index_total.

Theorem C15_wire_index_all_ones : forall k,
  wire_index (Some (repeat 255 (S k))) = Ok (Some (256 ^ Z.of_nat (S k) - 1)).
Proof. intros k. rewrite <- be_value_all_ones. reflexivity. Qed.
Print Assumptions C15_wire_index_all_ones.

(* every index the library's own encoder can send (0 .. 2^32-1, the domain of struct.pack('>L')) reaches the
   service as itself, for ReadProperty and for WriteProperty *)
Theorem C15_wire_index_sent : forall d oid pid i prio w, 0 <= i <= 4294967295 ->
  exists bs, enc_index i = Ok bs /\
    step_wire d (WRead oid pid (Some bs)) = step d (ORead oid pid (Some i)) /\
    step_wire d (WWrite oid pid (Some bs) prio w) = step d (OWrite oid pid (Some i) prio w).
Proof.
  intros d oid pid i prio w Hi. destruct (index_roundtrip i Hi) as [bs [He [Hne Hw]]].
  exists bs. split; [exact He |]. unfold step_wire, op_of_wire. rewrite Hw. split; reflexivity.
Qed.
Print Assumptions C15_wire_index_sent.

(* an index that designates neither the length nor an element — any index on a property that is not an array, an
   index beyond the length of an ArrayOf — is refused whatever its size: ReadProperty and WriteProperty answer
   Error property/invalid-array-index (array) or property/property-is-not-an-array, the device is unchanged, and
   ReadPropertyMultiple embeds that very error for the reference *)
Theorem C15_wire_index_refused : forall d oid pid bs prio w o p cur,
  bs <> [] -> find_prop o pid = Some (p, cur) -> index_is_bad p cur (be_value 0 bs) ->
  (find_obj (d_objs d) (map_oid d oid) = Some o ->
     step_wire d (WRead oid pid (Some bs)) = (RError EC_PROPERTY (bad_index_code p), d)) /\
  (find_obj (d_objs d) oid = Some o ->
     step_wire d (WWrite oid pid (Some bs) prio w) = (RError EC_PROPERTY (bad_index_code p), d)) /\
  rp_element (Some o) pid (Some (be_value 0 bs)) = XOk (pid, Some (be_value 0 bs), RErr EC_PROPERTY (bad_index_code p)).
Proof.
  intros d oid pid bs prio w o p cur Hne Hp Hb. repeat split.
  - intros Ho. rewrite step_wire_read by exact Hne. exact (read_index_refused _ _ _ _ _ _ _ Ho Hp Hb).
  - intros Ho. rewrite step_wire_write by exact Hne. exact (write_index_refused _ _ _ _ _ _ _ _ _ Ho Hp Hb).
  - exact (rp_element_bad_index _ _ _ _ _ Hp Hb).
Qed.
Print Assumptions C15_wire_index_refused.

(* non-vacuity: the hypotheses are met by concrete devices and requests *)
Example C15_ex_write_then_read : exists d',
  do_write ex_dev 1 85 None (ex_w [WApp 4 12]) = XOk d' /\
  step d' (ORead 1 85 None) = (RValue 1 85 None [IA 4 12], d').
Proof. eexists. split; vm_compute; reflexivity. Qed.
Example C15_ex_resize : exists d',
  do_write ex_dev 1 87 (Some 0) (ex_w [WApp 2 4]) = XOk d' /\
  fst (step d' (ORead 1 87 None)) = RValue 1 87 None [IA 2 7; IA 2 8; IA 2 0; IA 2 0] /\
  fst (step d' (ORead 1 87 (Some 0))) = RValue 1 87 (Some 0) [IA 2 4] /\
  fst (step d' (ORead 1 87 (Some 5))) = RError EC_PROPERTY E_INVALID_ARRAY_INDEX.
Proof. eexists. repeat split; vm_compute; reflexivity. Qed.
Example C15_ex_refusals :
  fst (step ex_dev (OWrite 1 77 None None (ex_w [WApp 7 9]))) = RError EC_PROPERTY E_WRITE_ACCESS_DENIED /\
  fst (step ex_dev (OWrite 1 85 None (Some 8) (ex_w [WApp 2 9]))) = RReject 4 /\
  fst (step ex_dev (OWrite 1 85 None None (ex_w [WApp 4 9; WApp 4 9]))) = RError EC_DEVICE E_OPERATIONAL_PROBLEM /\
  fst (step ex_dev (OWrite 2 85 None None (ex_w [WApp 4 9]))) = RError EC_OBJECT E_UNKNOWN_OBJECT /\
  fst (step ex_dev (OWrite 1 53 None None (ex_w [WApp 2 9]))) = RError EC_PROPERTY E_UNKNOWN_PROPERTY /\
  fst (step ex_dev (OWrite 1 87 None None (ex_w [WApp 0 0]))) = RReject 3.
Proof. repeat split; vm_compute; reflexivity. Qed.
Example C15_ex_rpm :
  do_rpm ex_dev [(1, [(P_ALL, None); (85, Some 1)]); (9, [(P_REQUIRED, None)])] =
  XOk [(1, [(85, None, RVal [IA 4 11]); (87, None, RVal [IA 2 7; IA 2 8]); (130, None, RVal []); (77, None, RVal [IA 7 3]);
            (85, Some 1, RErr EC_PROPERTY E_NOT_AN_ARRAY)]);
       (9, [(P_REQUIRED, None, RErr EC_OBJECT E_UNKNOWN_OBJECT)])].
Proof. vm_compute. reflexivity. Qed.
Example C15_ex_wf : wf_val (VArr 2 [EAtom 2 7; EAtom 2 8]).
Proof. reflexivity. Qed.
Example C15_ex_life_cycle :
  arr_append (VArr 1 [EAtom 12 5]) (EAtom 12 6) = Ok (VArr 2 [EAtom 12 5; EAtom 12 6]) /\
  arr_remove (VArr 2 [EAtom 12 5; EAtom 12 6]) (EAtom 12 5) = Ok (VArr 1 [EAtom 12 6]) /\
  arr_remove (VArr 1 [EAtom 12 6]) (EAtom 12 5) = Err ValueErr.
Proof. repeat split; vm_compute; reflexivity. Qed.
Example C15_ex_wire_index :
  wire_index (Some [255; 255; 255; 255]) = Ok (Some 4294967295) /\
  enc_index 4294967295 = Ok [255; 255; 255; 255] /\ enc_index 256 = Ok [1; 0] /\
  wire_index (Some [0; 0; 0; 2]) = Ok (Some 2) /\ wire_index (Some []) = Err InvalidTag /\
  wire_index None = Ok None.
Proof. repeat match goal with |- _ /\ _ => split end; vm_compute; reflexivity. Qed.
Example C15_ex_wire_refused :
  fst (step_wire ex_dev (WRead 1 87 (Some [255; 255; 255; 255]))) = RError EC_PROPERTY E_INVALID_ARRAY_INDEX.
Proof. vm_compute. reflexivity. Qed.
Example C15_ex_wire_not_array :
  fst (step_wire ex_dev (WWrite 1 85 (Some [255; 255; 255; 255]) None (ex_w [WApp 4 9]))) = RError EC_PROPERTY E_NOT_AN_ARRAY.
Proof. vm_compute. reflexivity. Qed.
