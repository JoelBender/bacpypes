(* C02 — Tag streams are self-delimiting: framing is total, canonical and balanced.
   The lemmas behind the theorems are in Bac.TagHdr / Bac.TagFacts / Bac.TagGenFacts. *)
From Bac Require Import Base Tag TagHdr TagFacts PyLoops TagGenFacts.
From BacGen Require Import TagFns.
Open Scope N_scope.

(* one tag followed by anything decodes to exactly that tag, rest untouched *)
Theorem C02_tag_roundtrip : forall t, wf_tag t = true ->
  exists bs, enc_tag t = Ok bs /\ forall rest, dec_tag (bs ++ rest) = Ok (t, rest).
Proof. exact tag_roundtrip. Qed.
Print Assumptions C02_tag_roundtrip.

(* any list of well-formed tags: decode (encode ts) = ts, every octet consumed *)
Theorem C02_list_roundtrip : forall ts, forallb wf_tag ts = true ->
  exists bs, enc_tags ts = Ok bs /\ dec_tags bs = Ok ts.
Proof. exact list_roundtrip. Qed.
Print Assumptions C02_list_roundtrip.

(* canonical form: the octets are the standard's header (length escapes 5..253 / 254+2 /
   255+4, extended tag-number octet) followed by the data *)
Theorem C02_canonical_header : forall t, wf_tag t = true ->
  enc_tag t = Ok (spec_header t ++ data t).
Proof. exact enc_tag_spec. Qed.
Print Assumptions C02_canonical_header.

(* arbitrary octets: terminates (fuel never exhausted) with a tag list or InvalidTag *)
Theorem C02_decode_total : forall bs,
  (exists ts, dec_tags bs = Ok ts) \/ dec_tags bs = Err InvalidTag.
Proof. exact dec_tags_total. Qed.
Print Assumptions C02_decode_total.

(* never over-reads: a decoded tag is a 1..7 octet header, exactly its data, then the rest *)
Theorem C02_no_overread : forall bs t r, dec_tag bs = Ok (t, r) ->
  exists h, bs = h ++ data t ++ r /\ (1 <= length h <= 7)%nat.
Proof. exact dec_tag_shape. Qed.
Print Assumptions C02_no_overread.

(* a decoded list re-encodes to octets that decode to the same list *)
Theorem C02_reencode_stable : forall bs ts, bytes_ok bs = true -> dec_tags bs = Ok ts ->
  exists bs', enc_tags ts = Ok bs' /\ dec_tags bs' = Ok ts.
Proof. exact dec_tags_reencode. Qed.
Print Assumptions C02_reencode_stable.

(* nested groups are extracted exactly when they balance, at every depth *)
Theorem C02_get_context_balanced : forall ctx o body c rest,
  cls o = 2 -> num o = ctx -> cls c = 3 -> balanced body ->
  get_context ctx (o :: body ++ c :: rest) = Ok (CtxGroup body).
Proof.
  intros ctx o body c rest Ho Hn Hc Hb.
  rewrite (get_context_open _ _ _ Ho), (any_decode_balanced body c rest Hb Hc), Hn, N.eqb_refl. reflexivity.
Qed.
Print Assumptions C02_get_context_balanced.

Theorem C02_get_context_unbalanced : forall ctx o body,
  cls o = 2 -> balanced body -> get_context ctx (o :: body) = Err InvalidTag.
Proof. intros ctx o body Ho Hb. rewrite (get_context_open _ _ _ Ho), (any_decode_all body Hb). reflexivity. Qed.
Print Assumptions C02_get_context_unbalanced.

Theorem C02_any_balanced : forall body c rest,
  balanced body -> cls c = 3 -> any_decode (body ++ c :: rest) = Ok (body, c :: rest).
Proof. exact any_decode_balanced. Qed.
Print Assumptions C02_any_balanced.

Theorem C02_any_unbalanced : forall o body,
  cls o = 2 -> balanced body -> any_decode (o :: body) = Err DecodingError.
Proof.
  intros o body Ho Hb. unfold any_decode. cbn [any_take]. rewrite Ho. cbn [N.eqb Pos.eqb].
  rewrite <- (app_nil_r body), (any_take_balanced body Hb). reflexivity.
Qed.
Print Assumptions C02_any_unbalanced.

(* ---- tie by translation: BacGen.TagFns is regenerated from primitivedata.py on every run
   (translator/gen_tagfns.py, statement by statement); the translated Tag.encode / Tag.decode /
   TagList.encode / TagList.decode ARE the model, for every input *)
Theorem C02_translated_encode_is_model : forall t pdu,
  gen_Tag_encode t pdu = do bs <- enc_tag t; Ok (pdu ++ bs).
Proof. exact gen_Tag_encode_eq. Qed.
Print Assumptions C02_translated_encode_is_model.

Theorem C02_translated_decode_is_model : forall bs, gen_Tag_decode bs = dec_tag bs.
Proof. exact gen_Tag_decode_eq. Qed.
Print Assumptions C02_translated_decode_is_model.

Theorem C02_translated_list_encode_is_model : forall ts pdu,
  gen_TagList_encode ts pdu = do bs <- enc_tags ts; Ok (pdu ++ bs).
Proof. exact gen_TagList_encode_eq. Qed.
Print Assumptions C02_translated_list_encode_is_model.

(* self.tagList = acc on entry: the decoded tags are appended, the buffer is left empty *)
Theorem C02_translated_list_decode_is_model : forall acc bs,
  gen_TagList_decode acc bs = do ts <- dec_tags bs; Ok (acc ++ ts, []).
Proof. exact gen_TagList_decode_eq. Qed.
Print Assumptions C02_translated_list_decode_is_model.

(* the main theorems stated directly on the translated source text *)
Theorem C02_gen_tag_roundtrip : forall t, wf_tag t = true ->
  exists bs, gen_Tag_encode t [] = Ok bs /\ forall rest, gen_Tag_decode (bs ++ rest) = Ok (t, rest).
Proof. intros t. rewrite gen_Tag_encode_nil. setoid_rewrite gen_Tag_decode_eq. apply tag_roundtrip. Qed.
Print Assumptions C02_gen_tag_roundtrip.

Theorem C02_gen_list_roundtrip : forall ts, forallb wf_tag ts = true ->
  exists bs, gen_TagList_encode ts [] = Ok bs /\ gen_TagList_decode [] bs = Ok (ts, []).
Proof. intros ts. rewrite gen_TagList_encode_nil. setoid_rewrite gen_TagList_decode_ok. apply list_roundtrip. Qed.
Print Assumptions C02_gen_list_roundtrip.

Theorem C02_gen_canonical_header : forall t, wf_tag t = true ->
  gen_Tag_encode t [] = Ok (spec_header t ++ data t).
Proof. intros t. rewrite gen_Tag_encode_nil. apply enc_tag_spec. Qed.
Print Assumptions C02_gen_canonical_header.

Theorem C02_gen_decode_total : forall bs,
  (exists ts, gen_TagList_decode [] bs = Ok (ts, [])) \/ gen_TagList_decode [] bs = Err InvalidTag.
Proof.
  intros bs. setoid_rewrite gen_TagList_decode_ok. rewrite gen_TagList_decode_nil.
  destruct (dec_tags_total bs) as [H| ->]; auto.
Qed.
Print Assumptions C02_gen_decode_total.

Theorem C02_gen_no_overread : forall bs t r, gen_Tag_decode bs = Ok (t, r) ->
  exists h, bs = h ++ data t ++ r /\ (1 <= length h <= 7)%nat.
Proof. intros bs. rewrite gen_Tag_decode_eq. apply dec_tag_shape. Qed.
Print Assumptions C02_gen_no_overread.

Theorem C02_gen_reencode_stable : forall bs ts, bytes_ok bs = true ->
  gen_TagList_decode [] bs = Ok (ts, []) ->
  exists bs', gen_TagList_encode ts [] = Ok bs' /\ gen_TagList_decode [] bs' = Ok (ts, []).
Proof.
  intros bs ts. setoid_rewrite gen_TagList_encode_nil. setoid_rewrite gen_TagList_decode_ok. apply dec_tags_reencode.
Qed.
Print Assumptions C02_gen_reencode_stable.

(* refusal: a tag number beyond the extended-number octet is never put on the wire *)
Theorem C02_gen_encode_refuses_number : forall t pdu, 256 <= num t -> gen_Tag_encode t pdu = Err ValueErr.
Proof. intros t pdu H. rewrite gen_Tag_encode_eq, (enc_tag_refuses_number t H). reflexivity. Qed.
Print Assumptions C02_gen_encode_refuses_number.

(* non-vacuity: concrete tags meet the hypotheses, including every length escape *)
Example C02_wf_examples :
  forallb wf_tag [mkTag 0 2 1 [5]; mkTag 1 254 0 []; mkTag 2 15 0 []; mkTag 3 0 0 [];
                  mkTag 0 1 1 []; mkTag 1 3 6 [1;2;3;4;5;6]] = true.
Proof. vm_compute. reflexivity. Qed.
Example C02_balanced_example :
  balanced [mkTag 2 1 0 []; mkTag 0 2 1 [7]; mkTag 2 2 0 []; mkTag 3 2 0 []; mkTag 3 1 0 []].
Proof.
  apply (bal_group (mkTag 2 1 0 []) [mkTag 0 2 1 [7]; mkTag 2 2 0 []; mkTag 3 2 0 []] (mkTag 3 1 0 []) []);
    try reflexivity; try constructor; try (cbn; lia).
  apply (bal_group (mkTag 2 2 0 []) [] (mkTag 3 2 0 []) []); try reflexivity; constructor.
Qed.

(* the translated functions compute: every length escape through the generated encoder and back *)
Example C02_gen_runs :
  (do bs <- gen_TagList_encode [mkTag 1 200 300 (repeat 7 300%nat); mkTag 0 1 1 []; mkTag 2 15 0 []] [];
   gen_TagList_decode [] bs)
  = Ok ([mkTag 1 200 300 (repeat 7 300%nat); mkTag 0 1 1 []; mkTag 2 15 0 []], []).
Proof. vm_compute. reflexivity. Qed.
Example C02_gen_refusal_example : gen_Tag_encode (mkTag 0 256 0 []) [] = Err ValueErr.
Proof. vm_compute. reflexivity. Qed.
