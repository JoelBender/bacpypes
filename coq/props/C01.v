(* C01 — Primitive values survive encoding unchanged and are never silently altered.
   The lemmas behind the theorems are in Bac.PrimInt / PrimBits / PrimCtxFacts / PrimFacts / PrimFloat /
   PrimObjFacts / PrimDispatchFacts.
   The model (Bac.Prim) is the repaired code: Integer.encode refuses values outside 32 bits
   ("fix: Integer.encode refuses ...") and SecurityLevel is a bijection ("fix: SecurityLevel ..."). *)
From Bac Require Import Base ResFacts Tag TagFacts Prim PrimCtxFacts PrimTables PrimInt PrimBits PrimFacts PrimFloat PrimObj PrimObjFacts PrimDispatch PrimDispatchFacts.
Open Scope N_scope.

(* ---- round trip, application tagging: whatever encode(tag) produces, decode(tag) of the same class
   gives the value back.  Unconditional for Null, Boolean, Unsigned, Integer, OctetString, BitString,
   Date, Time (prim_ok is True there): every Python int, every bit list, every 4-tuple. *)
Theorem C01_roundtrip_app : forall tb v t,
  enum_bijective tb = true -> prim_ok tb v ->
  enc_app tb v = Ok t -> dec_app tb (kind v) t = Ok v.
Proof. exact roundtrip_app. Qed.
Print Assumptions C01_roundtrip_app.

(* ---- context tagging, any context number: app_to_context then context_to_app then decode *)
Theorem C01_roundtrip_ctx : forall tb v c t,
  enum_bijective tb = true -> prim_ok tb v -> enc_app tb v = Ok t ->
  exists x, app_to_ctx c t = Ok x /\
            (do a <- ctx_to_app (kind v) x; dec_app tb (kind v) a) = Ok v.
Proof.
  intros tb v c t B V E. destruct (ctx_roundtrip c (kind v) t (enc_app_shape tb v t E)) as (d & A & R & _).
  eexists. split; [exact A|]. rewrite R. exact (roundtrip_app tb v t B V E).
Qed.
Print Assumptions C01_roundtrip_ctx.

(* ---- down to the octets (composition with C02's tag round trip): the octets Tag.encode emits,
   followed by anything, decode to exactly the value and leave the rest untouched.
   Side conditions: the content consists of octets and is shorter than 2^32. *)
Theorem C01_octets_app : forall tb v t bs rest,
  enum_bijective tb = true -> prim_ok tb v ->
  enc_app tb v = Ok t -> bytes_ok (data t) = true -> lvt t < 4294967296 ->
  enc_tag t = Ok bs ->
  dec_octets_app tb (kind v) (bs ++ rest) = Ok (v, rest).
Proof.
  intros tb v t bs rest B V E Bs L T. unfold dec_octets_app.
  rewrite (enc_app_wire tb v t bs rest E Bs L T). cbn [bind]. rewrite (roundtrip_app tb v t B V E). reflexivity.
Qed.
Print Assumptions C01_octets_app.

Theorem C01_octets_ctx : forall tb v c t rest,
  enum_bijective tb = true -> prim_ok tb v -> c <= 254 ->
  enc_app tb v = Ok t -> bytes_ok (data t) = true -> lvt t < 4294967296 ->
  exists bs, enc_octets_ctx tb c v = Ok bs /\
             dec_octets_ctx tb (kind v) (bs ++ rest) = Ok (v, rest).
Proof. exact wire_roundtrip_ctx. Qed.
Print Assumptions C01_octets_ctx.

(* ---- never silently altered: the encoder refuses, or what it emits decodes to the same value *)
Theorem C01_refuse_or_faithful : forall tb v,
  enum_bijective tb = true -> prim_ok tb v ->
  (exists e, enc_app tb v = Err e) \/
  (exists t, enc_app tb v = Ok t /\ dec_app tb (kind v) t = Ok v).
Proof.
  intros tb v B V. destruct (enc_app tb v) as [t|e] eqn:E; [right|left; eauto].
  exists t. split; [reflexivity|exact (roundtrip_app tb v t B V E)].
Qed.
Print Assumptions C01_refuse_or_faithful.

(* ---- exactly which values are refused *)
Theorem C01_unsigned_refuse_iff : forall tb z,
  (exists e, enc_app tb (PUnsigned z) = Err e) <-> ~ (0 <= z < 4294967296)%Z.
Proof. intros tb z. cbn [enc_app]. rewrite bind_ok_fails, enc_unsigned_eq, guard_fails. lia. Qed.
Print Assumptions C01_unsigned_refuse_iff.

(* the repaired Integer.encode: everything outside 32 bits is refused (was: wrapped) *)
Theorem C01_integer_refuse_iff : forall tb z,
  (exists e, enc_app tb (PInteger z) = Err e) <-> ~ (-2147483648 <= z <= 2147483647)%Z.
Proof. intros tb z. cbn [enc_app]. rewrite bind_ok_fails, enc_integer_eq, guard_fails. lia. Qed.
Print Assumptions C01_integer_refuse_iff.

Theorem C01_date_refuse_iff : forall tb y m d w,
  (exists e, enc_app tb (PDate y m d w) = Err e) <->
  ~ ((0 <= y < 256) /\ (0 <= m < 256) /\ (0 <= d < 256) /\ (0 <= w < 256))%Z.
Proof. intros tb y m d w. cbn [enc_app]. rewrite bind_ok_fails, enc_tuple4_eq, guard_fails. unfold in_octet. lia. Qed.
Print Assumptions C01_date_refuse_iff.

Theorem C01_time_refuse_iff : forall tb h m s c,
  (exists e, enc_app tb (PTime h m s c) = Err e) <->
  ~ ((0 <= h < 256) /\ (0 <= m < 256) /\ (0 <= s < 256) /\ (0 <= c < 256))%Z.
Proof. intros tb h m s c. cbn [enc_app]. rewrite bind_ok_fails, enc_tuple4_eq, guard_fails. unfold in_octet. lia. Qed.
Print Assumptions C01_time_refuse_iff.

Theorem C01_objid_refuse_iff : forall tb z i, (0 <= i <= 4194303)%Z ->
  (exists e, enc_app tb (PObjId (ENum z) i) = Err e) <-> ~ (0 <= z < 1024)%Z.
Proof.
  intros tb z i I. cbn [enc_app]. rewrite bind_ok_fails. unfold enc_objid, objid_word, pack_L. cbn [bind].
  rewrite guard_fails. lia.
Qed.
Print Assumptions C01_objid_refuse_iff.

(* ---- canonical forms: equalities with independently written statements of clause 20.2 *)
Theorem C01_unsigned_shortest : forall tb z t, enc_app tb (PUnsigned z) = Ok t ->
  (0 <= z < 4294967296)%Z /\ data t = spec_min_unsigned (Z.to_N z) /\ unbe (data t) = Z.to_N z.
Proof.
  intros tb z t. cbn [enc_app]. rewrite enc_unsigned_eq. destruct (_ && _)%Z eqn:R; [|discriminate]. intros [= <-].
  split; [lia|]. split; [reflexivity|apply unbe_spec_min_unsigned].
Qed.
Print Assumptions C01_unsigned_shortest.

Theorem C01_integer_shortest : forall tb z t, enc_app tb (PInteger z) = Ok t ->
  (-2147483648 <= z <= 2147483647)%Z /\ data t = spec_min_signed z.
Proof.
  intros tb z t. cbn [enc_app]. rewrite enc_integer_eq. destruct (_ && _)%Z eqn:R; [|discriminate]. intros [= <-].
  split; [lia|reflexivity].
Qed.
Print Assumptions C01_integer_shortest.

Theorem C01_enum_shortest : forall tb v t, enum_bijective tb = true -> valid_eval tb v ->
  enc_app tb (PEnum v) = Ok t ->
  exists n, n < 4294967296 /\ eval_num tb v = Ok (Z.of_N n) /\ data t = spec_min_unsigned n.
Proof.
  intros tb v t B V H. apply bind_ok_inv in H as (d & E & [= <-]). exact (proj2 (proj2 (enum_roundtrip tb v d B V E))).
Qed.
Print Assumptions C01_enum_shortest.

(* first octet = unused-bit count, ceil(n/8) octets follow; read MSB first they are the bits then zeros *)
Theorem C01_bitstring_layout : forall tb l t, enc_app tb (PBits l) = Ok t ->
  data t = ((8 - lenN l mod 8) mod 8) :: pack_bits l /\
  lenN (pack_bits l) = (lenN l + 7) / 8 /\
  flat_map byte_bits (pack_bits l) = (l ++ repeat false (N.to_nat ((8 - lenN l mod 8) mod 8)))%list.
Proof.
  intros tb l t [= <-]. cbn [data app_tag]. unfold enc_bits. rewrite <- unused_bits_spec.
  destruct (pack_bits_spec l) as (U & L & _). auto.
Qed.
Print Assumptions C01_bitstring_layout.

Theorem C01_real_ieee : forall tb d t, enc_app tb (PReal d) = Ok t ->
  exists p, round32 d = Ok p /\ data t = be4 p /\ lvt t = 4.
Proof.
  intros tb d t. cbn [enc_app]. unfold enc_real. destruct (round32 d) as [p|]; [|discriminate].
  intros [= <-]. exists p. repeat split.
Qed.
Print Assumptions C01_real_ieee.

Theorem C01_double_ieee : forall tb d t, enc_app tb (PDouble d) = Ok t -> data t = be8 d /\ lvt t = 8.
Proof. intros tb d t [= <-]. split; reflexivity. Qed.
Print Assumptions C01_double_ieee.

Theorem C01_objid_layout : forall tb t0 i t,
  enum_bijective tb = true -> valid_eval tb t0 -> (0 <= i <= 4194303)%Z ->
  enc_app tb (PObjId t0 i) = Ok t ->
  exists tn, (0 <= tn < 1024)%Z /\ objid_word tb t0 i = Ok (tn * 4194304 + i)%Z /\
             data t = be4 (Z.to_N (tn * 4194304 + i)) /\ lvt t = 4.
Proof.
  intros tb t0 i t B V I H. apply bind_ok_inv in H as (d & E & [= <-]).
  destruct (objid_roundtrip tb t0 i d B V I E) as (L & _ & tn & T & W & D). exists tn. auto.
Qed.
Print Assumptions C01_objid_layout.

Theorem C01_date_time_layout : forall tb a b c d t,
  enc_app tb (PDate a b c d) = Ok t \/ enc_app tb (PTime a b c d) = Ok t ->
  data t = [Z.to_N a; Z.to_N b; Z.to_N c; Z.to_N d] /\ lvt t = 4.
Proof.
  intros tb a b c d t. cbn [enc_app]. rewrite enc_tuple4_eq. destruct (_ && _ && _ && _); cbn [bind].
  - intros [[= <-]|[= <-]]; split; reflexivity.
  - intros [H|H]; discriminate.
Qed.
Print Assumptions C01_date_time_layout.

(* ---- Real: which doubles survive.  real_exact d says "narrowing then widening gives d back";
   every widened binary32 pattern that is not a NaN has this property (normal, zero, infinite and
   subnormal ones), so the class is exactly the binary32 values. *)
Theorem C01_real_rounding : forall p, p < 4294967296 -> b32_not_nan p = true ->
  round32 (widen32 p) = Ok p.
Proof. exact round32_widen32. Qed.
Print Assumptions C01_real_rounding.

(* ---- table obligation and its consequence for every enumeration class of the library *)
Theorem C01_enums_bijective : forallb (fun p => enum_bijective (snd p)) all_enums = true.
Proof. exact enums_bijective. Qed.
Print Assumptions C01_enums_bijective.

Theorem C01_enum_roundtrip_all : forall name tb v t,
  In (name, tb) all_enums -> valid_eval tb v ->
  enc_app tb (PEnum v) = Ok t -> dec_app tb 9 t = Ok (PEnum v).
Proof.
  intros name tb v t I. pose proof (proj1 (forallb_forall _ _) enums_bijective _ I) as B.
  exact (roundtrip_app tb (PEnum v) t B).
Qed.
Print Assumptions C01_enum_roundtrip_all.

(* ---- object life cycles (model PrimObj: one object that is encoded, decoded into, re-set through the
   public setters, copied, and encoded again).  The state of an object is its value; the
   correspondence check verifies after arbitrary histories that the implementation keeps nothing else. *)

(* whatever two histories did before: if the objects hold the same value now, an encode call shows the
   same octets (or the same refusal) — and leaves the value as it is *)
Theorem C01_encode_depends_on_value_only : forall tb otb maxi k s1 s2 h1 h2 o,
  is_encode o ->
  final tb otb maxi k s1 h1 = final tb otb maxi k s2 h2 ->
  fst (step tb otb maxi k (final tb otb maxi k s1 h1) o) = fst (step tb otb maxi k (final tb otb maxi k s2 h2) o) /\
  snd (step tb otb maxi k (final tb otb maxi k s1 h1) o) = final tb otb maxi k s1 h1.
Proof. intros tb otb maxi k s1 s2 h1 h2 o E H. split; [rewrite H; reflexivity|apply encode_keeps_state; left; exact E]. Qed.
Print Assumptions C01_encode_depends_on_value_only.

Theorem C01_encode_keeps_value : forall tb otb maxi k s o,
  is_encode o \/ o = OGetLong -> snd (step tb otb maxi k s o) = s.
Proof. exact encode_keeps_state. Qed.
Print Assumptions C01_encode_keeps_value.

(* the round trip holds at the end of every history, and decoding into a live object gives what a fresh
   one would hold, whatever it held before *)
Theorem C01_history_roundtrip : forall tb otb maxi k s0 h v t s',
  final tb otb maxi k s0 h = v ->
  enum_bijective tb = true -> prim_ok tb v -> enc_app tb v = Ok t ->
  fst (step tb otb maxi k v OEncApp) = ores zs (enc_octets_app tb v) /\
  step tb otb maxi (kind v) s' (ODecode t) = ([0%Z], v).
Proof.
  intros tb otb maxi k s0 h v t s' _ B V E. split; [reflexivity|].
  cbn [step]. rewrite (dec_into_fresh tb (kind v) t v (roundtrip_app tb v t B V E)). reflexivity.
Qed.
Print Assumptions C01_history_roundtrip.

(* ObjectIdentifier.set_long(w) on any object: the next encode emits the four octets of w *)
Theorem C01_objid_set_long_encode : forall tb otb maxi t0 i0 w,
  enum_bijective otb = true -> (0 <= w < 4294967296)%Z ->
  let s := snd (step tb otb maxi 12 (PObjId t0 i0) (OSetLong w)) in
  enc_app otb s = Ok (app_tag 12 (be4 (Z.to_N w))) /\
  fst (step tb otb maxi 12 s OGetLong) = [0%Z; w].
Proof. exact objid_set_long_encode. Qed.
Print Assumptions C01_objid_set_long_encode.

(* ---- a bit string comes back with exactly the bits that went in, for every length 0, 1, 2, ...: the decoder knows no
   class width (a named-bit subclass's bitLen) to pad or cut to *)
Theorem C01_bitstring_exact_length : forall tb l t, enc_app tb (PBits l) = Ok t ->
  dec_app tb 8 t = Ok (PBits l) /\
  (forall l', dec_app tb 8 t = Ok (PBits l') -> length l' = length l).
Proof.
  intros tb l t [= <-].
  assert (D : dec_app tb 8 (app_tag 8 (enc_bits l)) = Ok (PBits l)) by (dec_head; rewrite bits_roundtrip; reflexivity).
  split; [exact D|]. intros l' E. rewrite D in E. injection E as <-. reflexivity.
Qed.
Print Assumptions C01_bitstring_exact_length.

(* ---- Tag.app_to_object: the generic receiver, which picks the class from the tag NUMBER (model PrimDispatch).
   What an object of one of the thirteen base classes encodes comes back as the same value; base_table = the empty
   translate table for Enumerated, the stock object-type table for ObjectIdentifier. *)
Theorem C01_app_to_object_roundtrip : forall otb v t,
  enum_bijective otb = true -> prim_ok (base_table otb (kind v)) v ->
  enc_app (base_table otb (kind v)) v = Ok t -> app_to_object otb t = Ok (Some v).
Proof.
  intros otb v t B V E. rewrite (app_to_object_enc _ otb v t E).
  rewrite (roundtrip_app _ v t (base_table_bijective otb (kind v) B) V E). reflexivity.
Qed.
Print Assumptions C01_app_to_object_roundtrip.

(* every tag, not only produced ones: an object is built only for an application tag numbered 0..12 and is then of
   exactly the class that number names, decoded by that class's own decoder; 13..15 give no object; any other
   class / number is refused — no tag is ever answered with an object of another class *)
Theorem C01_app_to_object_class : forall otb t,
  match app_to_object otb t with
  | Ok (Some v) => cls t = 0 /\ num t < 13 /\ kind v = num t /\ dec_app (base_table otb (num t)) (num t) t = Ok v
  | Ok None => cls t = 0 /\ 13 <= num t < 16
  | Err e => cls t <> 0 \/ 16 <= num t \/ (num t < 13 /\ dec_app (base_table otb (num t)) (num t) t = Err e)
  end.
Proof. exact app_to_object_class. Qed.
Print Assumptions C01_app_to_object_class.

(* subclass values through the generic receiver: the number on the wire is the number the name stands for *)
Theorem C01_app_to_object_enum_number : forall tb otb e t,
  enum_bijective tb = true -> valid_eval tb e -> enc_app tb (PEnum e) = Ok t ->
  exists n, n < 4294967296 /\ eval_num tb e = Ok (Z.of_N n) /\
            app_to_object otb t = Ok (Some (PEnum (ENum (Z.of_N n)))).
Proof. exact app_to_object_enum_number. Qed.
Print Assumptions C01_app_to_object_enum_number.

Theorem C01_app_to_object_objid_number : forall tb otb ty i t,
  enum_bijective tb = true -> valid_eval tb ty -> (0 <= i <= 4194303)%Z ->
  enc_app tb (PObjId ty i) = Ok t ->
  exists tn, tn < 1024 /\ objid_word tb ty i = Ok (Z.of_N tn * 4194304 + i)%Z /\
             app_to_object otb t = Ok (Some (PObjId (eval_of_num otb tn) i)).
Proof. exact app_to_object_objid_number. Qed.
Print Assumptions C01_app_to_object_objid_number.

(* down to the octets (with C02's tag round trip) *)
Theorem C01_wire_to_object_roundtrip : forall otb v t bs rest,
  enum_bijective otb = true -> prim_ok (base_table otb (kind v)) v ->
  enc_app (base_table otb (kind v)) v = Ok t -> bytes_ok (data t) = true -> lvt t < 4294967296 ->
  enc_tag t = Ok bs ->
  wire_to_object otb (bs ++ rest) = Ok (Some v, rest).
Proof.
  intros otb v t bs rest B V E Bs L T. unfold wire_to_object.
  rewrite (enc_app_wire _ v t bs rest E Bs L T). cbn [bind]. rewrite (C01_app_to_object_roundtrip otb v t B V E). reflexivity.
Qed.
Print Assumptions C01_wire_to_object_roundtrip.

(* ---- non-vacuity: the hypotheses are satisfiable and the conclusions are about real encodings *)
Example C01_ex_values :
  map (enc_octets_app E_basetypes_SecurityLevel)
      [PUnsigned 256; PInteger (-129); PBool true; PBits [true; false; true];
       PEnum (EName "encryptedEndToEnd"); PReal 4607182418800017408; PDate 124 2 29 4]
  = [Ok [34; 1; 0]; Ok [50; 255; 127]; Ok [17]; Ok [130; 5; 160]; Ok [145; 5];
     Ok [68; 63; 128; 0; 0]; Ok [164; 124; 2; 29; 4]].
Proof. vm_compute. reflexivity. Qed.
Example C01_ex_refusals :
  map (enc_app []) [PUnsigned 4294967296; PInteger 2147483648; PInteger 4294967301;
                    PInteger (-2147483649); PObjId (ENum 1024) 3; PDate 256 1 1 1;
                    PReal 5183643171103440896 (* 1e39 *)]
  = [Err StructErr; Err ValueErr; Err ValueErr; Err ValueErr; Err StructErr; Err ValueErr; Err OverflowErr].
Proof. vm_compute. reflexivity. Qed.
Example C01_ex_prim_ok :
  prim_ok objid_type_table (PObjId (EName "device") 4194303) /\
  prim_ok E_basetypes_SecurityLevel (PEnum (ENum 77)) /\
  prim_ok [] (PChars 4 [216; 61; 222; 0]) /\
  prim_ok [] (PReal 4591870180174331904) (* the binary32 nearest to 0.1, widened *).
Proof.
  split; [split; [vm_compute; congruence | cbn; lia]|].
  split; [split; [lia | vm_compute; reflexivity]|].
  split; [vm_compute; reflexivity|].
  split; [reflexivity|]. exists 1036831949. split; vm_compute; reflexivity.
Qed.
Example C01_ex_wire_ctx :
  dec_octets_ctx objid_type_table 12 [44; 2; 0; 0; 5; 99] (* context 2, device:5, one octet follows *)
  = Ok (PObjId (EName "device") 5, [99]).
Proof. vm_compute. reflexivity. Qed.
(* a life cycle: encode, set_tuple to another identifier, encode again — the second encode shows the new word;
   then a UCS-2 string decoded into an object that held ASCII text is re-emitted with its own octets *)
Example C01_ex_history_objid :
  run objid_type_table objid_type_table objid_max_instance 12 (PObjId (EName "loadControl") 1961578)
      [OEncApp; OSetTuple (ENum 8) 5; OEncApp]
  = ([1; 0; 196; 7; 29; 238; 106]%Z ++ canon_prim (PObjId (EName "loadControl") 1961578) ++
     [6; 0]%Z ++ canon_prim (PObjId (EName "device") 5) ++
     [1; 0; 196; 2; 0; 0; 5]%Z ++ canon_prim (PObjId (EName "device") 5))%list.
Proof. vm_compute. reflexivity. Qed.
Example C01_ex_history_chars :
  run [] objid_type_table objid_max_instance 7 (PChars 0 [65; 66])
      [OEncApp; ODecode (mkTag 0 7 3 [4; 0; 233]); OEncCtx 1]
  = ([1; 0; 115; 0; 65; 66]%Z ++ canon_prim (PChars 0 [65; 66]) ++
     [3; 0]%Z ++ canon_prim (PChars 4 [0; 233]) ++
     [2; 0; 27; 4; 0; 233]%Z ++ canon_prim (PChars 4 [0; 233]))%list.
Proof. vm_compute. reflexivity. Qed.
(* the same four octets under two object-type tables (stock, and a vendor extension naming type 128): each class
   answers from its own table only *)
Example C01_ex_vendor_table :
  dec_app objid_type_table 12 (mkTag 0 12 4 [32; 0; 0; 2]) = Ok (PObjId (ENum 128) 2) /\
  dec_app (("vendorMeter", 128) :: objid_type_table) 12 (mkTag 0 12 4 [32; 0; 0; 2]) = Ok (PObjId (EName "vendorMeter") 2) /\
  enc_app (("vendorMeter", 128) :: objid_type_table) (PObjId (EName "vendorMeter") 2) = Ok (mkTag 0 12 4 [32; 0; 0; 2]).
Proof. vm_compute. repeat split. Qed.
Example C01_ex_short_bits :
  dec_octets_app [] 8 [129; 0] = Ok (PBits [], []) /\ dec_octets_app [] 8 [130; 6; 64] = Ok (PBits [false; true], []).
Proof. vm_compute. split; reflexivity. Qed.
(* the generic receiver: device:5 from its octets with one octet left over; a SecurityLevel name arrives as its number;
   a vendor object type arrives as the bare number; slots 13..15 give no object; 16 and a context tag are refused *)
Example C01_ex_app_to_object :
  wire_to_object objid_type_table [196; 2; 0; 0; 5; 99] = Ok (Some (PObjId (EName "device") 5), [99]) /\
  (do t <- enc_app E_basetypes_SecurityLevel (PEnum (EName "encryptedEndToEnd")); app_to_object objid_type_table t)
    = Ok (Some (PEnum (ENum 5))) /\
  (do t <- enc_app (("vendorMeter", 128) :: objid_type_table) (PObjId (EName "vendorMeter") 2); app_to_object objid_type_table t)
    = Ok (Some (PObjId (ENum 128) 2)) /\
  app_to_object [] (mkTag 0 13 0 []) = Ok None /\ app_to_object [] (mkTag 0 16 0 []) = Err IndexErr /\
  app_to_object [] (mkTag 1 2 1 [3]) = Err ValueErr /\ app_to_object [] (mkTag 0 2 0 []) = Err InvalidTag.
Proof. vm_compute. repeat split. Qed.
