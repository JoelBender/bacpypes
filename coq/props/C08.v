(* C08 — Network-layer headers and messages encode and decode faithfully.
   Property theorems only; proofs live in Bac.NpciFacts / Bac.NpciMsgFacts, the model in Bac.Npci. *)
From Bac Require Import Base Npci NpciFacts NpciMsgFacts NpciSound NpciBodyFacts NpciRegistry NpciReenc.
From Bac Require Import NpciRt NpciGenFacts NpciGenEnc NpciGenDec NpciGen.
From BacGen Require Import NpduRegistry NpciFns.
Open Scope N_scope.

(* every well-formed header (version 1, priority < 4, nets < 65535, MACs of 1..255 octets, hop count
   present iff DADR present, vendor id present iff message type >= 0x80) followed by any payload
   decodes back to the same fields, the same control octet and the same payload *)
Theorem C08_roundtrip : forall h payload, wf_npci h = true ->
  exists bs, enc_npci h = Ok bs /\ dec_npci (bs ++ payload) = Ok (control_of h, h, payload).
Proof. exact npci_roundtrip. Qed.
Print Assumptions C08_roundtrip.

(* the octets are exactly the clause 6.2 layout (spec6_2 is written from the standard, not from the code) *)
Theorem C08_layout : forall h, wf_npci h = true -> enc_npci h = Ok (spec6_2 h).
Proof. exact enc_npci_spec. Qed.
Print Assumptions C08_layout.

(* ... and they are octets *)
Theorem C08_layout_octets : forall h bs, wf_npci h = true -> enc_npci h = Ok bs -> bytes_ok bs = true.
Proof. exact enc_npci_bytes_ok. Qed.
Print Assumptions C08_layout_octets.

(* any buffer that does not start with version octet 1 (including the empty one) is refused *)
Theorem C08_refuses_version : forall bs, (forall r, bs <> 1 :: r) -> dec_npci bs = Err DecodingError.
Proof. exact dec_npci_version. Qed.
Print Assumptions C08_refuses_version.

(* a header whose source is a broadcast (SNET = 0xFFFF) or has no octets (SLEN = 0): the encoder lays it
   out per clause 6.2 and the decoder refuses it, whatever else the header and the payload contain *)
Theorem C08_refuses_bad_sadr : forall h net mac payload,
  wf_npci (with_sadr h None) = true -> net < 65536 -> lenN mac < 256 -> (net = 65535 \/ mac = []) ->
  exists bs, enc_npci (with_sadr h (Some (RStation net mac))) = Ok bs
    /\ bs = spec6_2 (with_sadr h (Some (RStation net mac)))
    /\ dec_npci (bs ++ payload) = Err DecodingError.
Proof. exact npci_bad_sadr. Qed.
Print Assumptions C08_refuses_bad_sadr.

(* whatever octets are decoded successfully, the source is absent or a station with SNET <> 0xFFFF and
   a non-empty MAC: a broadcast or zero-length source is never returned *)
Theorem C08_source_never_broadcast : forall bs c h r, dec_npci bs = Ok (c, h, r) -> src_ok (sadr h).
Proof.
  intros bs c h r H. destruct (dec_npci_ok_inv _ _ _ _ H) as (r2 & d & r3 & s & r4 & hp & r5 & mv & _ & _ & E4 & _ & _ & ->).
  cbn [sadr]. destruct (dec_opt_inv _ _ _ _ _ E4) as [(_ & a & -> & E)|(_ & -> & _)]; [|exact I].
  exact (dec_sadr_ok _ _ _ E).
Qed.
Print Assumptions C08_source_never_broadcast.

(* every strict prefix of an encoded header is refused with DecodingError *)
Theorem C08_refuses_truncated : forall h bs k, wf_npci h = true -> enc_npci h = Ok bs ->
  (k < length bs)%nat -> dec_npci (firstn k bs) = Err DecodingError.
Proof. exact npci_truncated_enc. Qed.
Print Assumptions C08_refuses_truncated.

(* the decoder has no other way to fail: on arbitrary octets the only error is DecodingError *)
Theorem C08_decode_error_class : forall bs e, dec_npci bs = Err e -> e = DecodingError.
Proof. exact (proj2 dec_npci_reader). Qed.
Print Assumptions C08_decode_error_class.

(* no misreading: whatever octets the decoder accepts (reserved control bits 6 and 4 clear, and DLEN = 0
   when DNET = 0xFFFF — the two places where clause 6.2 leaves non-canonical input possible) are exactly
   the clause 6.2 layout of the fields it returns followed by the payload it returns, and those fields
   are well-formed; so decoding is the inverse of the layout, not merely a left inverse of the encoder *)
Theorem C08_decode_sound : forall bs c h r,
  bytes_ok bs = true -> dec_npci bs = Ok (c, h, r) ->
  N.land c 0x50 = 0 -> (dadr h = Some GBroadcast -> nth 4 bs 0 = 0) ->
  wf_npci h = true /\ spec_control h = c /\ bs = spec6_2 h ++ r.
Proof. exact dec_npci_sound. Qed.
Print Assumptions C08_decode_sound.

(* the twelve messages: parameters round-trip (networks < 65536, octets < 256, lists of any
   length, tables of < 256 entries with port-info of < 256 octets) *)
Theorem C08_msg_roundtrip_who_is_router : forall net, wf_msg (WhoIsRouter net) = true ->
  exists bs, enc_msg (WhoIsRouter net) = Ok bs /\ dec_msg 0x00 bs = Ok (WhoIsRouter net, []).
Proof. exact (fun net => msg_roundtrip (WhoIsRouter net)). Qed.
Print Assumptions C08_msg_roundtrip_who_is_router.

Theorem C08_msg_roundtrip_i_am_router : forall nets, wf_nets nets = true ->
  exists bs, enc_msg (IAmRouter nets) = Ok bs /\ dec_msg 0x01 bs = Ok (IAmRouter nets, []).
Proof. exact (fun nets => msg_roundtrip (IAmRouter nets)). Qed.
Print Assumptions C08_msg_roundtrip_i_am_router.

Theorem C08_msg_roundtrip_i_could_be_router : forall net perf, (net <? 65536) && (perf <? 256) = true ->
  exists bs, enc_msg (ICouldBeRouter net perf) = Ok bs /\ dec_msg 0x02 bs = Ok (ICouldBeRouter net perf, []).
Proof. exact (fun net perf => msg_roundtrip (ICouldBeRouter net perf)). Qed.
Print Assumptions C08_msg_roundtrip_i_could_be_router.

Theorem C08_msg_roundtrip_reject_message : forall reason dnet, (reason <? 256) && (dnet <? 65536) = true ->
  exists bs, enc_msg (RejectMessage reason dnet) = Ok bs /\ dec_msg 0x03 bs = Ok (RejectMessage reason dnet, []).
Proof. exact (fun reason dnet => msg_roundtrip (RejectMessage reason dnet)). Qed.
Print Assumptions C08_msg_roundtrip_reject_message.

Theorem C08_msg_roundtrip_router_busy : forall nets, wf_nets nets = true ->
  exists bs, enc_msg (RouterBusy nets) = Ok bs /\ dec_msg 0x04 bs = Ok (RouterBusy nets, []).
Proof. exact (fun nets => msg_roundtrip (RouterBusy nets)). Qed.
Print Assumptions C08_msg_roundtrip_router_busy.

Theorem C08_msg_roundtrip_router_available : forall nets, wf_nets nets = true ->
  exists bs, enc_msg (RouterAvailable nets) = Ok bs /\ dec_msg 0x05 bs = Ok (RouterAvailable nets, []).
Proof. exact (fun nets => msg_roundtrip (RouterAvailable nets)). Qed.
Print Assumptions C08_msg_roundtrip_router_available.

Theorem C08_msg_roundtrip_initialize_routing_table : forall tbl, wf_table tbl = true ->
  exists bs, enc_msg (InitRT tbl) = Ok bs /\ dec_msg 0x06 bs = Ok (InitRT tbl, []).
Proof. exact (fun tbl => msg_roundtrip (InitRT tbl)). Qed.
Print Assumptions C08_msg_roundtrip_initialize_routing_table.

Theorem C08_msg_roundtrip_initialize_routing_table_ack : forall tbl, wf_table tbl = true ->
  exists bs, enc_msg (InitRTAck tbl) = Ok bs /\ dec_msg 0x07 bs = Ok (InitRTAck tbl, []).
Proof. exact (fun tbl => msg_roundtrip (InitRTAck tbl)). Qed.
Print Assumptions C08_msg_roundtrip_initialize_routing_table_ack.

Theorem C08_msg_roundtrip_establish_connection : forall dnet term, (dnet <? 65536) && (term <? 256) = true ->
  exists bs, enc_msg (EstablishConn dnet term) = Ok bs /\ dec_msg 0x08 bs = Ok (EstablishConn dnet term, []).
Proof. exact (fun dnet term => msg_roundtrip (EstablishConn dnet term)). Qed.
Print Assumptions C08_msg_roundtrip_establish_connection.

Theorem C08_msg_roundtrip_disconnect_connection : forall dnet, (dnet <? 65536) = true ->
  exists bs, enc_msg (DisconnectConn dnet) = Ok bs /\ dec_msg 0x09 bs = Ok (DisconnectConn dnet, []).
Proof. exact (fun dnet => msg_roundtrip (DisconnectConn dnet)). Qed.
Print Assumptions C08_msg_roundtrip_disconnect_connection.

Theorem C08_msg_roundtrip_what_is_network_number :
  exists bs, enc_msg WhatIsNetNum = Ok bs /\ dec_msg 0x12 bs = Ok (WhatIsNetNum, []).
Proof. exact (msg_roundtrip WhatIsNetNum eq_refl). Qed.
Print Assumptions C08_msg_roundtrip_what_is_network_number.

Theorem C08_msg_roundtrip_network_number_is : forall net flag, (net <? 65536) && (flag <? 256) = true ->
  exists bs, enc_msg (NetNumIs net flag) = Ok bs /\ dec_msg 0x13 bs = Ok (NetNumIs net flag, []).
Proof. exact (fun net flag => msg_roundtrip (NetNumIs net flag)). Qed.
Print Assumptions C08_msg_roundtrip_network_number_is.

(* whole frames: message.encode + NPDU.encode, then NPDU.decode + dispatch through the registry, under
   any well-formed header: same header fields, same message, nothing left over *)
Theorem C08_frame_roundtrip : forall h m,
  wf_npci (with_msg h (msg_type m)) = true -> wf_msg m = true ->
  exists bs, enc_frame h m = Ok bs
    /\ dec_frame bs = Ok (control_of (with_msg h (msg_type m)), with_msg h (msg_type m), m, []).
Proof. exact frame_roundtrip. Qed.
Print Assumptions C08_frame_roundtrip.

(* the registry: a type code has a decoder exactly when it is one of the twelve codes; a decoder
   returns the message class of its own code; registered decoders fail only with DecodingError *)
Theorem C08_registry :
  (forall t, In t registered_types <-> forall bs, dec_msg t bs <> Err KeyErr)
  /\ (forall t bs, ~ In t registered_types -> dec_msg t bs = Err KeyErr)
  /\ (forall m, In (msg_type m) registered_types)
  /\ (forall t bs m r, dec_msg t bs = Ok (m, r) -> msg_type m = t)
  /\ (forall t bs e, In t registered_types -> dec_msg t bs = Err e -> e = DecodingError)
  /\ NoDup registered_types /\ length registered_types = 12%nat.
Proof.
  exact (conj registry (conj dec_msg_unregistered (conj msg_type_registered (conj dec_msg_type
        (conj (fun t bs e H => dec_msg_registered t H bs e) registered_nodup))))).
Qed.
Print Assumptions C08_registry.

(* the registry as translated from the working tree (coq/gen/NpduRegistry.v = npdu.npdu_types, written by
   translator/gen_npdu.py on every run): it is the model's table, the model's dispatch has a decoder exactly
   for its keys, and the decoder under key t builds the class the table has under t *)
Theorem C08_registry_translated :
  npdu_types = model_registry
  /\ (forall t, In t (map fst npdu_types) <-> forall bs, dec_msg t bs <> Err KeyErr)
  /\ (forall t bs, ~ In t (map fst npdu_types) -> dec_msg t bs = Err KeyErr)
  /\ (forall t bs m r, dec_msg t bs = Ok (m, r) -> In (t, msg_class_name m) npdu_types)
  /\ NoDup (map fst npdu_types) /\ NoDup (map snd npdu_types).
Proof.
  exact (conj registry_table_exact (conj registry_dispatch (conj registry_unregistered
        (conj registry_class registry_nodup)))).
Qed.
Print Assumptions C08_registry_translated.

(* message bodies cut short.
   Fixed-layout messages — I-Could-Be-Router (3 octets), Reject-Message (3), Establish-Connection (3),
   Disconnect-Connection (2), Network-Number-Is (3), Initialize-Routing-Table and its Ack (count octet +
   entries; What-Is-Network-Number has an empty body and no proper prefix): EVERY proper prefix of the
   encoded body is refused with DecodingError — in particular a routing table is never returned shorter *)
Theorem C08_msg_truncated_fixed : forall m bs k,
  wf_msg m = true -> fixed_msg m = true -> enc_msg m = Ok bs -> (k < length bs)%nat ->
  dec_msg (msg_type m) (firstn k bs) = Err DecodingError.
Proof. exact msg_truncated_fixed. Qed.
Print Assumptions C08_msg_truncated_fixed.

(* network lists — I-Am-Router (1), Router-Busy (4), Router-Available (5), body = 2 octets per network:
   the first k octets decode to the first k/2 networks exactly when k is even (the cut falls on an element
   boundary) and are refused with DecodingError when k is odd *)
Theorem C08_msg_truncated_nets : forall t c l k,
  nets_ctor t = Some c -> wf_nets l = true -> (k <= length (put_nets l))%nat ->
  dec_msg t (firstn k (put_nets l))
  = if Nat.even k then Ok (c (firstn (Nat.div2 k) l), []) else Err DecodingError.
Proof.
  intros t c l k Hc Hl Hk. rewrite put_nets_length in Hk.
  rewrite (dec_msg_nets t c _ Hc), (dec_nets_prefix l Hl k Hk).
  destruct (Nat.even k); reflexivity.
Qed.
Print Assumptions C08_msg_truncated_nets.

(* Who-Is-Router (0): the network is optional — an empty body is the form without network, one octet is
   refused, two or more octets give the network and leave the rest; so of the two proper prefixes of an
   encoded network the empty one decodes to "no network" and the 1-octet one is refused, and trailing
   octets are left in the buffer *)
Theorem C08_msg_who_is_router_shapes :
  dec_msg 0 [] = Ok (WhoIsRouter None, [])
  /\ (forall a, dec_msg 0 [a] = Err DecodingError)
  /\ (forall a b x, dec_msg 0 (a :: b :: x) = Ok (WhoIsRouter (Some (a * 256 + b)), x))
  /\ (forall n, n < 65536 ->
        enc_msg (WhoIsRouter (Some n)) = Ok (put_short n)
        /\ dec_msg 0 (firstn 0 (put_short n)) = Ok (WhoIsRouter None, [])
        /\ dec_msg 0 (firstn 1 (put_short n)) = Err DecodingError
        /\ forall x, dec_msg 0 (put_short n ++ x) = Ok (WhoIsRouter (Some n), x)).
Proof.
  exact (conj (proj1 who_is_shapes) (conj (proj1 (proj2 who_is_shapes))
        (conj (proj2 (proj2 who_is_shapes)) who_is_truncated_trailing))).
Qed.
Print Assumptions C08_msg_who_is_router_shapes.

(* trailing octets.  After a fixed-layout message they are left untouched in npdu.pduData ... *)
Theorem C08_msg_trailing_fixed : forall m, wf_msg m = true -> fixed_msg m = true ->
  exists bs, enc_msg m = Ok bs /\ forall x, dec_msg (msg_type m) (bs ++ x) = Ok (m, x).
Proof. exact msg_trailing_fixed. Qed.
Print Assumptions C08_msg_trailing_fixed.

(* ... after a network list they are read as further networks (the decoder consumes the whole buffer):
   the result is the list extended by what the extra octets decode to, or DecodingError if those are odd *)
Theorem C08_msg_trailing_nets : forall t c l x, nets_ctor t = Some c -> wf_nets l = true ->
  enc_msg (c l) = Ok (put_nets l)
  /\ dec_msg t (put_nets l ++ x) = do l' <- dec_nets x; Ok (c (l ++ l'), []).
Proof.
  intros t c l x Hc Hl. split.
  - destruct (nets_ctor_inv t c Hc) as [[_ ->]|[[_ ->]|[_ ->]]]; reflexivity.
  - rewrite (dec_msg_nets t c _ Hc), dec_nets_app by exact Hl.
    destruct (dec_nets x); reflexivity.
Qed.
Print Assumptions C08_msg_trailing_nets.

(* decoding is a function of the octets alone: in any two histories of operations (decodes of any
   message class, header decodes, encodes) the same operation gives the same result, namely the result it
   gives on its own.  Trivial here (run_history is a map) — the content is that the implementation is
   compared with THIS on multi-message histories in one process (harness kind `history`) *)
Theorem C08_decode_history_independent : forall before before' after o,
  nth (length before) (run_history (before ++ o :: after)) (run_op o) = run_op o
  /\ nth (length before) (run_history (before ++ o :: after)) (run_op o)
     = nth (length before') (run_history (before' ++ o :: [])) (run_op o).
Proof.
  intros before before' after o.
  assert (A : forall b a, nth (length b) (run_history (b ++ o :: a)) (run_op o) = run_op o).
  { intros b a. unfold run_history. rewrite map_app. cbn [map].
    rewrite app_nth2; rewrite map_length; [|lia]. rewrite Nat.sub_diag. reflexivity. }
  split; [apply A|]. rewrite !A. reflexivity.
Qed.
Print Assumptions C08_decode_history_independent.

(* reserved control bits.  For EVERY header value (no well-formedness assumed, any priority, any stored
   history): whatever NPCI.encode / NPDU.encode write starts with the version and the control octet control_of h,
   and bits 6 and 4 of that octet are clear (clause 6.2.2) *)
Theorem C08_encode_reserved_bits_clear : forall h payload bs, enc_npdu h payload = Ok bs ->
  exists rest, bs = ver h :: control_of h :: rest /\ N.land (control_of h) 0x50 = 0.
Proof. exact enc_npdu_control. Qed.
Print Assumptions C08_encode_reserved_bits_clear.

(* decode any octets, then encode the same object again: always succeeds and gives the canonical clause 6.2
   frame of the decoded fields followed by the decoded payload; its control octet is the received one with
   bits 6 and 4 cleared; and that frame decodes to the same fields *)
Theorem C08_reencode_canonical : forall bs c h r, bytes_ok bs = true -> dec_npci bs = Ok (c, h, r) ->
  reenc bs = Ok (spec6_2 h ++ r)
  /\ spec_control h = N.land c 0xAF
  /\ dec_npci (spec6_2 h ++ r) = Ok (N.land c 0xAF, h, r).
Proof.
  intros bs c h r Hb H. destruct (dec_npci_wf bs c h r Hb H) as (W & C & _).
  split; [|split; [exact C|]].
  - unfold reenc. rewrite H. cbn [bind snd]. unfold enc_npdu. rewrite enc_npci_spec by exact W. reflexivity.
  - rewrite dec_npci_spec by exact W. rewrite C. reflexivity.
Qed.
Print Assumptions C08_reencode_canonical.

(* fields decoded from octets are always well-formed (so every theorem above applies to them) *)
Theorem C08_decoded_fields_wf : forall bs c h r, bytes_ok bs = true -> dec_npci bs = Ok (c, h, r) ->
  wf_npci h = true /\ spec_control h = N.land c 0xAF /\ c < 256.
Proof. exact dec_npci_wf. Qed.
Print Assumptions C08_decoded_fields_wf.

(* the tie by TRANSLATION.  BacGen.NpciFns is regenerated from py34/bacpypes/npdu.py on every run
   (translator/gen_npcifns.py: the bodies of NPCI.encode/decode, NPDU.encode/decode and the encode/decode
   methods of the twelve message classes, statement by statement).  The translated methods are, for all
   inputs, the hand model the theorems above are about ... *)

(* NPCI.encode on arbitrary objects: the octets appended to the PDU are enc_npci of the object's fields (or
   the same exception), the control octet is stored in npduControl, expecting-reply / priority are passed down *)
Theorem C08_translated_npci_encode_is_model : forall o p,
  NPCI_encode o p =
  do b <- enc_npci (npci_of o);
  Ok (set_npduControl (Some (control_of (npci_of o))) o,
      set_pduNetworkPriority (pduNetworkPriority o) (set_pduExpectingReply (pduExpectingReply o) (app_data b p))).
Proof. exact NPCI_encode_is_model. Qed.
Print Assumptions C08_translated_npci_encode_is_model.

(* NPCI.decode on arbitrary objects and buffers: dec_npci of the buffer; the raw control octet is stored; a
   field the frame does not carry keeps the value the object had *)
Theorem C08_translated_npci_decode_is_model : forall o p,
  NPCI_decode o p = do (ch, r) <- dec_npci (pduData p); Ok (obj_after o (fst ch) (snd ch), set_pduData r p).
Proof. exact NPCI_decode_is_model. Qed.
Print Assumptions C08_translated_npci_decode_is_model.

Theorem C08_translated_npdu_is_model :
  (forall h payload, gen_enc_npdu h payload = enc_npdu h payload) /\ (forall bs, gen_dec_npdu bs = dec_npdu bs).
Proof. exact (conj gen_enc_npdu_is_model gen_dec_npdu_is_model). Qed.
Print Assumptions C08_translated_npdu_is_model.

Theorem C08_translated_header_is_model :
  (forall h, gen_enc_npci h = enc_npci h) /\ (forall bs, gen_dec_npci bs = dec_npci bs).
Proof. exact (conj gen_enc_npci_is_model gen_dec_npci_is_model). Qed.
Print Assumptions C08_translated_header_is_model.

(* the twelve message classes: every translated encode is enc_msg, every translated decode (dispatched on
   the translated messageType constants) is dec_msg, on every parameter value / every octet string *)
Theorem C08_translated_msg_is_model :
  (forall m, gen_enc_msg m = enc_msg m) /\ (forall t bs, gen_dec_msg t bs = dec_msg t bs).
Proof. exact (conj gen_enc_msg_is_model gen_dec_msg_is_model). Qed.
Print Assumptions C08_translated_msg_is_model.

Theorem C08_translated_frame_is_model :
  (forall h m, gen_enc_frame h m = enc_frame h m) /\ (forall bs, gen_dec_frame bs = dec_frame bs).
Proof. exact (conj gen_enc_frame_is_model gen_dec_frame_is_model). Qed.
Print Assumptions C08_translated_frame_is_model.

(* ... so the main facts hold of the code as translated now: *)
Theorem C08_translated_roundtrip : forall h payload, wf_npci h = true ->
  exists bs, gen_enc_npci h = Ok bs /\ gen_dec_npci (bs ++ payload) = Ok (control_of h, h, payload).
Proof. exact gen_npci_roundtrip. Qed.
Print Assumptions C08_translated_roundtrip.

Theorem C08_translated_layout : forall h, wf_npci h = true -> gen_enc_npci h = Ok (spec6_2 h).
Proof. intros h. rewrite gen_enc_npci_is_model. apply enc_npci_spec. Qed.
Print Assumptions C08_translated_layout.

Theorem C08_translated_refuses_version : forall bs, (forall r, bs <> 1 :: r) -> gen_dec_npci bs = Err DecodingError.
Proof. intros bs. rewrite gen_dec_npci_is_model. apply dec_npci_version. Qed.
Print Assumptions C08_translated_refuses_version.

Theorem C08_translated_refuses_bad_sadr : forall h net mac payload,
  wf_npci (with_sadr h None) = true -> net < 65536 -> lenN mac < 256 -> (net = 65535 \/ mac = []) ->
  exists bs, gen_enc_npci (with_sadr h (Some (RStation net mac))) = Ok bs
    /\ bs = spec6_2 (with_sadr h (Some (RStation net mac)))
    /\ gen_dec_npci (bs ++ payload) = Err DecodingError.
Proof.
  intros h net mac payload. rewrite gen_enc_npci_is_model. setoid_rewrite gen_dec_npci_is_model. apply npci_bad_sadr.
Qed.
Print Assumptions C08_translated_refuses_bad_sadr.

Theorem C08_translated_refuses_truncated : forall h bs k, wf_npci h = true -> gen_enc_npci h = Ok bs ->
  (k < length bs)%nat -> gen_dec_npci (firstn k bs) = Err DecodingError.
Proof. intros h bs k. rewrite gen_enc_npci_is_model, gen_dec_npci_is_model. apply npci_truncated_enc. Qed.
Print Assumptions C08_translated_refuses_truncated.

Theorem C08_translated_decode_error_class : forall bs e, gen_dec_npci bs = Err e -> e = DecodingError.
Proof. intros bs e. rewrite gen_dec_npci_is_model. apply (proj2 dec_npci_reader). Qed.
Print Assumptions C08_translated_decode_error_class.

Theorem C08_translated_msg_roundtrip : forall m, wf_msg m = true ->
  exists bs, gen_enc_msg m = Ok bs /\ gen_dec_msg (msg_type m) bs = Ok (m, []).
Proof. intros m. rewrite gen_enc_msg_is_model. setoid_rewrite gen_dec_msg_is_model. apply msg_roundtrip. Qed.
Print Assumptions C08_translated_msg_roundtrip.

Theorem C08_translated_frame_roundtrip : forall h m,
  wf_npci (with_msg h (msg_type m)) = true -> wf_msg m = true ->
  exists bs, gen_enc_frame h m = Ok bs
    /\ gen_dec_frame bs = Ok (control_of (with_msg h (msg_type m)), with_msg h (msg_type m), m, []).
Proof. exact gen_frame_roundtrip. Qed.
Print Assumptions C08_translated_frame_roundtrip.

Theorem C08_translated_unregistered : forall t bs, ~ In t registered_types -> gen_dec_msg t bs = Err KeyErr.
Proof. intros t bs. rewrite gen_dec_msg_is_model. apply dec_msg_unregistered. Qed.
Print Assumptions C08_translated_unregistered.

(* non-vacuity: the hypotheses are satisfiable, with every optional field exercised *)
Example C08_wf_examples :
  forallb wf_npci
    [ mkNpci 1 false 0 None None None None None;
      mkNpci 1 true 3 (Some (RStation 5 [1;2;3])) (Some (RStation 7 [9])) (Some 255) None None;
      mkNpci 1 false 2 (Some GBroadcast) None (Some 254) (Some 0x13) None;
      mkNpci 1 true 1 (Some (RBroadcast 65534)) (Some (RStation 0 [1;2;3;4;5;6])) (Some 0) (Some 0x80) (Some 65535);
      mkNpci 1 false 0 (Some (RStation 1 (repeat 7 255))) None (Some 1) (Some 0xFF) (Some 260) ] = true.
Proof. vm_compute. reflexivity. Qed.

Example C08_roundtrip_example :
  enc_npdu (mkNpci 1 true 3 (Some (RStation 5 [1;2;3])) (Some (RStation 7 [9])) (Some 255) None None) [1;2]
    = Ok [1; 0x2F; 0; 5; 3; 1; 2; 3; 0; 7; 1; 9; 255; 1; 2]
  /\ dec_npci [1; 0x2F; 0; 5; 3; 1; 2; 3; 0; 7; 1; 9; 255; 1; 2]
    = Ok (0x2F, mkNpci 1 true 3 (Some (RStation 5 [1;2;3])) (Some (RStation 7 [9])) (Some 255) None None, [1;2]).
Proof. vm_compute. split; reflexivity. Qed.

Example C08_refusal_examples :
  dec_npci [2; 0] = Err DecodingError                         (* version 2 *)
  /\ dec_npci [1; 8; 255; 255; 1; 1] = Err DecodingError      (* SNET = 0xFFFF *)
  /\ dec_npci [1; 8; 0; 5; 0] = Err DecodingError             (* SLEN = 0 *)
  /\ dec_npci [1; 0x20; 0; 5; 1; 9] = Err DecodingError       (* hop count missing *)
  /\ wf_npci (with_sadr (mkNpci 1 false 0 None None None None None) None) = true.
Proof. vm_compute. repeat split; reflexivity. Qed.

Example C08_msg_examples :
  forallb wf_msg
    [ WhoIsRouter None; WhoIsRouter (Some 65535); IAmRouter [1;2;65535]; ICouldBeRouter 5 255;
      RejectMessage 3 7; RouterBusy []; RouterAvailable [0];
      InitRT [mkRte 5 1 [1;2]; mkRte 65535 255 (repeat 0 255)]; InitRTAck [];
      EstablishConn 5 255; DisconnectConn 0; WhatIsNetNum; NetNumIs 65535 1 ] = true
  /\ enc_frame (mkNpci 1 false 0 None None None None None) (InitRT [mkRte 5 1 [1;2]])
     = Ok [1; 0x80; 6; 1; 0; 5; 1; 2; 1; 2]
  /\ dec_frame [1; 0x80; 6; 1; 0; 5; 1; 2; 1; 2]
     = Ok (0x80, mkNpci 1 false 0 None None None (Some 6) None, InitRT [mkRte 5 1 [1;2]], []).
Proof. vm_compute. repeat split; reflexivity. Qed.

Example C08_body_examples :
  fixed_msg (InitRT [mkRte 5 1 [1;2]; mkRte 6 2 []]) = true
  /\ enc_msg (InitRT [mkRte 5 1 [1;2]; mkRte 6 2 []]) = Ok [2; 0; 5; 1; 2; 1; 2; 0; 6; 2; 0]
  /\ dec_msg 6 [2; 0; 5; 1; 2; 1; 2; 0; 6; 2] = Err DecodingError          (* last octet missing *)
  /\ dec_msg 6 [2; 0; 5; 1; 2; 1; 2] = Err DecodingError                   (* second entry missing *)
  /\ dec_msg 6 [2; 0; 5; 1; 2; 1; 2; 0; 6; 2; 0; 9] = Ok (InitRT [mkRte 5 1 [1;2]; mkRte 6 2 []], [9])
  /\ nets_ctor 5 = Some RouterAvailable
  /\ dec_msg 5 (firstn 4 (put_nets [1; 2; 3])) = Ok (RouterAvailable [1; 2], [])
  /\ dec_msg 5 (firstn 3 (put_nets [1; 2; 3])) = Err DecodingError
  /\ dec_msg 5 (put_nets [1; 2] ++ [0; 9]) = Ok (RouterAvailable [1; 2; 9], [])
  /\ run_history [OpDecMsg 5 [0;1]; OpDecMsg 5 [0;2]; OpEncMsg (RouterAvailable [])]
     = [RDecMsg (Ok (RouterAvailable [1], [])); RDecMsg (Ok (RouterAvailable [2], [])); REncMsg (Ok [])].
Proof. vm_compute. repeat split; reflexivity. Qed.

Example C08_reenc_examples :
  reenc [1; 0x6C; 0; 5; 1; 9; 0; 2; 1; 44; 7; 0xAA] = Ok [1; 0x2C; 0; 5; 1; 9; 0; 2; 1; 44; 7; 0xAA]   (* bit 6 dropped *)
  /\ reenc_fwd (mkFwd (Some (RStation 3 [8])) false) [1; 0x70; 0; 5; 1; 9; 7; 0xAA]
     = Ok (Some [1; 0x28; 0; 5; 1; 9; 0; 3; 1; 8; 6; 0xAA])          (* bits 6,4 dropped, SADR added, hop count 6 *)
  /\ reenc_fwd (mkFwd None true) [1; 0x20; 0; 5; 1; 9; 0] = Ok None                                   (* hop count 0 *)
  /\ reenc_frame [1; 0xD0; 5; 0; 1; 0; 2] = Ok [1; 0x80; 5; 0; 1; 0; 2].
Proof. vm_compute. repeat split; reflexivity. Qed.

(* the translated functions compute: the example frames above through the code as translated *)
Example C08_translated_examples :
  gen_enc_npdu (mkNpci 1 true 3 (Some (RStation 5 [1;2;3])) (Some (RStation 7 [9])) (Some 255) None None) [1;2]
    = Ok [1; 0x2F; 0; 5; 3; 1; 2; 3; 0; 7; 1; 9; 255; 1; 2]
  /\ gen_dec_npci [1; 0x2F; 0; 5; 3; 1; 2; 3; 0; 7; 1; 9; 255; 1; 2]
    = Ok (0x2F, mkNpci 1 true 3 (Some (RStation 5 [1;2;3])) (Some (RStation 7 [9])) (Some 255) None None, [1;2])
  /\ gen_dec_npci [1; 8; 0; 5; 0] = Err DecodingError
  /\ gen_enc_msg (InitRT [mkRte 5 1 [1;2]; mkRte 6 2 []]) = Ok [2; 0; 5; 1; 2; 1; 2; 0; 6; 2; 0]
  /\ gen_dec_msg 6 [2; 0; 5; 1; 2; 1; 2; 0; 6; 2; 0; 9] = Ok (InitRT [mkRte 5 1 [1;2]; mkRte 6 2 []], [9])
  /\ gen_dec_msg 1 [0; 5; 1; 0; 7] = Err DecodingError
  /\ gen_dec_msg 1 [0; 5; 1; 0] = Ok (IAmRouter [5; 256], [])
  /\ gen_dec_frame [1; 0x80; 5; 0; 1; 0; 2] = Ok (0x80, mkNpci 1 false 0 None None None (Some 5) None, RouterAvailable [1; 2], []).
Proof. vm_compute. repeat split; reflexivity. Qed.
